(* Completeness and most-generality of the engine's unification on unifiable inputs,
   failure means there is no unifier, and symmetry. *)
From Coq Require Import List Arith Bool Lia ZArith.
Import ListNotations.
From YP Require Import Base.Str Term.Term Unify.Unify.
Set Implicit Arguments.

Definition sub := nat -> term.
Fixpoint app (th:sub) (t:term) : term :=
  match t with TVar v => th v | TFun f args => TFun f (map (app th) args) | _ => t end.
Fixpoint size (t:term) : nat :=
  match t with TFun _ args => S (fold_right (fun x n => size x + n) 0 args) | _ => 1 end.

(* th is an instance of the store: it respects every binding *)
Definition sat (th:sub) (s:store) := forall t, app th (den s t) = app th t.

Lemma app_subst1 th v a x : th v = app th a -> app th (subst1 v a x) = app th x.
Proof.
  intros H. induction x as [c|z|q|w|f args IH] using term_ind'; simpl; auto.
  - destruct (Nat.eqb w v) eqn:E; simpl; auto. apply Nat.eqb_eq in E; subst. symmetry; exact H.
  - f_equal. rewrite map_map. apply map_ext_Forall. exact IH.
Qed.

Lemma sat_bind th s v a : sat th s -> free_in s a -> th v = app th a -> sat th ((v,a)::s).
Proof.
  intros St F H t. simpl. rewrite (den_id F). rewrite app_subst1; auto.
Qed.

Lemma size_pos t : 1 <= size t. Proof. destruct t; simpl; lia. Qed.

Lemma size_arg f args x : In x args -> size x < size (TFun f args).
Proof.
  simpl. induction args as [|y l IH]; simpl; intros H; [contradiction|].
  destruct H as [H|H]; [subst; lia|]. specialize (IH H). lia.
Qed.

Lemma occurs_size th v a : occurs v a = true -> a <> TVar v -> size (th v) < size (app th a).
Proof.
  induction a as [c|z|q|w|f args IH] using term_ind'; simpl; intros O N; try discriminate.
  - apply Nat.eqb_eq in O. subst. congruence.
  - apply existsb_exists in O as [x [Hin Ox]].
    rewrite Forall_forall in IH.
    assert (size (th v) <= size (app th x)).
    { destruct x as [c|z|q|w|g l]; simpl in Ox; try discriminate.
      - apply Nat.eqb_eq in Ox; subst. simpl. lia.
      - assert (Hn: TFun g l <> TVar v) by discriminate.
        specialize (IH _ Hin Ox Hn). lia. }
    assert (In (app th x) (map (app th) args)) by (apply in_map; exact Hin).
    pose proof (@size_arg f _ _ H0). simpl in H1. lia.
Qed.

Definition complete_at (th:sub) (k:nat) :=
  forall s t1 t2, size (app th t1) < k -> wf s -> sat th s -> app th t1 = app th t2 ->
  exists s', unify k s t1 t2 = UOk s' /\ sat th s'.

Lemma arr_complete th k : complete_at th k ->
  forall xs ys s, (forall x, In x xs -> size (app th x) < k) -> wf s -> sat th s ->
  map (app th) xs = map (app th) ys ->
  exists s', arr (unify k) xs ys s = UOk s' /\ sat th s'.
Proof.
  intros HC. induction xs as [|a ar IH]; intros [|b br] s Hs W St E; simpl in E; try discriminate.
  - exists s; split; auto.
  - inversion E. destruct (HC s a b) as [s1 [U1 S1]]; auto. { apply Hs; left; reflexivity. }
    simpl. rewrite U1. destruct (unify_sound _ _ _ W U1) as [W1 _].
    apply IH; auto. intros x Hx; apply Hs; right; exact Hx.
Qed.

Lemma bind_complete th s v a : sat th s -> free_in s a -> th v = app th a -> a <> TVar v ->
  exists s', bind s v a = UOk s' /\ sat th s'.
Proof.
  intros St F H N. unfold bind. destruct (occurs v a) eqn:O.
  - (* a proper superterm of v has a larger instance than v, so th cannot equate the two: the occurs
       check does not fire *)
    pose proof (@occurs_size th v a O N) as L. rewrite H in L. lia.
  - eexists; split; [reflexivity|]. apply sat_bind; auto.
Qed.

Lemma clash_no_unifier th a1 a2 : kind_of a1 a2 = KClash -> app th a1 <> app th a2.
Proof.
  destruct a1 as [x|x|x|v|f xs]; destruct a2 as [y|y|y|w|g ys]; cbn [kind_of app]; intros K E;
    try discriminate; inversion E; subst.
  - rewrite str_eqb_refl in K. discriminate.
  - rewrite Z.eqb_refl in K. discriminate.
  - rewrite str_eqb_refl in K. discriminate.
  - destruct (Nat.eqb v w); discriminate.
  - rewrite str_eqb_refl, <- (map_length (app th) xs), <- (map_length (app th) ys), H1, Nat.eqb_refl in K.
    discriminate.
Qed.

Theorem unify_complete th : forall k, complete_at th k.
Proof.
  induction k as [|k IH]; intros s t1 t2 Hk W St E; [lia|].
  assert (E1: app th (den s t1) = app th t1) by apply St.
  assert (E2: app th (den s t2) = app th t2) by apply St.
  assert (EE: app th (den s t1) = app th (den s t2)) by congruence.
  pose proof (den_free W t1) as F1. pose proof (den_free W t2) as F2.
  rewrite unify_S.
  remember (den s t1) as a1. remember (den s t2) as a2.
  pose proof (kind_ofP a1 a2) as P.
  remember (kind_of a1 a2) as kd eqn:K.   (* the equation is for the failing case *)
  destruct P as [a|v a N|v a N| |f xs ys _].
  - exists s. auto.
  - apply bind_complete; auto.
  - apply bind_complete; auto.
  - destruct (@clash_no_unifier th a1 a2 (eq_sym K) EE).
  - (* the fuel bounds the size of the common instance app th t1; the arguments have smaller instances
       (size_arg), so k is enough for them *)
    cbn [app] in EE. inversion EE as [EA]. apply arr_complete; auto.
    intros x Hx. pose proof (@size_arg f _ _ (in_map (app th) xs x Hx)) as L.
    rewrite <- E1 in Hk. cbn [app] in Hk. lia.
Qed.

(* readable corollary: if any substitution that respects the current bindings unifies the two terms,
   unification succeeds with enough fuel, the result is acyclic, extends the store, equates the terms,
   and every such substitution is an instance of the result (most general). *)
Corollary unify_mgu s t1 t2 th : wf s -> sat th s -> app th t1 = app th t2 ->
  exists n s', unify n s t1 t2 = UOk s' /\ wf s' /\ ext s s' /\ den s' t1 = den s' t2 /\ sat th s'.
Proof.
  intros W St E. destruct (@unify_complete th (S (size (app th t1))) s t1 t2) as [s' [U S']]; auto.
  destruct (unify_sound _ _ _ W U) as [W' [X D]]. exists (S (size (app th t1))), s'. auto.
Qed.

(* the result store, read as a substitution *)
Definition sub_of (s:store) : sub := fun v => den s (TVar v).

Lemma app_sub_of s t : app (sub_of s) t = den s t.
Proof.
  induction t as [c|z|q|w|f args IH] using term_ind'; simpl.
  - symmetry; apply den_atom.
  - symmetry; apply den_int.
  - symmetry; apply den_str.
  - reflexivity.
  - rewrite den_fun. f_equal. apply map_ext_Forall. exact IH.
Qed.

Lemma sat_sub_of s s' : wf s -> ext s s' -> sat (sub_of s') s.
Proof.
  intros W [nw E] t. subst s'. rewrite !app_sub_of. apply den_ext_den; exact W.
Qed.

(* a substitution that respects the bindings of the start respects the older ones *)
Lemma sat_ext th h h' : wf h -> ext h h' -> sat th h' -> sat th h.
Proof.
  intros W [nw E] S t. subst h'.
  rewrite <- (S (den h t)). rewrite den_ext_den by exact W. apply S.
Qed.

(* failure (as opposed to running out of fuel, or hitting a cyclic case) means that no
   substitution that respects the active bindings unifies the two terms *)
Theorem unify_fail_no_unifier n s t1 t2 th :
  wf s -> unify n s t1 t2 = UFail -> sat th s -> app th t1 <> app th t2.
Proof.
  intros W F St E.
  destruct (unify_mgu t1 t2 W St E) as [k [s' [U _]]].
  assert (A: UFail = UOk s') by (apply (@unify_det n k s t1 t2 _ _ F U); discriminate). discriminate.
Qed.

(* most general: every unifier respecting the active bindings is an instance of the result *)
Theorem unify_most_general n s t1 t2 s' th :
  wf s -> unify n s t1 t2 = UOk s' -> sat th s -> app th t1 = app th t2 -> sat th s'.
Proof.
  intros W U St E.
  destruct (unify_mgu t1 t2 W St E) as [k [s'' [U' [_ [_ [_ S'']]]]]].
  assert (A: UOk s' = UOk s'') by (apply (@unify_det n k s t1 t2 _ _ U U'); discriminate).
  inversion A; subst s''. exact S''.
Qed.

(* symmetry: swapping the arguments succeeds as well, and the two results are instances
   of each other (equal up to the direction of variable-variable bindings) *)
Theorem unify_sym_ok n s t1 t2 s' :
  wf s -> unify n s t1 t2 = UOk s' ->
  exists k s'', unify k s t2 t1 = UOk s'' /\ wf s'' /\ sat (sub_of s') s'' /\ sat (sub_of s'') s'.
Proof.
  intros W U. destruct (unify_sound _ _ _ W U) as [W' [X D]].
  assert (S1: sat (sub_of s') s) by (apply sat_sub_of; auto).
  assert (E1: app (sub_of s') t2 = app (sub_of s') t1) by (rewrite !app_sub_of; congruence).
  destruct (unify_mgu t2 t1 W S1 E1) as [k [s'' [U2 [W2 [X2 [D2 S2]]]]]].
  exists k, s''. split; [exact U2|]. split; [exact W2|]. split; [exact S2|].
  assert (S3: sat (sub_of s'') s) by (apply sat_sub_of; auto).
  assert (E3: app (sub_of s'') t1 = app (sub_of s'') t2) by (rewrite !app_sub_of; congruence).
  exact (@unify_most_general n s t1 t2 s' (sub_of s'') W U S3 E3).
Qed.

Theorem unify_sym_fail n s t1 t2 :
  wf s -> unify n s t1 t2 = UFail -> forall k s'', unify k s t2 t1 <> UOk s''.
Proof.
  intros W F k s'' U. destruct (unify_sound _ _ _ W U) as [W' [X D]].
  apply (@unify_fail_no_unifier n s t1 t2 (sub_of s'') W F).
  - apply sat_sub_of; auto.
  - rewrite !app_sub_of. congruence.
Qed.

Lemma unify_result_resolved n s t1 t2 s' :
  wf s -> unify n s t1 t2 = UOk s' -> den s' t1 = den s' t2 /\ free_in s' (den s' t1).
Proof.
  intros W U. destruct (unify_sound _ _ _ W U) as [W' [X D]]. split; auto. apply den_free; auto.
Qed.
