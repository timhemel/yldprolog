(* Unification as GENERATOR OBJECTS over a mutable heap (engine.py: unify, Atom.unify,
   Variable.unify, Functor.unify, unify_arrays, YPSuccess, YPFail): the generator model of
   properties C02 and C03.

   The heap is the association list of the cells that are bound NOW (newest binding first);
   binding conses, unbinding (`self._is_bound = False`) removes the cell's entry, wherever it is.
   `den h t` (Term.v) is the engine's deep get_value under the heap h.

   `unify(a,b)` is an ordinary function: it dereferences both sides and RETURNS an object
   (mk_unify).  The objects:
     GSucc done        YPSuccess (done = its _done flag)          GFail   YPFail
     GVarFresh v t     generator object of Variable.unify(v, t) whose body has not started
     GVarSelf          ... suspended at the `yield` of the self-unification branch (nothing bound)
     GVarBound v       ... suspended inside `try: yield finally: self._is_bound = False`
     GVarDeleg g       ... suspended inside `for l1 in unify(self, term): yield False` (v was bound when the
                       body started: only an object started later than it was created, LateStart.v)
     GArrFresh xs ys   generator object of unify_arrays(xs, ys), body not started
     GArrHeld held     ... suspended at its `yield` inside the try; `held` = its list `iterators`
                       (all the sub-generators it created, in creation order)
     GDone             a generator whose body has finished
   next = __next__, close = close(); dropping the last reference is close (CPython finalises an
   unreferenced generator at once - trusted, exercised by the correspondence run). *)
From Coq Require Import List Arith Bool ZArith.
Import ListNotations.
From YP Require Import Base.Str Term.Term Unify.Unify.
Set Implicit Arguments.

Definition heap := store.
Definition keys (h:heap) : list nat := map fst h.

(* the cell v becomes unbound *)
Definition unbind (v:nat) (h:heap) : heap := filter (fun p => negb (Nat.eqb (fst p) v)) h.

Inductive gen :=
| GSucc (done:bool) | GFail
| GVarFresh (v:nat) (t:term) | GVarSelf | GVarBound (v:nat) | GVarDeleg (g:gen)
| GArrFresh (xs ys:list term) | GArrHeld (held:list gen)
| GDone.

Section GenInd.
  Variable P : gen -> Prop.
  Hypothesis Hsucc : forall b, P (GSucc b).
  Hypothesis Hfail : P GFail.
  Hypothesis Hvf : forall v t, P (GVarFresh v t).
  Hypothesis Hvs : P GVarSelf.
  Hypothesis Hvb : forall v, P (GVarBound v).
  Hypothesis Hvd : forall g, P g -> P (GVarDeleg g).
  Hypothesis Haf : forall xs ys, P (GArrFresh xs ys).
  Hypothesis Hah : forall held, Forall P held -> P (GArrHeld held).
  Hypothesis Hdone : P GDone.
  Fixpoint gen_ind' (g:gen) : P g :=
    match g with
    | GSucc b => Hsucc b | GFail => Hfail | GVarFresh v t => Hvf v t | GVarSelf => Hvs
    | GVarBound v => Hvb v | GVarDeleg g' => Hvd (gen_ind' g')
    | GArrFresh xs ys => Haf xs ys
    | GArrHeld held => Hah ((fix go (l:list gen) : Forall P l :=
         match l with [] => Forall_nil P | x::r => Forall_cons x (gen_ind' x) (go r) end) held)
    | GDone => Hdone
    end.
End GenInd.

(* engine.unify / Atom.unify / Functor.unify: dereference, dispatch, return an object *)
Definition mk_unify (h:heap) (t1 t2:term) : gen :=
  let a1 := den h t1 in let a2 := den h t2 in
  match a1, a2 with
  | TVar v, _ => GVarFresh v a2                    (* arg1.unify(arg2), arg1 a Variable *)
  | _, TVar w => GVarFresh w a1                    (* Atom/Functor.unify: `return arg.unify(self)`; constants: arg2.unify(arg1) *)
  | TAtom x, TAtom y => if str_eqb x y then GSucc false else GFail
  | TInt x, TInt y => if Z.eqb x y then GSucc false else GFail
  | TStr x, TStr y => if str_eqb x y then GSucc false else GFail
  | TFun f xs, TFun g ys => if str_eqb f g then GArrFresh xs ys else GFail
  | _, _ => GFail
  end.

(* close(): runs the pending `finally` blocks *)
Fixpoint close (h:heap) (g:gen) : heap * gen :=
  match g with
  | GSucc b => (h, GSucc b)                        (* YPSuccess.close / YPFail.close: pass *)
  | GFail => (h, GFail)
  | GVarBound v => (unbind v h, GDone)
  | GVarDeleg g' => (fst (close h g'), GDone)      (* the for-loop's iterator is dropped *)
  | GArrHeld held =>
      ((fix go (h:heap) (l:list gen) : heap :=
          match l with [] => h | x::r => go (fst (close h x)) r end) h held, GDone)
  | _ => (h, GDone)
  end.

(* unify_arrays' finally: `for i in range(num_iterators): iterators[i].close()` - creation order *)
Fixpoint close_all (h:heap) (l:list gen) : heap :=
  match l with [] => h | x::r => close_all (fst (close h x)) r end.

Lemma close_arr h held : close h (GArrHeld held) = (close_all h held, GDone).
Proof.
  cbn [close]. reflexivity.
Qed.

Definition is_var (v:nat) (t:term) : bool := match t with TVar w => Nat.eqb w v | _ => false end.

Section Open.
  Variable N : heap -> gen -> option (heap * gen * bool).
  (* the first loop of unify_arrays: create and advance the sub-generators from left to right,
     stop at the first that does not yield (it IS in the list: num_iterators was incremented) *)
  Fixpoint open_arr (h:heap) (xs ys:list term) : option (heap * list gen * bool) :=
    match xs, ys with
    | a::ar, b::br =>
        match N h (mk_unify h a b) with
        | None => None
        | Some (h1, g1, true) =>
            match open_arr h1 ar br with
            | None => None
            | Some (h2, gs, ok) => Some (h2, g1::gs, ok)
            end
        | Some (h1, g1, false) => Some (h1, [g1], false)
        end
    | _, _ => Some (h, [], true)
    end.
End Open.

(* __next__: Some (heap, generator, yielded?) ; None = not enough fuel *)
Fixpoint next (n:nat) (h:heap) (g:gen) : option (heap * gen * bool) :=
  match n with O => None | S n =>
    match g with
    | GSucc false => Some (h, GSucc true, true)
    | GSucc true => Some (h, GSucc true, false)
    | GFail => Some (h, GFail, false)
    | GDone => Some (h, GDone, false)
    | GVarFresh v t =>
        match lookup v h with
        | None =>                                        (* if not self._is_bound *)
            let val := den h t in                        (* self._value = get_value(term) *)
            if is_var v val then Some (h, GVarSelf, true)
            else Some ((v,val)::h, GVarBound v, true)
        | Some _ =>                                      (* for l1 in unify(self, term): yield False *)
            match next n h (mk_unify h (TVar v) t) with
            | None => None
            | Some (h', g', true) => Some (h', GVarDeleg g', true)
            | Some (h', _, false) => Some (h', GDone, false)
            end
        end
    | GVarSelf => Some (h, GDone, false)
    | GVarBound v => Some (unbind v h, GDone, false)     (* finally: self._is_bound = False *)
    | GVarDeleg g' =>
        match next n h g' with
        | None => None
        | Some (h', g'', true) => Some (h', GVarDeleg g'', true)
        | Some (h', _, false) => Some (h', GDone, false)
        end
    | GArrFresh xs ys =>
        if Nat.eqb (length xs) (length ys) then
          match open_arr (next n) h xs ys with
          | None => None
          | Some (h', held, true) => Some (h', GArrHeld held, true)
          | Some (h', held, false) => Some (close_all h' held, GDone, false)
          end
        else Some (h, GDone, false)                      (* `return` before the try *)
    | GArrHeld held => Some (close_all h held, GDone, false)
    end
  end.

(* the cells a generator will unbind when it is resumed or closed *)
Fixpoint cells (g:gen) : list nat :=
  match g with
  | GVarBound v => [v]
  | GVarDeleg g' => cells g'
  | GArrHeld held => (fix go (l:list gen) : list nat := match l with [] => [] | x::r => cells x ++ go r end) held
  | _ => []
  end.
Fixpoint cells_all (l:list gen) : list nat := match l with [] => [] | x::r => cells x ++ cells_all r end.
Lemma cells_arr held : cells (GArrHeld held) = cells_all held.
Proof. cbn [cells]. reflexivity. Qed.

(* remove the entries of the cells vs, keep everything else in place *)
Definition rm (vs:list nat) (h:heap) : heap :=
  filter (fun p => negb (existsb (Nat.eqb (fst p)) vs)) h.

Lemma rm_nil h : rm [] h = h.
Proof. unfold rm. induction h as [|p h IH]; simpl in *; auto. rewrite IH. reflexivity. Qed.

Lemma unbind_rm v h : unbind v h = rm [v] h.
Proof.
  unfold unbind, rm. apply filter_ext. intros p. simpl. rewrite orb_false_r. reflexivity.
Qed.

Lemma rm_app a b h : rm (a ++ b) h = rm b (rm a h).
Proof.
  unfold rm. induction h as [|p h IH]; simpl; auto.
  rewrite existsb_app. destruct (existsb (Nat.eqb (fst p)) a) eqn:Ea; simpl.
  - exact IH.
  - destruct (existsb (Nat.eqb (fst p)) b); simpl; rewrite IH; reflexivity.
Qed.

Lemma rm_none vs h : (forall k, In k vs -> lookup k h = None) -> rm vs h = h.
Proof.
  unfold rm. induction h as [|[k t] h IH]; intros F; simpl; [reflexivity|].
  destruct (existsb (Nat.eqb k) vs) eqn:E.
  - apply existsb_exists in E as [x [Hx Ex]]. apply Nat.eqb_eq in Ex. subst x.
    specialize (F k Hx). simpl in F. rewrite Nat.eqb_refl in F. discriminate.
  - simpl. f_equal. apply IH. intros x Hx. specialize (F x Hx). simpl in F.
    destruct (Nat.eqb x k); [discriminate|exact F].
Qed.

Lemma rm_restore vs nw h :
  (forall k, In k (keys nw) -> In k vs) -> (forall k, In k vs -> lookup k h = None) -> rm vs (nw ++ h) = h.
Proof.
  intros K F. induction nw as [|[k t] nw IH]; [apply rm_none; exact F|].
  unfold rm. cbn [app filter fst].
  assert (E: existsb (Nat.eqb k) vs = true).
  { apply existsb_exists. exists k. split; [apply K; left; reflexivity|apply Nat.eqb_refl]. }
  rewrite E. apply IH. intros x Hx. apply K. right. exact Hx.
Qed.

(* closing removes exactly the generator's cells from whatever heap it is closed under
   (this is what makes the non-LIFO closing order of unify_arrays harmless) *)
Lemma close_rm g : forall h, fst (close h g) = rm (cells g) h.
Proof.
  induction g as [b| |v t| |v|g IH|xs ys|held IH|] using gen_ind'; intros h;
    try (cbn [close cells fst]; rewrite ?rm_nil; reflexivity).
  - cbn [close cells fst]. apply unbind_rm.
  - cbn [close cells fst]. apply IH.
  - rewrite close_arr, cells_arr. cbn [fst]. revert h.
    induction IH as [|x r Hx Hr IHr]; intros h; simpl.
    + symmetry. apply rm_nil.
    + rewrite rm_app, IHr, Hx. reflexivity.
Qed.

Lemma close_all_rm l h : close_all h l = rm (cells_all l) h.
Proof.
  revert h. induction l as [|x r IH]; intros h; simpl.
  - symmetry. apply rm_nil.
  - rewrite rm_app, IH, close_rm. reflexivity.
Qed.

(* states in which a generator can be after its first __next__: resuming it never yields *)
Inductive quiet : gen -> Prop :=
| q_succ : quiet (GSucc true) | q_fail : quiet GFail | q_done : quiet GDone
| q_self : quiet GVarSelf | q_bound v : quiet (GVarBound v)
| q_deleg g : quiet g -> quiet (GVarDeleg g)
| q_held held : Forall quiet held -> quiet (GArrHeld held).

(* states in which a generator is before its first __next__ *)
Definition fresh (g:gen) : Prop :=
  match g with GSucc false | GFail | GVarFresh _ _ | GArrFresh _ _ => True | _ => False end.

Lemma mk_unify_fresh h a b : fresh (mk_unify h a b).
Proof.
  unfold mk_unify. destruct (den h a) as [x|x|x|v|f xs]; destruct (den h b) as [y|y|y|w|g ys]; simpl; auto;
  match goal with |- context[if ?c then _ else _] => destruct c; simpl; auto end.
Qed.
Lemma fresh_cells g : fresh g -> cells g = [].
Proof. destruct g as [[|]| | | | | | | |]; simpl; intros H; auto; contradiction. Qed.

(* resuming a suspended / finished generator: no yield, exactly its cells are unbound *)
Lemma next_quiet n : forall g h h' g' y, quiet g -> next n h g = Some (h', g', y) ->
  y = false /\ h' = rm (cells g) h /\ quiet g' /\ cells g' = [].
Proof.
  induction n as [|n IH]; intros g h h' g' y Q H; [discriminate|].
  assert (K: forall g1, quiet g1 -> cells g1 = [] -> Some (h, g1, false) = Some (h', g', y) ->
             y = false /\ h' = rm [] h /\ quiet g' /\ cells g' = []).
  { intros g1 Q1 C1 E. inversion E; subst. rewrite rm_nil. auto. }
  destruct Q as [ | | | |v|g Q|held Q]; cbn [next] in H.
  - exact (K _ q_succ eq_refl H).
  - exact (K _ q_fail eq_refl H).
  - exact (K _ q_done eq_refl H).
  - exact (K _ q_done eq_refl H).
  - inversion H; subst. cbn [cells]. rewrite unbind_rm. repeat split; constructor.
  - destruct (next n h g) as [[[h1 g1] y1]|] eqn:E; [|discriminate].
    destruct (IH _ _ _ _ _ Q E) as [Y [Hh [Q1 C1]]]. subst y1.
    inversion H; subst. cbn [cells]. repeat split; constructor.
  - inversion H; subst. rewrite cells_arr, close_all_rm. repeat split; constructor.
Qed.

Definition owns (h:heap) (cs:list nat) (hc:heap) : Prop :=
  exists nw, hc = nw ++ h /\ (forall k, In k (keys nw) <-> In k cs)
             /\ (forall k, In k cs -> lookup k h = None).

Lemma owns_nil h : owns h [] h.
Proof. exists []. simpl. repeat split; auto; contradiction. Qed.

Lemma owns_app h c1 h1 c2 h2 : owns h c1 h1 -> owns h1 c2 h2 -> owns h (c1 ++ c2) h2.
Proof.
  intros [nw1 [E1 [K1 F1]]] [nw2 [E2 [K2 F2]]]. exists (nw2 ++ nw1). subst h2 h1.
  split; [apply app_assoc|]. unfold keys in *. split.
  - intros k. rewrite map_app. split; intros H; apply in_app_or in H as [H|H]; apply in_or_app.
    + right. apply K2. exact H.
    + left. apply K1. exact H.
    + right. apply K1. exact H.
    + left. apply K2. exact H.
  - intros k H. apply in_app_or in H as [H|H]; [exact (F1 k H)|].
    specialize (F2 k H). rewrite lookup_app in F2. destruct (lookup k nw1); [discriminate|exact F2].
Qed.

Lemma owns_restore h cs hc : owns h cs hc -> rm cs hc = h.
Proof. intros [nw [E [K F]]]. subst hc. apply rm_restore; [intros k Hk; apply K; exact Hk|exact F]. Qed.

(* what holds between a base heap h, a generator that was started under h, and the heap now *)
Definition held_over (h:heap) (g:gen) (hc:heap) : Prop :=
  quiet g /\ exists nw, hc = nw ++ h /\ (forall k, In k (keys nw) <-> In k (cells g))
                        /\ (forall k, In k (cells g) -> lookup k h = None).

Lemma held_over_owns h g hc : held_over h g hc <-> quiet g /\ owns h (cells g) hc.
Proof. reflexivity. Qed.

Lemma held_over_close h g hc : held_over h g hc -> fst (close hc g) = h.
Proof. intros Ho. apply held_over_owns in Ho as [_ O]. rewrite close_rm. exact (owns_restore O). Qed.

Lemma held_over_nocells h g : quiet g -> cells g = [] -> held_over h g h.
Proof. intros Q C. apply held_over_owns. split; [exact Q|]. rewrite C. apply owns_nil. Qed.

Lemma close_no_cells h g : cells (snd (close h g)) = [].
Proof. destruct g as [[|]| |v t| |v|g|xs ys|held|]; reflexivity. Qed.

Lemma close_quiet h g : quiet g -> quiet (snd (close h g)).
Proof. intros Q. destruct Q; cbn [close snd]; constructor. Qed.

Lemma close_nocells_heap h g : cells g = [] -> fst (close h g) = h.
Proof. intros C. rewrite close_rm, C. apply rm_nil. Qed.

Definition first_post (h:heap) (r:heap * gen * bool) : Prop :=
  let '(h1, g1, y) := r in
  held_over h g1 h1 /\ (y = false -> h1 = h /\ cells g1 = []).

Lemma open_arr_post (N:heap -> gen -> option (heap * gen * bool)) :
  (forall h g r, fresh g -> N h g = Some r -> first_post h r) ->
  forall xs ys h h' held ok, open_arr N h xs ys = Some (h', held, ok) ->
    Forall quiet held /\ owns h (cells_all held) h'.
Proof.
  intros HN. induction xs as [|a ar IH]; intros ys h h' held ok H.
  - simpl in H. inversion H; subst. split; [constructor|apply owns_nil].
  - destruct ys as [|b br]; simpl in H.
    { inversion H; subst. split; [constructor|apply owns_nil]. }
    destruct (N h (mk_unify h a b)) as [[[h1 g1] y1]|] eqn:E; [|discriminate].
    pose proof (HN _ _ _ (mk_unify_fresh h a b) E) as [Ho Hn]. apply held_over_owns in Ho as [Q1 O1].
    destruct y1.
    + destruct (open_arr N h1 ar br) as [[[h2 gs] ok2]|] eqn:E2; [|discriminate].
      inversion H; subst h' held ok.
      destruct (IH _ _ _ _ _ E2) as [Qs O2].
      split; [constructor; auto|]. exact (owns_app O1 O2).
    + inversion H; subst h' held ok. destruct (Hn eq_refl) as [Eh C1].
      split; [constructor; auto|]. cbn [cells_all]. rewrite C1. subst h1. apply owns_nil.
Qed.

(* the first __next__ of a fresh generator *)
Lemma next_fresh n : forall h g r, fresh g -> next n h g = Some r -> first_post h r.
Proof.
  induction n as [|n IH]; intros h g r F H; [discriminate|].
  destruct g as [[|]| |v t| |v|g|xs ys|held|]; simpl in F; try contradiction; cbn [next] in H.
  - inversion H; subst. split; [apply held_over_nocells; constructor|discriminate].
  - inversion H; subst. split; [apply held_over_nocells; constructor|auto].
  - destruct (lookup v h) as [b|] eqn:L.
    + destruct (next n h (mk_unify h (TVar v) t)) as [[[h1 g1] y1]|] eqn:E; [|discriminate].
      pose proof (IH _ _ _ (mk_unify_fresh _ _ _) E) as [Ho Hn]. apply held_over_owns in Ho as [Q1 O1].
      destruct y1; inversion H; subst.
      * split; [|discriminate]. apply held_over_owns. split; [constructor; auto|exact O1].
      * destruct (Hn eq_refl) as [Eh _]. rewrite Eh. split; [apply held_over_nocells; constructor|auto].
    + destruct (is_var v (den h t)); inversion H; subst.
      * split; [apply held_over_nocells; constructor|discriminate].
      * split; [|discriminate]. apply held_over_owns. split; [constructor|].
        exists [(v, den h t)]. cbn [cells keys map fst].
        repeat split; auto. intros k [A|[]]. subst. exact L.
  - destruct (Nat.eqb (length xs) (length ys)).
    + destruct (open_arr (next n) h xs ys) as [[[h1 held] ok]|] eqn:E; [|discriminate].
      destruct (open_arr_post (next n) IH _ _ _ E) as [Qs O].
      destruct ok; inversion H; subst.
      * split; [|discriminate]. apply held_over_owns. split; [constructor; auto|]. rewrite cells_arr. exact O.
      * rewrite close_all_rm, (owns_restore O). split; [apply held_over_nocells; constructor|auto].
    + inversion H; subst. split; [apply held_over_nocells; constructor|auto].
Qed.

(* A consumer drives one generator object with any sequence of __next__ / close() calls.
   Between two calls it leaves the heap as the generator left it (LIFO use: whatever the
   consumer binds while the generator is suspended it has unbound again before it resumes,
   closes or drops the generator).  Dropping the last reference is OClose. *)
Inductive op := ONext | OClose.

Fixpoint drive (n:nat) (h:heap) (g:gen) (ops:list op) : option (heap * gen * list bool) :=
  match ops with
  | [] => Some (h, g, [])
  | ONext :: r =>
      match next n h g with
      | None => None
      | Some (h1, g1, y) =>
          match drive n h1 g1 r with None => None | Some (hf, gf, ys) => Some (hf, gf, y::ys) end
      end
  | OClose :: r => drive n (fst (close h g)) (snd (close h g)) r
  end.

Definition inv (h:heap) (g:gen) (hc:heap) : Prop := (fresh g /\ hc = h) \/ held_over h g hc.

Lemma held_over_next n h g hc h' g' y : held_over h g hc -> next n hc g = Some (h', g', y) ->
  y = false /\ h' = h /\ held_over h g' h.
Proof.
  intros Ho H. pose proof (held_over_close Ho) as C. destruct Ho as [Q _].
  destruct (@next_quiet n g hc h' g' y Q H) as [Y [Eh [Q' C']]]. rewrite close_rm in C.
  subst. repeat split; auto. apply held_over_nocells; auto.
Qed.

Lemma held_over_end m hp g h h1 g1 y : held_over hp g h -> next m h g = Some (h1, g1, y) ->
  y = false /\ h1 = hp /\ quiet g1 /\ cells g1 = [].
Proof.
  intros Ho N. destruct (@held_over_next m _ _ _ _ _ _ Ho N) as [Y [Eh _]].
  destruct (@next_quiet m g h h1 g1 y (proj1 Ho) N) as [_ [_ [Q1 C1]]]. auto.
Qed.

Lemma held_over_closed h g hc : held_over h g hc ->
  held_over h (snd (close hc g)) (fst (close hc g)) /\ fst (close hc g) = h.
Proof.
  intros Ho. pose proof (held_over_close Ho) as C. rewrite C. split; [|reflexivity].
  apply held_over_nocells; [apply close_quiet; exact (proj1 Ho)|apply close_no_cells].
Qed.

Lemma close_state h g hc : inv h g hc -> inv h (snd (close hc g)) (fst (close hc g)) /\ fst (close hc g) = h.
Proof.
  intros [[F E]|Ho].
  - subst hc. destruct g as [[|]| |v t| |v|g|xs ys|held|]; simpl in F; try contradiction; cbn [close fst snd];
      (split; [|reflexivity]); try (left; split; [exact I|reflexivity]);
      right; apply held_over_nocells; constructor.
  - destruct (held_over_closed Ho) as [A B]. split; [right; exact A|exact B].
Qed.

Lemma drive_held n ops : forall h g hc hf gf ys, held_over h g hc ->
  drive n hc g ops = Some (hf, gf, ys) -> held_over h gf hf /\ Forall (fun y => y = false) ys.
Proof.
  induction ops as [|[|] r IH]; intros h g hc hf gf ys Ho H; cbn [drive] in H.
  - inversion H; subst. auto.
  - destruct (next n hc g) as [[[h1 g1] y1]|] eqn:E; [|discriminate].
    destruct (drive n h1 g1 r) as [[[hf' gf'] ys']|] eqn:D; [|discriminate]. inversion H; subst.
    destruct (@held_over_next n _ _ _ _ _ _ Ho E) as [Y [Eh Ho']]. subst.
    destruct (IH _ _ _ _ _ _ Ho' D) as [A B]. auto.
  - destruct (held_over_closed Ho) as [Ho' C]. eapply IH; eauto.
Qed.

Fixpoint count_true (l:list bool) : nat := match l with [] => 0 | true::r => S (count_true r) | false::r => count_true r end.
Lemma count_true_false l : Forall (fun y => y = false) l -> count_true l = 0.
Proof. induction 1 as [|y l Hy _ IH]; simpl; auto. subst. exact IH. Qed.

Lemma drive_inv n ops : forall h g hc hf gf ys, inv h g hc ->
  drive n hc g ops = Some (hf, gf, ys) -> inv h gf hf /\ count_true ys <= 1.
Proof.
  induction ops as [|[|] r IH]; intros h g hc hf gf ys J H.
  - cbn [drive] in H. inversion H; subst. simpl. auto.
  - destruct J as [[F E]|Ho].
    + subst hc. cbn [drive] in H.
      destruct (next n h g) as [[[h1 g1] y1]|] eqn:E; [|discriminate].
      destruct (drive n h1 g1 r) as [[[hf' gf'] ys']|] eqn:D; [|discriminate]. inversion H; subst.
      pose proof (@next_fresh n h g _ F E) as [Ho _].
      destruct (@drive_held n r _ _ _ _ _ _ Ho D) as [A B]. split; [right; exact A|].
      cbn [count_true]. rewrite (count_true_false B). destruct y1; auto.
    + destruct (@drive_held n _ _ _ _ _ _ _ Ho H) as [A B]. split; [right; exact A|]. rewrite (count_true_false B). auto.
  - cbn [drive] in H. destruct (close_state J) as [J' C]. eapply IH; eauto.
Qed.

(* Restoration.  h: any heap; a generator object that has not been started (in unify_gen_restores: the one created by
   unify(t1,t2) under h) is driven from h by any sequence of next/close calls (any number k of nexts,
   closed or dropped at any point).  Then
   (1) at every point the heap is the initial heap plus bindings of cells that were unbound in h
       - nothing of h is changed, and those bindings are exactly the cells the generator still owns;
   (2) close() (or dropping it) at that point gives back exactly h;
   (3) a further __next__ either is the one and only yield, or gives back exactly h (exhaustion);
   (4) it yields at most once. *)
Theorem drive_fresh_restores n h g ops hf gf ys :
  fresh g -> drive n h g ops = Some (hf, gf, ys) ->
  (exists nw, hf = nw ++ h /\ (forall k, In k (keys nw) -> lookup k h = None)
              /\ (forall k, In k (keys nw) <-> In k (cells gf)))
  /\ fst (close hf gf) = h
  /\ (forall m h2 g2 y2, next m hf gf = Some (h2, g2, y2) -> y2 = false -> h2 = h)
  /\ count_true ys <= 1.
Proof.
  intros F0 H.
  assert (J0: inv h g h) by (left; split; [exact F0|reflexivity]).
  destruct (@drive_inv n ops _ _ _ _ _ _ J0 H) as [J C]. repeat split; auto.
  - destruct J as [[F E]|[Q [nw [E [K Fr]]]]].
    + exists []. subst. rewrite (fresh_cells _ F). simpl. repeat split; auto; contradiction.
    + exists nw. repeat split; auto; try apply K. intros k Hk. apply Fr. apply K. exact Hk.
  - apply (close_state J).
  - intros m h2 g2 y2 N Y. destruct J as [[F E]|Ho].
    + subst hf. pose proof (@next_fresh m h gf _ F N) as [_ Hn]. apply Hn. exact Y.
    + destruct (@held_over_next m _ _ _ _ _ _ Ho N) as [_ [Eh _]]. exact Eh.
Qed.

Theorem unify_gen_restores n h t1 t2 ops hf gf ys :
  drive n h (mk_unify h t1 t2) ops = Some (hf, gf, ys) ->
  (exists nw, hf = nw ++ h /\ (forall k, In k (keys nw) -> lookup k h = None)
              /\ (forall k, In k (keys nw) <-> In k (cells gf)))
  /\ fst (close hf gf) = h
  /\ (forall m h2 g2 y2, next m hf gf = Some (h2, g2, y2) -> y2 = false -> h2 = h)
  /\ count_true ys <= 1.
Proof. apply drive_fresh_restores. apply mk_unify_fresh. Qed.

Lemma drive_app n a : forall b h g,
  drive n h g (a ++ b) =
  match drive n h g a with
  | None => None
  | Some (hm, gm, ym) =>
      match drive n hm gm b with None => None | Some (hf, gf, yb) => Some (hf, gf, ym ++ yb) end
  end.
Proof.
  induction a as [|[|] r IH]; intros b h g; cbn [app drive].
  - destruct (drive n h g b) as [[[? ?] ?]|]; reflexivity.
  - destruct (next n h g) as [[[h1 g1] y1]|]; [|reflexivity]. rewrite IH.
    destruct (drive n h1 g1 r) as [[[hm gm] ym]|]; [|reflexivity].
    destruct (drive n hm gm b) as [[[? ?] ?]|]; reflexivity.
  - apply IH.
Qed.

Corollary unify_gen_close_restores n h t1 t2 ops hf gf ys :
  drive n h (mk_unify h t1 t2) (ops ++ [OClose]) = Some (hf, gf, ys) -> hf = h.
Proof.
  rewrite drive_app. destruct (drive n h (mk_unify h t1 t2) ops) as [[[hm gm] ym]|] eqn:A; [|discriminate].
  cbn [drive]. intros H. inversion H; subst.
  destruct (@unify_gen_restores n h t1 t2 ops hm gm ym A) as [_ [C _]]. exact C.
Qed.

Corollary unify_gen_exhaust_restores n h t1 t2 ops hf gf ys :
  drive n h (mk_unify h t1 t2) (ops ++ [ONext]) = Some (hf, gf, ys ++ [false]) -> hf = h.
Proof.
  rewrite drive_app. destruct (drive n h (mk_unify h t1 t2) ops) as [[[hm gm] ym]|] eqn:A; [|discriminate].
  cbn [drive]. destruct (next n hm gm) as [[[h1 g1] y1]|] eqn:B; [|discriminate].
  intros H. inversion H; subst. apply app_inj_tail in H3 as [_ Y]. subst y1.
  destruct (@unify_gen_restores n h t1 t2 ops hm gm ym A) as [_ [_ [C _]]]. eapply C; [exact B|reflexivity].
Qed.

Theorem unify_gen_yields_at_most_once n h t1 t2 ops hf gf ys :
  drive n h (mk_unify h t1 t2) ops = Some (hf, gf, ys) -> count_true ys <= 1.
Proof. intros H. destruct (@unify_gen_restores n h t1 t2 ops hf gf ys H) as [_ [_ [_ C]]]. exact C. Qed.

(* Link with the store-passing model of C02: whenever Unify.unify succeeds with store s',
   the first __next__ of the generator object yields with the heap EQUAL to s' (the same
   bindings in the same order, hence the same map); whenever it fails the generator does not
   yield and the heap is unchanged. *)
Definition yields_as (r:ures) (o:option (heap * gen * bool)) : Prop :=
  (forall s', r = UOk s' -> exists g1, o = Some (s', g1, true)) /\
  (r = UFail -> exists hx g1, o = Some (hx, g1, false)).

(* Variable.unify on a cell that is not bound: no fuel is needed *)
Lemma var_unbound_start n h v a : lookup v h = None ->
  yields_as (if is_var v (den h a) then UOk h else bind h v (den h a)) (next (S n) h (GVarFresh v a)).
Proof.
  intros L. cbn [next]. rewrite L. destruct (is_var v (den h a)); split.
  - intros s' H. inversion H; subst s'. eauto.
  - discriminate.
  - intros s' H. apply bind_ok in H as [_ ->]. eauto.
  - unfold bind. destruct (occurs v (den h a)); discriminate.
Qed.

Lemma kind_of_var v x : kind_of (TVar v) x = if is_var v x then KSame else KBind v x.
Proof. destruct x; try reflexivity. cbn [kind_of is_var]. rewrite Nat.eqb_sym. reflexivity. Qed.

Definition link_at (n:nat) : Prop := forall h t1 t2, wf h ->
  yields_as (unify n h t1 t2) (next n h (mk_unify h t1 t2)).

Lemma open_arr_link n : link_at n -> forall xs ys s, wf s ->
  (forall s', arr (unify n) xs ys s = UOk s' -> exists held, open_arr (next n) s xs ys = Some (s', held, true)) /\
  (arr (unify n) xs ys s = UFail -> length xs = length ys ->
     exists hx held, open_arr (next n) s xs ys = Some (hx, held, false)).
Proof.
  intros L. induction xs as [|a ar IH]; intros [|b br] s W; simpl; split; intros; try discriminate.
  - inversion H; subst. eauto.
  - destruct (L s a b W) as [Lo Lf].
    destruct (unify n s a b) as [s1| | |] eqn:E; try discriminate.
    destruct (Lo _ eq_refl) as [g1 N1]. rewrite N1.
    destruct (@unify_sound n s a b s1 W E) as [W1 _].
    destruct (IH br s1 W1) as [A _]. destruct (A _ H) as [held Hh]. rewrite Hh. eauto.
  - destruct (L s a b W) as [Lo Lf].
    destruct (unify n s a b) as [s1| | |] eqn:E; try discriminate.
    + destruct (Lo _ eq_refl) as [g1 N1]. rewrite N1.
      destruct (@unify_sound n s a b s1 W E) as [W1 _].
      destruct (IH br s1 W1) as [_ B]. destruct (B H (eq_add_S _ _ H0)) as [hx [held Hh]]. rewrite Hh. eauto.
    + destruct (Lf eq_refl) as [hx [g1 N1]]. rewrite N1. eauto.
Qed.

Lemma arrays_link_at n : link_at n -> forall h xs ys, wf h ->
  yields_as (unify_arrays n h xs ys) (next (S n) h (GArrFresh xs ys)).
Proof.
  intros LK h xs ys W. unfold unify_arrays. cbn [next].
  destruct (Nat.eqb (length xs) (length ys)) eqn:C.
  - destruct (open_arr_link LK xs ys W) as [A B]. split.
    + intros s' H. destruct (A _ H) as [held Hh]. rewrite Hh. eauto.
    + intros H. destruct (B H (proj1 (Nat.eqb_eq _ _) C)) as [hx [held Hh]]. rewrite Hh. eauto.
  - split; [discriminate|]. intros _. eauto.
Qed.

Lemma nonvar_is_var v a : nonvar a -> is_var v a = false.
Proof. destruct a; try reflexivity. contradiction. Qed.

(* what one step of Unify.unify does and the object that unify() returns, side by side, read off the
   two dereferenced arguments *)
Inductive mk_spec : term -> term -> ukind -> gen -> Prop :=
| mk_const a : nonvar a -> mk_spec a a KSame (GSucc false)
| mk_var_l v a : mk_spec (TVar v) a (if is_var v a then KSame else KBind v a) (GVarFresh v a)
| mk_var_r v a : nonvar a -> mk_spec a (TVar v) (KBind v a) (GVarFresh v a)
| mk_clash a1 a2 : nonvar a1 -> nonvar a2 -> mk_spec a1 a2 KClash GFail
| mk_fun f xs ys :
    mk_spec (TFun f xs) (TFun f ys)
            (if Nat.eqb (length xs) (length ys) then KArgs xs ys else KClash) (GArrFresh xs ys).

Lemma mk_unifyP h t1 t2 :
  mk_spec (den h t1) (den h t2) (kind_of (den h t1) (den h t2)) (mk_unify h t1 t2).
Proof.
  unfold mk_unify.
  destruct (den h t1) as [x|x|x|v|f xs]; try (rewrite kind_of_var; destruct (den h t2); constructor);
    destruct (den h t2) as [y|y|y|w|g ys]; cbn [kind_of]; try (constructor; exact I).
  - destruct (str_eqb_spec x y) as [->|_]; constructor; exact I.
  - destruct (Z.eqb_spec x y) as [->|_]; constructor; exact I.
  - destruct (str_eqb_spec x y) as [->|_]; constructor; exact I.
  - destruct (str_eqb_spec f g) as [->|_]; constructor; exact I.
Qed.

Lemma gen_link n : link_at n.
Proof.
  induction n as [|n IH]; intros h t1 t2 W; [split; intros; discriminate|].
  (* a variable side is an unbound cell, the other side is resolved *)
  assert (BV: forall v a t u, den h t = TVar v -> den h u = a ->
    yields_as (if is_var v a then UOk h else bind h v a) (next (S n) h (GVarFresh v a))).
  { intros v a t u Ev Ea.
    assert (L: lookup v h = None).
    { apply (den_free W t). rewrite Ev. simpl. apply Nat.eqb_refl. }
    assert (Da: den h a = a) by (rewrite <- Ea; apply den_idem; exact W).
    pose proof (@var_unbound_start n h v a L) as R. rewrite Da in R. exact R. }
  rewrite unify_S. pose proof (mk_unifyP h t1 t2) as P.
  remember (den h t1) as a1 eqn:E1. remember (den h t2) as a2 eqn:E2. symmetry in E1, E2.
  destruct P as [a _|v a|v a V|b1 b2 _ _|f xs ys].
  - split; [|discriminate]. intros s' H. inversion H; subst s'. cbn [next]. eauto.
  - pose proof (BV v a t1 t2 E1 E2) as R. destruct (is_var v a); exact R.
  - pose proof (BV v a t2 t1 E2 E1) as R. rewrite (nonvar_is_var v a V) in R. exact R.
  - split; [discriminate|]. intros _. cbn [next]. eauto.
  - pose proof (arrays_link_at IH xs ys W) as A. unfold unify_arrays in A.
    destruct (Nat.eqb (length xs) (length ys)); exact A.
Qed.

Lemma yields_as_fresh r n h g : fresh g -> yields_as r (next n h g) ->
  (forall s', r = UOk s' -> exists g1, next n h g = Some (s', g1, true) /\ fst (close s' g1) = h) /\
  (r = UFail -> exists g1, next n h g = Some (h, g1, false)).
Proof.
  intros F [A B]. split.
  - intros s' H. destruct (A _ H) as [g1 N]. exists g1. split; [exact N|].
    pose proof (@next_fresh n h g _ F N) as [Ho _]. exact (held_over_close Ho).
  - intros H. destruct (B H) as [hx [g1 N]].
    pose proof (@next_fresh n h g _ F N) as [_ Hn]. destruct (Hn eq_refl) as [E _]. subst hx. eauto.
Qed.

Theorem unify_gen_matches_unify n h t1 t2 : wf h ->
  (forall s', unify n h t1 t2 = UOk s' ->
     exists g1, next n h (mk_unify h t1 t2) = Some (s', g1, true) /\ fst (close s' g1) = h) /\
  (unify n h t1 t2 = UFail -> exists g1, next n h (mk_unify h t1 t2) = Some (h, g1, false)).
Proof. intros W. exact (@yields_as_fresh _ n h _ (mk_unify_fresh h t1 t2) (gen_link n t1 t2 W)). Qed.

(* non-vacuity: f(X, g(Y), X) = f(a, g(Z), W) under [Z := b]; three cells get bound, closing in
   creation order (X first, although W was bound last) gives back the initial heap *)
Example gen_ex :
  let h := [(2, TAtom [98%N])] in
  let t1 := TFun [102%N] [TVar 0; TFun [103%N] [TVar 1]; TVar 0] in
  let t2 := TFun [102%N] [TAtom [97%N]; TFun [103%N] [TVar 2]; TVar 3] in
  exists g1, next 10 h (mk_unify h t1 t2) = Some ([(3, TAtom [97%N]); (1, TAtom [98%N]); (0, TAtom [97%N])] ++ h, g1, true)
    /\ cells g1 = [0;1;3] /\ fst (close ([(3, TAtom [97%N]); (1, TAtom [98%N]); (0, TAtom [97%N])] ++ h) g1) = h.
Proof. eexists. vm_compute. repeat split. Qed.

(* the same link for a unify_arrays generator created directly (Answer.match) *)
Theorem arrays_gen_matches_unify n h xs ys : wf h ->
  (forall s', unify_arrays n h xs ys = UOk s' ->
     exists g1, next (S n) h (GArrFresh xs ys) = Some (s', g1, true)) /\
  (unify_arrays n h xs ys = UFail -> exists g1, next (S n) h (GArrFresh xs ys) = Some (h, g1, false)).
Proof.
  intros W.
  destruct (@yields_as_fresh _ (S n) h (GArrFresh xs ys) I (arrays_link_at (gen_link n) xs ys W)) as [A B].
  split; [|exact B]. intros s' H. destruct (A _ H) as [g1 [N _]]. eauto.
Qed.

(* fuel: a result, once returned, does not depend on the fuel; a generator that has been
   advanced once can always be resumed *)
Lemma open_arr_mono (N N':heap -> gen -> option (heap * gen * bool)) :
  (forall h g r, N h g = Some r -> N' h g = Some r) ->
  forall xs ys h r, open_arr N h xs ys = Some r -> open_arr N' h xs ys = Some r.
Proof.
  intros HN. induction xs as [|a ar IH]; intros [|b br] h r H; simpl in *; auto.
  destruct (N h (mk_unify h a b)) as [[[h1 g1] y1]|] eqn:E; [|discriminate].
  rewrite (HN _ _ _ E). destruct y1; auto.
  destruct (open_arr N h1 ar br) as [[[h2 gs] ok]|] eqn:E2; [|discriminate].
  rewrite (IH _ _ _ E2). exact H.
Qed.

Lemma next_mono_S n : forall h g r, next n h g = Some r -> next (S n) h g = Some r.
Proof.
  induction n as [|n IH]; intros h g r H; [discriminate|].
  remember (S n) as m eqn:Hm. rewrite Hm in H at 1. cbn [next] in H. cbn [next].
  destruct g as [[|]| |v t| |v|g|xs ys|held|]; auto.
  - destruct (lookup v h); auto.
    destruct (next n h (mk_unify h (TVar v) t)) as [[[h1 g1] y1]|] eqn:E; [|discriminate].
    subst m. rewrite (IH _ _ _ E). exact H.
  - destruct (next n h g) as [[[h1 g1] y1]|] eqn:E; [|discriminate].
    subst m. rewrite (IH _ _ _ E). exact H.
  - destruct (Nat.eqb (length xs) (length ys)); auto.
    destruct (open_arr (next n) h xs ys) as [[[h1 held] ok]|] eqn:E; [|discriminate].
    subst m. rewrite (open_arr_mono (next n) (next (S n)) IH _ _ _ E). exact H.
Qed.

Lemma next_mono n m h g r : next n h g = Some r -> n <= m -> next m h g = Some r.
Proof. intros H L. induction L; auto. apply next_mono_S; auto. Qed.

Lemma next_det n m h g r r' : next n h g = Some r -> next m h g = Some r' -> r = r'.
Proof.
  intros A B.
  pose proof (next_mono _ _ A (Nat.le_max_l n m)) as A'.
  pose proof (next_mono _ _ B (Nat.le_max_r n m)) as B'.
  congruence.
Qed.

Lemma quiet_next_total g : quiet g -> forall h, exists n r, next n h g = Some r.
Proof.
  induction 1 as [ | | | |v|g Q IH|held Q]; intros h; try (exists 1; eexists; reflexivity).
  destruct (IH h) as [n [[[h1 g1] y1] E]]. exists (S n). cbn [next]. rewrite E.
  destruct y1; eexists; reflexivity.
Qed.

Lemma yields_as_mono r n m h g : yields_as r (next n h g) -> n <= m -> yields_as r (next m h g).
Proof.
  intros [A B] L. split.
  - intros s' H. destruct (A _ H) as [g1 N]. exists g1. exact (next_mono _ _ N L).
  - intros H. destruct (B H) as [hx [g1 N]]. exists hx, g1. exact (next_mono _ _ N L).
Qed.
