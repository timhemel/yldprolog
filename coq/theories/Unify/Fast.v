(* unify with den_fast in place of den: the same function (unify_fast_eq), cheap to evaluate. *)
From Coq Require Import List Arith Bool ZArith.
Import ListNotations.
From YP Require Import Base.Str Term.Term Term.Fast Unify.Unify.

Fixpoint unify_fast (n:nat) (s:store) (t1 t2:term) : ures :=
  match n with O => UOof | S n =>
    let a1 := den_fast s t1 in let a2 := den_fast s t2 in
    match a1, a2 with
    | TVar v, TVar w => if Nat.eqb v w then UOk s else UOk ((v,a2)::s)
    | TVar v, _ => bind s v a2
    | _, TVar w => bind s w a1
    | TAtom x, TAtom y => if str_eqb x y then UOk s else UFail
    | TInt x, TInt y => if Z.eqb x y then UOk s else UFail
    | TStr x, TStr y => if str_eqb x y then UOk s else UFail
    | TFun f xs, TFun g ys =>
        if str_eqb f g then (if Nat.eqb (length xs) (length ys) then arr (unify_fast n) xs ys s else UFail) else UFail
    | _, _ => UFail
    end end.

Lemma unify_fast_eq n : forall s t1 t2, unify_fast n s t1 t2 = unify n s t1 t2.
Proof.
  induction n as [|n IH]; intros s t1 t2; [reflexivity|].
  cbn [unify_fast unify]. rewrite !den_fast_eq.
  destruct (den s t1) as [x|x|x|v|f xs]; destruct (den s t2) as [y|y|y|w|g ys]; auto.
  destruct (str_eqb f g); auto. destruct (Nat.eqb (length xs) (length ys)); auto.
  apply arr_ext. exact IH.
Qed.

Lemma unify_fast_ext n s a b s' : unify_fast n s a b = UOk s' -> ext s s'.
Proof. rewrite unify_fast_eq. apply unify_ext_store. Qed.

Definition unify_arrays_fast (n:nat) (s:store) (xs ys:list term) : ures :=
  if Nat.eqb (length xs) (length ys) then arr (unify_fast n) xs ys s else UFail.

Lemma unify_arrays_fast_eq n s xs ys : unify_arrays_fast n s xs ys = unify_arrays n s xs ys.
Proof.
  unfold unify_arrays_fast, unify_arrays. destruct (Nat.eqb (length xs) (length ys)); auto.
  apply arr_ext. apply unify_fast_eq.
Qed.
