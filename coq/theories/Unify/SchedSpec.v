(* The schedule-level statement of C02 for nested (LIFO) use of unification generators whose creation and
   start are different moments.

   exec  - the event runner on GENERATOR OBJECTS (UnifyGen.mk_unify at the call, next at every __next__, close at
           close()/drop): the list of (yielded?, heap) after every event.  It is what RunUnifySched.run shows
           (run_is_exec).
   srun  - the SPECIFICATION of the same events by the store-passing algorithm alone: a stack of active
           unifications; starting an object = Unify.unify, under the bindings of that moment, on the two terms as
           they were dereferenced when unify() was called; exhausting / closing the top one = going back to the
           bindings before it was started.  srun is undefined (None) outside the property's domain: a start that
           needs a cyclic term, an operation on an active generator that is not the top one, a next on an object
           that was closed before it was started, a second unify() into a slot that is in use.  Its trace also lists the equations of the ACTIVE unifications. *)
From Coq Require Import String.
From Coq Require Import List Arith Bool.
Import ListNotations.
From YP Require Import Base.Str Term.Term Term.Show Unify.Unify Unify.Mgu Unify.UnifyGen Unify.LateStart Unify.RunUnifySched.

Fixpoint exec (fuel : nat) (h : heap) (sl : list (nat * gen)) (evs : list sev) : option (list (bool * heap)) :=
  match evs with
  | [] => Some []
  | e :: r =>
      let step (y : bool) (h1 : heap) (sl1 : list (nat * gen)) :=
        match exec fuel h1 sl1 r with None => None | Some l => Some ((y, h1) :: l) end in
      match e with
      | SCreate i a b => step false h (sset i (mk_unify h a b) sl)
      | SNext i =>
          match sget i sl with
          | None => step false h sl
          | Some g => match next fuel h g with None => None | Some (h1, g1, y) => step y h1 (sset i g1 sl) end
          end
      | SClose i =>
          match sget i sl with
          | None => step false h sl
          | Some g => step false (fst (close h g)) (sset i (snd (close h g)) sl)
          end
      end
  end.

Inductive sslot := SFresh (u1 u2 : term) | SActive | SDone | SClosed.
Definition aent := (nat * heap * (term * term))%type.      (* generator, bindings before its start, its equation *)

Fixpoint ssget (i : nat) (ss : list (nat * sslot)) : option sslot :=
  match ss with [] => None | (j, g) :: r => if Nat.eqb i j then Some g else ssget i r end.
Definition ssset (i : nat) (g : sslot) (ss : list (nat * sslot)) : list (nat * sslot) := (i, g) :: ss.

Definition eqs_of (act : list aent) : list (term * term) := rev (map snd act).

Fixpoint srun (n : nat) (h : heap) (act : list aent) (ss : list (nat * sslot)) (evs : list sev)
  : option (list (bool * heap * list (term * term))) :=
  match evs with
  | [] => Some []
  | e :: r =>
      let step (y : bool) (h1 : heap) (act1 : list aent) (ss1 : list (nat * sslot)) :=
        match srun n h1 act1 ss1 r with None => None | Some l => Some ((y, h1, eqs_of act1) :: l) end in
      let pop (i : nat) :=
        match act with
        | (j, hp, _) :: act' => if Nat.eqb i j then step false hp act' (ssset i SDone ss) else None
        | [] => None
        end in
      match e with
      | SCreate i a b =>
          match ssget i ss with
          | Some _ => None
          | None => step false h act (ssset i (SFresh (fst (start_pair h a b)) (snd (start_pair h a b))) ss)
          end
      | SNext i =>
          match ssget i ss with
          | None => step false h act ss
          | Some SDone => step false h act ss
          | Some (SFresh u1 u2) =>
              match unify n h u1 u2 with
              | UOk h1 => step true h1 ((i, h, (u1, u2)) :: act) (ssset i SActive ss)
              | UFail => step false h act (ssset i SDone ss)
              | _ => None
              end
          | Some SActive => pop i
          | Some SClosed => None
          end
      | SClose i =>
          match ssget i ss with
          | None => step false h act ss
          | Some SActive => pop i
          | Some SDone => step false h act ss
          | Some _ => step false h act (ssset i SClosed ss)
          end
      end
  end.

Lemma sget_sset_eq i g sl : sget i (sset i g sl) = Some g.
Proof. unfold sset. cbn [sget]. rewrite Nat.eqb_refl. reflexivity. Qed.

Lemma sget_filter k i sl : k <> i -> sget k (filter (fun p => negb (Nat.eqb i (fst p))) sl) = sget k sl.
Proof.
  intros N. induction sl as [|[j g] r IH]; cbn [filter sget fst]; [reflexivity|].
  destruct (Nat.eqb i j) eqn:E; cbn [negb].
  - apply Nat.eqb_eq in E. subst j. rewrite IH. destruct (Nat.eqb k i) eqn:E2; [apply Nat.eqb_eq in E2; congruence|reflexivity].
  - cbn [sget]. rewrite IH. reflexivity.
Qed.

Lemma sget_sset_neq k i g sl : k <> i -> sget k (sset i g sl) = sget k sl.
Proof.
  intros N. unfold sset. cbn [sget]. destruct (Nat.eqb k i) eqn:E; [apply Nat.eqb_eq in E; congruence|].
  apply sget_filter. exact N.
Qed.

Lemma ssget_ssset_eq i g ss : ssget i (ssset i g ss) = Some g.
Proof. unfold ssset. cbn [ssget]. rewrite Nat.eqb_refl. reflexivity. Qed.
Lemma ssget_ssset_neq k i g ss : k <> i -> ssget k (ssset i g ss) = ssget k ss.
Proof. intros N. unfold ssset. cbn [ssget]. destruct (Nat.eqb k i) eqn:E; [apply Nat.eqb_eq in E; congruence|reflexivity]. Qed.

Definition slot_rel (og : option gen) (os : option sslot) : Prop :=
  match os, og with
  | None, None => True
  | Some (SFresh u1 u2), Some g => exists hc a b, g = mk_unify hc a b /\ start_pair hc a b = (u1, u2)
  | Some SActive, Some g => True
  | Some SDone, Some g => quiet g /\ cells g = []
  | Some SClosed, Some g => cells g = []
  | _, _ => False
  end.

Definition ids (act : list aent) : list nat := map (fun x => fst (fst x)) act.

(* the active generators, newest first: each one holds exactly the bindings made since the heap before its
   start, and that step was Unify.unify on its equation *)
Inductive chain (n : nat) (sl : list (nat * gen)) : heap -> list aent -> Prop :=
| chain_nil : chain n sl [] []
| chain_cons i hp e act g h :
    sget i sl = Some g -> held_over hp g h -> wf hp -> unify n hp (fst e) (snd e) = UOk h ->
    chain n sl hp act -> ~ In i (ids act) -> chain n sl h ((i, hp, e) :: act).

Definition rel (n : nat) (h : heap) (sl : list (nat * gen)) (act : list aent) (ss : list (nat * sslot)) : Prop :=
  (forall k, slot_rel (sget k sl) (ssget k ss)) /\ chain n sl h act /\
  (forall k, In k (ids act) -> ssget k ss = Some SActive).

Lemma chain_wf n sl h act : chain n sl h act -> wf h.
Proof.
  induction 1 as [|i hp e act g h G Ho W U C IH N]; [constructor|].
  destruct (unify_sound _ _ _ W U) as [W' _]. exact W'.
Qed.

Lemma chain_sset n sl h act i g : chain n sl h act -> ~ In i (ids act) -> chain n (sset i g sl) h act.
Proof.
  induction 1 as [|j hp e act g0 h G Ho W U C IH N]; intros NI; [constructor|].
  cbn [ids map fst] in NI. econstructor; eauto.
  - rewrite sget_sset_neq; [exact G|]. intros E. apply NI. left. cbn [fst]. congruence.
  - apply IH. intros I. apply NI. right. exact I.
Qed.

Lemma not_active_not_in n h sl act ss i : rel n h sl act ss -> ssget i ss <> Some SActive -> ~ In i (ids act).
Proof. intros [_ [_ A]] N I. apply N. apply A. exact I. Qed.

Lemma rel_set n h sl act ss ss' i g :
  rel n h sl act ss -> ~ In i (ids act) ->
  slot_rel (Some g) (ssget i ss') -> (forall k, k <> i -> ssget k ss' = ssget k ss) ->
  rel n h (sset i g sl) act ss'.
Proof.
  intros [R [C A]] NI S E. split; [|split].
  - intros k. destruct (Nat.eq_dec k i) as [->|N].
    + rewrite sget_sset_eq. exact S.
    + rewrite sget_sset_neq, (E k N) by exact N. apply R.
  - apply chain_sset; auto.
  - intros k I. rewrite E; [apply A; exact I|]. intros ->. contradiction.
Qed.

Lemma rel_update n h sl act ss i g s :
  rel n h sl act ss -> ~ In i (ids act) -> slot_rel (Some g) (Some s) ->
  rel n h (sset i g sl) act (ssset i s ss).
Proof.
  intros R NI S. eapply rel_set; [exact R|exact NI| |].
  - rewrite ssget_ssset_eq. exact S.
  - intros k N. apply ssget_ssset_neq. exact N.
Qed.

Lemma rel_keep n h sl act ss i g :
  rel n h sl act ss -> ssget i ss = Some SDone -> quiet g -> cells g = [] -> rel n h (sset i g sl) act ss.
Proof.
  intros R Es Q C. eapply rel_set; [exact R| | |].
  - eapply not_active_not_in; [exact R|]. rewrite Es. discriminate.
  - rewrite Es. split; assumption.
  - reflexivity.
Qed.

Lemma rel_push n h sl act ss i g h1 e :
  rel n h sl act ss -> ~ In i (ids act) -> held_over h g h1 -> unify n h (fst e) (snd e) = UOk h1 ->
  rel n h1 (sset i g sl) ((i, h, e) :: act) (ssset i SActive ss).
Proof.
  intros [R [C A]] NI Ho U. split; [|split].
  - intros k. destruct (Nat.eq_dec k i) as [->|N].
    + rewrite sget_sset_eq, ssget_ssset_eq. exact I.
    + rewrite sget_sset_neq, ssget_ssset_neq by exact N. apply R.
  - econstructor; [apply sget_sset_eq|exact Ho|eapply chain_wf; exact C|exact U| |exact NI].
    apply chain_sset; auto.
  - intros k [E|I0]; [cbn [fst] in E; subst k; apply ssget_ssset_eq|].
    rewrite ssget_ssset_neq; [apply A; exact I0|]. intros ->. contradiction.
Qed.

Lemma chain_top n sl h i hp e act : chain n sl h ((i, hp, e) :: act) ->
  exists g, sget i sl = Some g /\ held_over hp g h.
Proof. intros C. inversion C; subst. eauto. Qed.

Lemma rel_pop n h sl i hp e act ss g :
  rel n h sl ((i, hp, e) :: act) ss -> quiet g -> cells g = [] ->
  rel n hp (sset i g sl) act (ssset i SDone ss).
Proof.
  intros [R [C A]] Q Cg. inversion C; subst. apply rel_update; [|assumption|split; assumption].
  split; [exact R|split; [assumption|]]. intros k I. apply A. right. exact I.
Qed.

Definition tr_of (l : list (bool * heap * list (term * term))) : list (bool * heap) := map fst l.

Theorem sched_refines_gen n m evs : forall h sl act ss tr tr',
  rel n h sl act ss -> srun n h act ss evs = Some tr -> exec m h sl evs = Some tr' -> tr' = tr_of tr.
Proof.
  induction evs as [|e r IH]; intros h sl act ss tr tr' R S X.
  - cbn in S, X. inversion S; inversion X; reflexivity.
  - assert (STEP: forall y h1 sl1 act1 ss1,
       match srun n h1 act1 ss1 r with None => None | Some l => Some ((y, h1, eqs_of act1) :: l) end = Some tr ->
       match exec m h1 sl1 r with None => None | Some l => Some ((y, h1) :: l) end = Some tr' ->
       rel n h1 sl1 act1 ss1 -> tr' = tr_of tr).
    { intros y h1 sl1 act1 ss1 S1 X1 R1.
      destruct (srun n h1 act1 ss1 r) as [l|] eqn:ES; [|discriminate].
      destruct (exec m h1 sl1 r) as [l'|] eqn:EX; [|discriminate].
      inversion S1; inversion X1; subst. cbn [tr_of map fst]. f_equal. exact (IH _ _ _ _ _ _ R1 ES EX). }
    pose proof R as [Rs [C _]]. assert (W: wf h) by (eapply chain_wf; exact C).
    assert (NI: forall i s, ssget i ss = s -> s <> Some SActive -> ~ In i (ids act)).
    { intros i s <-. eapply not_active_not_in. exact R. }
    destruct e as [i a b|i|i]; cbn [srun exec] in S, X; pose proof (Rs i) as Ri.
    + (* create *)
      destruct (ssget i ss) as [s|] eqn:Es; [discriminate|].
      apply (STEP _ _ _ _ _ S X). apply rel_update; [exact R|apply (NI i _ Es); discriminate|].
      cbn [slot_rel]. exists h, a, b. split; [reflexivity|]. destruct (start_pair h a b); reflexivity.
    + (* next *)
      destruct (ssget i ss) as [s|] eqn:Es.
      2:{ destruct (sget i sl) as [g|] eqn:Eg; [contradiction|]. exact (STEP _ _ _ _ _ S X R). }
      destruct (sget i sl) as [g|] eqn:Eg; [|destruct s; contradiction].
      destruct (next m h g) as [[[h1 g1] y]|] eqn:EN; [|discriminate].
      destruct s as [u1 u2| | |]; cbn [slot_rel] in Ri.
      * (* fresh: the late start *)
        destruct Ri as [hc [a [b [-> SP]]]].
        assert (NIi: ~ In i (ids act)) by (apply (NI i _ Es); discriminate).
        destruct (@late_start_matches_unify n hc h a b W) as [LO LF]. rewrite SP in LO, LF. cbn [fst snd] in LO, LF.
        destruct (unify n h u1 u2) as [s'| | |] eqn:EU; try discriminate.
        -- destruct (LO _ eq_refl) as [g1' [N1 _]].
           pose proof (@next_det _ _ _ _ _ _ EN N1) as Q. inversion Q; subst h1 g1 y.
           pose proof (@next_fresh _ h _ _ (mk_unify_fresh hc a b) N1) as [Ho _].
           apply (STEP _ _ _ _ _ S X). exact (rel_push _ _ _ _ _ _ _ _ (u1, u2) R NIi Ho EU).
        -- destruct (LF eq_refl) as [g1' N1].
           pose proof (@next_det _ _ _ _ _ _ EN N1) as Q. inversion Q; subst h1 g1 y.
           pose proof (@next_fresh _ h _ _ (mk_unify_fresh hc a b) N1) as [[Qg _] Hn].
           destruct (Hn eq_refl) as [_ Cg].
           apply (STEP _ _ _ _ _ S X). apply rel_update; [exact R|exact NIi|split; assumption].
      * (* active: must be the top one; it is exhausted *)
        destruct act as [|[[j hp] e0] act']; [discriminate|].
        destruct (Nat.eqb i j) eqn:E; [|discriminate]. apply Nat.eqb_eq in E. subst j.
        apply chain_top in C as [g0 [G0 Ho]]. rewrite Eg in G0. inversion G0; subst g0.
        eapply held_over_end in EN as [Y [Eh [Q1 C1]]]; [|exact Ho]. subst y h1.
        apply (STEP _ _ _ _ _ S X). eapply rel_pop; eassumption.
      * (* done *)
        destruct Ri as [Qg Cg].
        destruct (@next_quiet m g h h1 g1 y Qg EN) as [Y [Eh [Q1 C1]]]. rewrite Cg, rm_nil in Eh. subst y h1.
        apply (STEP _ _ _ _ _ S X). eapply rel_keep; eassumption.
      * discriminate.
    + (* close *)
      destruct (ssget i ss) as [s|] eqn:Es.
      2:{ destruct (sget i sl) as [g|] eqn:Eg; [contradiction|]. exact (STEP _ _ _ _ _ S X R). }
      destruct (sget i sl) as [g|] eqn:Eg; [|destruct s; contradiction].
      destruct s as [u1 u2| | |]; cbn [slot_rel] in Ri.
      * (* fresh object closed before it was started *)
        destruct Ri as [hc [a [b [-> SP]]]].
        rewrite (close_nocells_heap h _ (fresh_cells _ (mk_unify_fresh hc a b))) in X.
        apply (STEP _ _ _ _ _ S X).
        apply rel_update; [exact R|apply (NI i _ Es); discriminate|apply close_no_cells].
      * (* active: the top one is closed *)
        destruct act as [|[[j hp] e0] act']; [discriminate|].
        destruct (Nat.eqb i j) eqn:E; [|discriminate]. apply Nat.eqb_eq in E. subst j.
        apply chain_top in C as [g0 [G0 Ho]]. rewrite Eg in G0. inversion G0; subst g0.
        rewrite (held_over_close Ho) in X. destruct Ho as [Qg _].
        apply (STEP _ _ _ _ _ S X). eapply rel_pop; [exact R|apply close_quiet; exact Qg|apply close_no_cells].
      * (* done *)
        destruct Ri as [Qg Cg]. rewrite (close_nocells_heap h g Cg) in X.
        apply (STEP _ _ _ _ _ S X). eapply rel_keep; [exact R|exact Es|apply close_quiet; exact Qg|apply close_no_cells].
      * (* closed again *)
        rewrite (close_nocells_heap h g Ri) in X.
        apply (STEP _ _ _ _ _ S X).
        apply rel_update; [exact R|apply (NI i _ Es); discriminate|apply close_no_cells].
Qed.

Lemma rel_init n : rel n [] [] [] [].
Proof. split; [|split]; [intros k; exact I|constructor|intros k []]. Qed.

(* The schedule theorem.  Any sequence of events over any number of unify generator objects - unify() CALLED at
   one event, started at a later one, other objects created / started / exhausted / closed in between - that stays
   inside the property's domain (started objects are used as a stack; no start needs a cyclic term): the generator
   objects yield exactly when the specification says and the bindings after every event are the specification's. *)
Theorem sched_refines n m evs tr tr' :
  srun n [] [] [] evs = Some tr -> exec m [] [] evs = Some tr' -> tr' = tr_of tr.
Proof. intros S X. exact (@sched_refines_gen n m evs [] [] [] [] tr tr' (rel_init n) S X). Qed.

(* spec-level invariant: the heap is the result of the store-passing algorithm over the active equations *)
Inductive schain (n : nat) : heap -> list aent -> Prop :=
| schain_nil : schain n [] []
| schain_cons i hp e act h : unify n hp (fst e) (snd e) = UOk h -> schain n hp act -> schain n h ((i, hp, e) :: act).

Lemma schain_stack n h act : schain n h act -> stack n [] (eqs_of act) = UOk h.
Proof.
  induction 1 as [|i hp e act h U C IH]; [reflexivity|].
  unfold eqs_of in *. cbn [map rev snd]. rewrite stack_snoc, IH. exact U.
Qed.

Theorem srun_stack n evs : forall h act ss tr, schain n h act -> srun n h act ss evs = Some tr ->
  Forall (fun x => stack n [] (snd x) = UOk (snd (fst x))) tr.
Proof.
  induction evs as [|e r IH]; intros h act ss tr C S.
  - cbn in S. inversion S. constructor.
  - assert (STEP: forall y h1 act1 ss1, schain n h1 act1 ->
       match srun n h1 act1 ss1 r with None => None | Some l => Some ((y, h1, eqs_of act1) :: l) end = Some tr ->
       Forall (fun x => stack n [] (snd x) = UOk (snd (fst x))) tr).
    { intros y h1 act1 ss1 C1 S1. destruct (srun n h1 act1 ss1 r) as [l|] eqn:ES; [|discriminate].
      inversion S1; subst. constructor; [cbn [fst snd]; apply schain_stack; exact C1|]. eapply IH; eauto. }
    destruct e as [i a b|i|i]; cbn [srun] in S.
    + destruct (ssget i ss); [discriminate|]. eapply STEP; eauto.
    + destruct (ssget i ss) as [[u1 u2| | |]|]; try discriminate.
      * destruct (unify n h u1 u2) as [h1| | |] eqn:U; try discriminate.
        -- eapply STEP; [|exact S]. econstructor; eauto.
        -- eapply STEP; eauto.
      * destruct act as [|[[j hp] e0] act']; [discriminate|].
        destruct (Nat.eqb i j); [|discriminate]. inversion C; subst. eapply STEP; eauto.
      * eapply STEP; eauto.
      * eapply STEP; eauto.
    + destruct (ssget i ss) as [[u1 u2| | |]|]; try (eapply STEP; eauto; fail).
      destruct act as [|[[j hp] e0] act']; [discriminate|].
      destruct (Nat.eqb i j); [|discriminate]. inversion C; subst. eapply STEP; eauto.
Qed.

(* ... hence acyclic, equating every active pair, and a most general unifier of the active equations *)
Theorem srun_mgu n evs tr : srun n [] [] [] evs = Some tr ->
  Forall (fun x => let h := snd (fst x) in let eqs := snd x in
            wf h /\ (forall a b, In (a, b) eqs -> den h a = den h b) /\
            (forall th, unifies th eqs -> sat th h)) tr.
Proof.
  intros S. pose proof (@srun_stack n evs [] [] [] tr (schain_nil n) S) as F.
  eapply Forall_impl; [|exact F]. intros [[y h] eqs] H. cbn [fst snd] in *.
  destruct (@stack_mgu n eqs [] h wf_nil H) as [W [_ [D M]]]. repeat split; auto.
  intros th Un. apply M; auto. intros t. reflexivity.
Qed.

(* RunUnifySched.run prints exec's trace (until it cuts the case at a cyclic binding) *)
Definition show_tr (nvars : nat) (l : list (bool * heap)) : list obs :=
  map (fun x => OL [obool (fst x); snap den (snd x) nvars]) l.

Definition is_cyc (o : obs) : bool := match o with OL (OS _ :: _) => true | _ => false end.

Lemma run_is_exec fuel nvars evs : forall h sl l,
  run mk_unify next unify unify_arrays den fuel h sl evs nvars = Some l -> existsb is_cyc l = false ->
  exists tr, exec fuel h sl evs = Some tr /\ l = show_tr nvars tr.
Proof.
  induction evs as [|e r IH]; intros h sl l H NC.
  - cbn in H. inversion H; subst. exists []. split; reflexivity.
  - assert (STEP: forall y h1 sl1,
       (if hok den h1 then
          match run mk_unify next unify unify_arrays den fuel h1 sl1 r nvars with
          | None => None | Some l0 => Some (OL [obool y; snap den h1 nvars] :: l0) end
        else Some [otag "cyc" []]) = Some l ->
       exists tr, match exec fuel h1 sl1 r with None => None | Some l0 => Some ((y, h1) :: l0) end = Some tr /\ l = show_tr nvars tr).
    { intros y h1 sl1 H1. destruct (hok den h1).
      - destruct (run mk_unify next unify unify_arrays den fuel h1 sl1 r nvars) as [l0|] eqn:ER; [|discriminate].
        inversion H1; subst l. cbn [existsb is_cyc obool orb] in NC.
        destruct (IH _ _ _ ER NC) as [tr0 [E0 L0]]. rewrite E0. eexists. split; [reflexivity|].
        subst l0. reflexivity.
      - inversion H1; subst l. cbn in NC. discriminate. }
    destruct e as [i a b|i|i]; cbn [run exec] in *.
    + apply STEP. exact H.
    + destruct (sget i sl) as [g|]; [|apply STEP; exact H].
      destruct (gcyc unify unify_arrays fuel h g).
      * inversion H; subst l. cbn in NC. discriminate.
      * destruct (next fuel h g) as [[[h1 g1] y]|]; [|discriminate]. apply STEP. exact H.
    + destruct (sget i sl) as [g|]; apply STEP; exact H.
Qed.

(* what the check prints for an event sequence inside the domain IS the specification's trace *)
Theorem run_events_spec fuel n nvars evs l tr :
  run_events fuel evs nvars = otag "ok" [OL l] -> existsb is_cyc l = false ->
  srun n [] [] [] evs = Some tr -> l = show_tr nvars (tr_of tr).
Proof.
  unfold run_events. intros H NC S.
  destruct (run mk_unify next unify unify_arrays den fuel [] [] evs nvars) as [l0|] eqn:E; [|discriminate].
  assert (l0 = l) by (unfold otag in H; inversion H; reflexivity). subst l0.
  destruct (run_is_exec fuel nvars evs [] [] l E NC) as [tr' [X L]].
  rewrite (sched_refines n fuel evs tr tr' S X) in L. exact L.
Qed.

(* non-vacuity: g0 = unify(X,Y) is created first, g1 = unify(Y,X) is created and started, then g0 is started, then
   both are closed (LIFO); the specification is defined on it: g0's start yields and binds nothing, its equation
   joins the active ones; the generator objects do the same *)
Example srun_late_alias :
  let evs := [SCreate 0 (TVar 0) (TVar 1); SCreate 1 (TVar 1) (TVar 0); SNext 1; SNext 0; SClose 0; SClose 1] in
  srun 5 [] [] [] evs = Some
    [(false, [], []); (false, [], []);
     (true, [(1, TVar 0)], [(TVar 1, TVar 0)]);
     (true, [(1, TVar 0)], [(TVar 1, TVar 0); (TVar 0, TVar 1)]);
     (false, [(1, TVar 0)], [(TVar 1, TVar 0)]);
     (false, [], [])]
  /\ exec 5 [] [] evs = Some [(false, []); (false, []); (true, [(1, TVar 0)]); (true, [(1, TVar 0)]); (false, [(1, TVar 0)]); (false, [])].
Proof. split; vm_compute; reflexivity. Qed.

(* executable: the specification's trace, printed like RunUnifySched.run prints the generator objects' trace, plus
   the number of active equations; "undef" outside the domain.  The check evaluates it next to run_events_x and
   compares the two (an instance of run_events_spec on every case) and uses it to validate the reference
   unifier of its intrinsic oracle (same domain, same number of active equations after every event). *)
Definition spec_events (n : nat) (evs : list sev) (nvars : nat) : obs :=
  match srun n [] [] [] evs with
  | None => otag "undef" []
  | Some tr => otag "ok" [OL (map (fun x => OL [obool (fst (fst x)); snap den (snd (fst x)) nvars; onat (length (snd x))]) tr)]
  end.
