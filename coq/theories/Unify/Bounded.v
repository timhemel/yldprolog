(* Cells below a bound: terms and stores that mention only cells < k, and the fact that unification
   never introduces a cell that was not there. *)
From Coq Require Import List Arith Bool Lia.
Import ListNotations.
From YP Require Import Base.Str Term.Term Term.Fast Unify.Unify Unify.Fast.

Definition bounded (k : nat) (t : term) : Prop := forall v, occurs v t = true -> v < k.
Definition store_bounded (k : nat) (s : store) : Prop := forall v t, In (v, t) s -> v < k /\ bounded k t.

Lemma bounded_mono k k' t : k <= k' -> bounded k t -> bounded k' t.
Proof. intros L B v H. specialize (B v H). lia. Qed.
Lemma store_bounded_mono k k' s : k <= k' -> store_bounded k s -> store_bounded k' s.
Proof. intros L B v t H. destruct (B v t H) as [A C]. split; [lia|eapply bounded_mono; eauto]. Qed.

Lemma store_bounded_nil k : store_bounded k [].
Proof. intros v t []. Qed.
Lemma store_bounded_app k a b : store_bounded k a -> store_bounded k b -> store_bounded k (a ++ b).
Proof. intros A B v t H. apply in_app_or in H as [H|H]; [apply A|apply B]; exact H. Qed.

Lemma bounded_not_occurs k x t : bounded k t -> k <= x -> occurs x t = false.
Proof. intros B L. destruct (occurs x t) eqn:O; [|reflexivity]. specialize (B x O). lia. Qed.
Lemma lookup_bounded_none k s x : store_bounded k s -> k <= x -> lookup x s = None.
Proof.
  intros B L. destruct (lookup x s) as [t|] eqn:E; [|reflexivity].
  destruct (B x t (lookup_in x s E)) as [Lx _]. lia.
Qed.

Lemma bounded_fun k f args : bounded k (TFun f args) <-> Forall (bounded k) args.
Proof.
  split.
  - intros B. apply Forall_forall. intros x Hx v Hv. apply B. simpl. apply existsb_exists. exists x; auto.
  - intros F v Hv. simpl in Hv. apply existsb_exists in Hv as [x [Hx Ho]].
    exact (proj1 (Forall_forall _ _) F x Hx v Ho).
Qed.
Lemma bounded_atom k a : bounded k (TAtom a). Proof. intros v H; discriminate. Qed.
Lemma bounded_int k a : bounded k (TInt a). Proof. intros v H; discriminate. Qed.
Lemma bounded_str k a : bounded k (TStr a). Proof. intros v H; discriminate. Qed.
Lemma bounded_var k v : v < k -> bounded k (TVar v).
Proof. intros L w H. simpl in H. apply Nat.eqb_eq in H. subst. exact L. Qed.

Lemma bounded_subst1 k v r t : bounded k r -> bounded k t -> bounded k (subst1 v r t).
Proof.
  intros Br Bt w Hw. destruct (occurs_subst1 _ _ _ _ Hw) as [[A _]|A]; auto.
Qed.

Lemma bounded_den k s : store_bounded k s -> forall t, bounded k t -> bounded k (den s t).
Proof.
  induction s as [|[v t0] s IH]; intros B t Bt; simpl; [exact Bt|].
  assert (B': store_bounded k s) by (intros w u H; apply B; right; exact H).
  apply bounded_subst1; apply IH; auto. apply (B v t0). left; reflexivity.
Qed.

(* unification only introduces bindings between cells / terms that are already there *)
Lemma arr_bounded k (U : store -> term -> term -> ures) :
  (forall s a b s', store_bounded k s -> bounded k a -> bounded k b -> U s a b = UOk s' -> store_bounded k s') ->
  forall xs ys s s', store_bounded k s -> Forall (bounded k) xs -> Forall (bounded k) ys ->
  arr U xs ys s = UOk s' -> store_bounded k s'.
Proof.
  intros HU. induction xs as [|a ar IH]; intros [|b br] s s' B Fx Fy H; simpl in H; try discriminate.
  - inversion H; subst; exact B.
  - inversion Fx; inversion Fy; subst. destruct (U s a b) as [s1| | |] eqn:E; try discriminate.
    apply (IH br s1 s'); auto. apply (HU s a b s1); auto.
Qed.

Lemma store_bounded_cons k v a s : v < k -> bounded k a -> store_bounded k s -> store_bounded k ((v, a) :: s).
Proof. intros L Ba B w u [H|H]; [inversion H; subst; auto|apply B; exact H]. Qed.

Lemma unify_bounded k n : forall s a b s', store_bounded k s -> bounded k a -> bounded k b ->
  unify n s a b = UOk s' -> store_bounded k s'.
Proof.
  induction n as [|n IH]; intros s a b s' B Ba Bb H; [discriminate|].
  rewrite unify_S in H.
  pose proof (bounded_den k s B a Ba) as D1. pose proof (bounded_den k s B b Bb) as D2.
  assert (BV: forall v x, bounded k (TVar v) -> bounded k x -> bind s v x = UOk s' -> store_bounded k s').
  { intros v x Bv Bx Hb. apply bind_ok in Hb as [_ ->]. apply store_bounded_cons; auto.
    apply Bv. simpl. apply Nat.eqb_refl. }
  revert H D1 D2. destruct (kind_ofP (den s a) (den s b)) as [x|v x _|v x _| |f xs ys _]; intros H D1 D2.
  - inversion H; subst s'. exact B.
  - exact (BV v x D1 D2 H).
  - exact (BV v x D2 D1 H).
  - discriminate.
  - apply (arr_bounded k (unify n) IH xs ys s s' B); [eapply bounded_fun; exact D1|eapply bounded_fun; exact D2|exact H].
Qed.

Lemma unify_fast_bounded k n s a b s' : store_bounded k s -> bounded k a -> bounded k b ->
  unify_fast n s a b = UOk s' -> store_bounded k s'.
Proof. rewrite unify_fast_eq. apply unify_bounded. Qed.
