(* Unification does not depend on WHICH constants the terms carry, only on which of them are equal: it commutes
   with every recoding of the integer and string constants that is injective.  This is what backs the way the
   correspondence check hands Python constants to the model (harness/lib/pyconsts.py): every constant of the
   pool is replaced by a code of its class under Python `==`, the map from classes to codes being injective;
   unification of the coded terms is then the coded unification of any other injectively coded copy - in
   particular the outcome (success / failure / cyclic) and the shape of the bindings do not depend on the
   choice of codes. *)
From Coq Require Import List Arith Bool ZArith.
Import ListNotations.
From YP Require Import Base.Str Term.Term Unify.Unify.
Set Implicit Arguments.

Section Recode.
Variable fi : Z -> Z.
Variable fs : str -> str.

Fixpoint rc (t : term) : term :=
  match t with
  | TInt z => TInt (fi z)
  | TStr s => TStr (fs s)
  | TFun f args => TFun f (map rc args)
  | _ => t
  end.

Definition rc_store (s : store) : store := map (fun b => (fst b, rc (snd b))) s.

Definition rc_res (r : ures) : ures :=
  match r with UOk s => UOk (rc_store s) | x => x end.

Hypothesis Hi : forall a b, fi a = fi b -> a = b.
Hypothesis Hs : forall a b, fs a = fs b -> a = b.

Lemma zeqb_rc a b : Z.eqb (fi a) (fi b) = Z.eqb a b.
Proof.
  destruct (Z.eqb_spec a b) as [->|N]; [apply Z.eqb_refl|].
  apply Z.eqb_neq. intros E. apply N. apply Hi. exact E.
Qed.

Lemma streqb_rc a b : str_eqb (fs a) (fs b) = str_eqb a b.
Proof.
  destruct (str_eqb a b) eqn:E.
  - apply str_eqb_eq in E. subst. apply str_eqb_refl.
  - destruct (str_eqb (fs a) (fs b)) eqn:E2; [|reflexivity].
    apply str_eqb_eq in E2. apply Hs in E2. subst. rewrite str_eqb_refl in E. discriminate.
Qed.

Lemma rc_subst1 v r x : rc (subst1 v r x) = subst1 v (rc r) (rc x).
Proof.
  induction x as [a|z|q|w|f args IH] using term_ind'; cbn [subst1 rc]; try reflexivity.
  - destruct (Nat.eqb w v); reflexivity.
  - f_equal. rewrite !map_map. apply map_ext_Forall. exact IH.
Qed.

Lemma rc_occurs v x : occurs v (rc x) = occurs v x.
Proof.
  induction x as [a|z|q|w|f args IH] using term_ind'; cbn [occurs rc]; try reflexivity.
  apply existsb_map_Forall. exact IH.
Qed.

Lemma rc_den s : forall u, den (rc_store s) (rc u) = rc (den s u).
Proof.
  induction s as [|[v t] s IH]; intros u; simpl; [reflexivity|].
  rewrite !IH. symmetry. apply rc_subst1.
Qed.

Lemma rc_arr (U : store -> term -> term -> ures) :
  (forall s a b, U (rc_store s) (rc a) (rc b) = rc_res (U s a b)) ->
  forall xs ys s, arr U (map rc xs) (map rc ys) (rc_store s) = rc_res (arr U xs ys s).
Proof.
  intros HU. induction xs as [|a ar IH]; intros [|b br] s; simpl; auto.
  rewrite HU. destruct (U s a b) as [s1| | |]; simpl; auto.
Qed.

Theorem unify_recode n : forall s a b,
  unify n (rc_store s) (rc a) (rc b) = rc_res (unify n s a b).
Proof.
  induction n as [|n IH]; intros s a b; [reflexivity|].
  cbn [unify]. rewrite !rc_den.
  destruct (den s a) as [x|x|x|v|f xs]; destruct (den s b) as [y|y|y|w|g ys]; cbn [rc rc_res]; try reflexivity;
    try (unfold bind; cbn [occurs]; reflexivity).
  - destruct (str_eqb x y); reflexivity.
  - rewrite zeqb_rc. destruct (Z.eqb x y); reflexivity.
  - rewrite streqb_rc. destruct (str_eqb x y); reflexivity.
  - destruct (Nat.eqb v w); reflexivity.
  - unfold bind. change (TFun g (map rc ys)) with (rc (TFun g ys)). rewrite rc_occurs.
    destruct (occurs v (TFun g ys)); reflexivity.
  - unfold bind. change (TFun f (map rc xs)) with (rc (TFun f xs)). rewrite rc_occurs.
    destruct (occurs w (TFun f xs)); reflexivity.
  - destruct (str_eqb f g); [|reflexivity]. rewrite !map_length.
    destruct (Nat.eqb (length xs) (length ys)); [|reflexivity].
    apply rc_arr. exact IH.
Qed.

(* in particular: whether two coded terms unify, fail or are cyclic does not depend on the injective coding *)
Corollary unify_outcome_recode n s a b :
  match unify n (rc_store s) (rc a) (rc b), unify n s a b with
  | UOk _, UOk _ | UFail, UFail | UOof, UOof | UCyc, UCyc => True
  | _, _ => False
  end.
Proof. rewrite unify_recode. destruct (unify n s a b); exact I. Qed.
End Recode.
