(* "Creation and start are different moments" (property C02).

   engine.unify(t1, t2) is an ordinary function: it dereferences both arguments and dispatches when it is
   CALLED (UnifyGen.mk_unify h t1 t2, h = the bindings at the call); the object it returns is - in the variable
   and the compound case - a generator whose body runs at the first __next__ (UnifyGen.next n h' g, h' = the
   bindings at that moment).  Variable.unify dereferences its argument AGAIN when its body starts, unify_arrays
   dereferences its elements when its body starts.  The theorems of this file say what the first __next__
   computes when h' is not h - whatever happened in between (other unifications created, started, advanced,
   closed): it is Unify.unify under h' on the two creation-time values, hence a most general unifier relative to
   the bindings of that moment; and a stack of unifications, each started under the bindings left by those below,
   ends with a most general unifier of all their equations (what the check's oracle compares the implementation's
   heap with). *)
From Coq Require Import List Arith Bool Lia ZArith.
Import ListNotations.
From YP Require Import Base.Str Term.Term Unify.Unify Unify.Mgu Unify.UnifyGen.
Set Implicit Arguments.

(* the two terms the generator object made by unify(t1,t2) under h will unify when it is started:
   the creation-time values, the variable side (receiver of Variable.unify) first *)
Definition start_pair (h:heap) (t1 t2:term) : term * term :=
  match den h t1, den h t2 with
  | TVar v, a2 => (TVar v, a2)
  | a1, TVar w => (TVar w, a1)
  | a1, a2 => (a1, a2)
  end.

Lemma start_pair_cases h t1 t2 :
  start_pair h t1 t2 = (den h t1, den h t2) \/ start_pair h t1 t2 = (den h t2, den h t1).
Proof.
  unfold start_pair. destruct (den h t1) as [x|x|x|v|f xs]; destruct (den h t2) as [y|y|y|w|g ys]; auto.
Qed.

(* the pair by the form of the two values (start_pair h t1 t2 is start_pair [] (den h t1) (den h t2)) *)
Lemma start_pair_same a : start_pair [] a a = (a, a).
Proof. destruct a; reflexivity. Qed.
Lemma start_pair_var_r v a : nonvar a -> start_pair [] a (TVar v) = (TVar v, a).
Proof. destruct a; try reflexivity. contradiction. Qed.
Lemma start_pair_nonvar a1 a2 : nonvar a1 -> nonvar a2 -> start_pair [] a1 a2 = (a1, a2).
Proof. destruct a1; try contradiction; destruct a2; try contradiction; reflexivity. Qed.

(* Variable.unify(v, a) called under any bindings and started under h: Unify.unify h (TVar v) a *)
Lemma var_fresh_link n h v a : wf h ->
  yields_as (unify n h (TVar v) a) (next (S n) h (GVarFresh v a)).
Proof.
  intros W. destruct (lookup v h) as [b|] eqn:L.
  - cbn [next]. rewrite L. destruct (gen_link n (TVar v) a W) as [A B]. split.
    + intros s' H. destruct (A _ H) as [g1 N]. rewrite N. eauto.
    + intros H. destruct (B H) as [hx [g1 N]]. rewrite N. eauto.
  - destruct n as [|n]; [split; intros; discriminate|].
    rewrite unify_S, (den_var_unbound h v L), kind_of_var.
    pose proof (@var_unbound_start (S n) h v a L) as R. destruct (is_var v (den h a)); exact R.
Qed.

Lemma late_link n h h' t1 t2 : wf h' ->
  yields_as (unify n h' (fst (start_pair h t1 t2)) (snd (start_pair h t1 t2)))
            (next (S (S n)) h' (mk_unify h t1 t2)).
Proof.
  intros W.
  (* Fuel: Variable.unify needs one more than Unify.unify when its cell is bound by then (it delegates),
     unify_arrays one more than its elements need; after the one step of unify that looks at the two
     creation-time values, S (S n) covers both. *)
  assert (V: forall v a, yields_as (unify n h' (TVar v) a) (next (S (S n)) h' (GVarFresh v a))).
  { intros v a. apply yields_as_mono with (n := S n); [apply var_fresh_link; exact W|apply le_S, le_n]. }
  change (start_pair h t1 t2) with (start_pair [] (den h t1) (den h t2)).
  pose proof (mk_unifyP h t1 t2) as P.
  remember (den h t1) as a1 eqn:E1. remember (den h t2) as a2 eqn:E2. clear E1 E2.
  (* k stands for kind_of a1 a2 in the view; K is used where a step of unify is computed *)
  remember (kind_of a1 a2) as k eqn:K.
  destruct P as [a C|v a|v a C|b1 b2 C1 C2|f xs ys].
  - rewrite start_pair_same. cbn [fst snd].
    destruct n as [|m]; [split; intros; discriminate|]. rewrite (@unify_nonvar m h' a a C C), <- K.
    split; [|discriminate]. intros s' H. inversion H; subst s'. cbn [next]. eauto.
  - exact (V v a).
  - rewrite (@start_pair_var_r v a C). exact (V v a).
  - rewrite (@start_pair_nonvar b1 b2 C1 C2). cbn [fst snd].
    destruct n as [|m]; [split; intros; discriminate|]. rewrite (@unify_nonvar m h' b1 b2 C1 C2), <- K.
    split; [discriminate|]. intros _. cbn [next]. eauto.
  - cbn [start_pair den fst snd].
    destruct n as [|m]; [split; intros; discriminate|].
    rewrite (@unify_nonvar m h' (TFun f xs) (TFun f ys) I I), <- K.
    apply yields_as_mono with (n := S m); [|apply le_S, le_S, le_n].
    pose proof (arrays_link_at (gen_link m) xs ys W) as A. unfold unify_arrays in A.
    destruct (Nat.eqb (length xs) (length ys)); [|exact A].
    rewrite (@arr_den m h' W xs ys h' W (ext_refl h')). exact A.
Qed.

(* Late start, structural form.  h: the bindings when unify(t1,t2) was called - ANY store;
   h': the bindings when the returned object is started - any acyclic store, related to h or not.  The
   first __next__ is Unify.unify under h' on the creation-time values: it yields exactly when that
   succeeds, the heap at the yield is its result store, closing there gives back h'; it does not yield
   when that fails, and then the heap is h'. *)
Theorem late_start_matches_unify n h h' t1 t2 : wf h' ->
  (forall s', unify n h' (fst (start_pair h t1 t2)) (snd (start_pair h t1 t2)) = UOk s' ->
     exists g1, next (S (S n)) h' (mk_unify h t1 t2) = Some (s', g1, true) /\ fst (close s' g1) = h') /\
  (unify n h' (fst (start_pair h t1 t2)) (snd (start_pair h t1 t2)) = UFail ->
     exists g1, next (S (S n)) h' (mk_unify h t1 t2) = Some (h', g1, false)).
Proof.
  intros W. exact (@yields_as_fresh _ (S (S n)) h' _ (mk_unify_fresh h t1 t2) (@late_link n h h' t1 t2 W)).
Qed.

(* semantic form, creation-time values: if ANY substitution respecting the bindings h' of the start
   unifies the two creation-time values, the first next yields; the bindings at the yield are acyclic,
   extend h', equate the two values, and EVERY such substitution is an instance of them (most general:
   no variable is bound that need not be); closing gives back h'. *)
Theorem late_start_snapshot_mgu h h' t1 t2 th : wf h' -> sat th h' ->
  app th (den h t1) = app th (den h t2) ->
  exists n hf g1, next n h' (mk_unify h t1 t2) = Some (hf, g1, true) /\
    wf hf /\ ext h' hf /\ den hf (den h t1) = den hf (den h t2) /\
    (forall th', sat th' h' -> app th' (den h t1) = app th' (den h t2) -> sat th' hf) /\
    fst (close hf g1) = h'.
Proof.
  intros W St E.
  destruct (start_pair_cases h t1 t2) as [P|P].
  - destruct (@unify_mgu h' (den h t1) (den h t2) th W St E) as [n [s' [U [W' [X [D S']]]]]].
    destruct (@late_start_matches_unify n h h' t1 t2 W) as [A _]. rewrite P in A. cbn [fst snd] in A.
    destruct (A _ U) as [g1 [N C]]. exists (S (S n)), s', g1. repeat split; auto.
    intros th' St' E'. exact (@unify_most_general n h' _ _ s' th' W U St' E').
  - symmetry in E.
    destruct (@unify_mgu h' (den h t2) (den h t1) th W St E) as [n [s' [U [W' [X [D S']]]]]].
    destruct (@late_start_matches_unify n h h' t1 t2 W) as [A _]. rewrite P in A. cbn [fst snd] in A.
    destruct (A _ U) as [g1 [N C]]. exists (S (S n)), s', g1. repeat split; auto.
    intros th' St' E'. symmetry in E'. exact (@unify_most_general n h' _ _ s' th' W U St' E').
Qed.

(* no yield: nothing was bound, and no substitution respecting h' unifies the two values *)
Theorem late_start_snapshot_fail n h h' t1 t2 hf g1 : wf h' ->
  next n h' (mk_unify h t1 t2) = Some (hf, g1, false) ->
  hf = h' /\ forall th, sat th h' -> app th (den h t1) <> app th (den h t2).
Proof.
  intros W N. split.
  - pose proof (@next_fresh _ h' _ _ (mk_unify_fresh h t1 t2) N) as [_ Hn]. destruct (Hn eq_refl) as [E _]. exact E.
  - intros th St E. destruct (@late_start_snapshot_mgu h h' t1 t2 th W St E) as [m [hf' [g1' [N' _]]]].
    pose proof (@next_det _ _ _ _ _ _ N N') as Q. inversion Q.
Qed.

(* Late start, property form.  The bindings h of the creation moment are still active
   when the object is started under h' (h' extends h: nested generators).  Whatever was created,
   started, advanced or closed in between: the first next computes a most general unifier of t1 and
   t2 relative to the bindings current at that first next. *)
Theorem late_start_mgu h h' t1 t2 th : wf h -> wf h' -> ext h h' -> sat th h' -> app th t1 = app th t2 ->
  exists n hf g1, next n h' (mk_unify h t1 t2) = Some (hf, g1, true) /\
    wf hf /\ ext h' hf /\ den hf t1 = den hf t2 /\
    (forall th', sat th' h' -> app th' t1 = app th' t2 -> sat th' hf) /\
    fst (close hf g1) = h'.
Proof.
  intros W W' X St E.
  assert (Sh: forall th', sat th' h' -> forall t, app th' (den h t) = app th' t).
  { intros th' S' t. exact (@sat_ext th' h h' W X S' t). }
  assert (E0: app th (den h t1) = app th (den h t2)) by (rewrite !(Sh th St); exact E).
  destruct (@late_start_snapshot_mgu h h' t1 t2 th W' St E0) as [n [hf [g1 [N [Wf [Xf [D [M C]]]]]]]].
  exists n, hf, g1. repeat split; auto.
  - assert (Xh: ext h hf) by (eapply ext_trans; eauto). destruct Xh as [nw Eh]. subst hf.
    rewrite <- (den_ext_den nw t1 W), <- (den_ext_den nw t2 W). exact D.
  - intros th' S' E'. apply M; auto. rewrite !(Sh th' S'). exact E'.
Qed.

Theorem late_start_fail n h h' t1 t2 hf g1 : wf h -> wf h' -> ext h h' ->
  next n h' (mk_unify h t1 t2) = Some (hf, g1, false) ->
  hf = h' /\ forall th, sat th h' -> app th t1 <> app th t2.
Proof.
  intros W W' X N. destruct (@late_start_snapshot_fail n h h' t1 t2 hf g1 W' N) as [A B]. split; auto.
  intros th St E. apply (B th St). rewrite !(@sat_ext th h h' W X St). exact E.
Qed.

Theorem late_start_sym h h' t1 t2 n hf g1 : wf h -> wf h' -> ext h h' ->
  next n h' (mk_unify h t1 t2) = Some (hf, g1, true) -> wf hf -> den hf t1 = den hf t2 ->
  exists m hf' g1', next m h' (mk_unify h t2 t1) = Some (hf', g1', true) /\ wf hf' /\ den hf' t1 = den hf' t2 /\
    sat (sub_of hf) hf'.
Proof.
  intros W W' X N Wf D.
  assert (Xf: ext h' hf).
  { pose proof (@next_fresh _ h' _ _ (mk_unify_fresh h t1 t2) N) as [[_ [nw [E _]]] _]. exists nw. exact E. }
  assert (S1: sat (sub_of hf) h') by (apply sat_sub_of; auto).
  assert (E1: app (sub_of hf) t2 = app (sub_of hf) t1) by (rewrite !app_sub_of; congruence).
  destruct (@late_start_mgu h h' t2 t1 (sub_of hf) W W' X S1 E1) as [m [hf' [g1' [N' [Wf' [Xf' [D' [M' _]]]]]]]].
  exists m, hf', g1'. repeat split; auto.
Qed.

(* any sequence of next / close on an object that was created under h and is driven from h':
   at most one yield; wherever the sequence stops, close (or dropping the object) gives back h' *)
Theorem late_drive_restores n h h' t1 t2 ops hf gf ys :
  drive n h' (mk_unify h t1 t2) ops = Some (hf, gf, ys) ->
  fst (close hf gf) = h' /\ count_true ys <= 1 /\
  (forall m h2 g2, next m hf gf = Some (h2, g2, false) -> h2 = h').
Proof.
  intros H. destruct (@drive_fresh_restores n h' _ ops hf gf ys (mk_unify_fresh h t1 t2) H) as [_ [C [N Y]]].
  repeat split; auto. intros m h2 g2 E. exact (N m h2 g2 false E eq_refl).
Qed.

(* A stack of unifications, each started under the bindings left by those below it (the order of
   CREATION does not matter, by the theorems above): the bindings at the top equate every pair and
   are a most general unifier of all the equations together. *)
Fixpoint stack (fuel:nat) (s:store) (stk:list (term * term)) : ures :=
  match stk with
  | [] => UOk s
  | (a, b) :: r => match unify fuel s a b with UOk s' => stack fuel s' r | x => x end
  end.

Lemma stack_snoc n : forall l s e, stack n s (l ++ [e]) = match stack n s l with UOk s1 => unify n s1 (fst e) (snd e) | x => x end.
Proof.
  induction l as [|[a b] l IH]; intros s [c d]; simpl.
  - destruct (unify n s c d); reflexivity.
  - destruct (unify n s a b) as [s1| | |]; auto. apply (IH s1 (c, d)).
Qed.

Definition unifies (th:sub) (eqs:list (term * term)) : Prop := forall a b, In (a, b) eqs -> app th a = app th b.

Theorem stack_mgu fuel : forall stk s0 s, wf s0 -> stack fuel s0 stk = UOk s ->
  wf s /\ ext s0 s /\ (forall a b, In (a, b) stk -> den s a = den s b) /\
  (forall th, sat th s0 -> unifies th stk -> sat th s).
Proof.
  induction stk as [|[a b] r IH]; intros s0 s W H; cbn [stack] in H.
  - inversion H; subst. repeat split; auto using ext_refl. intros ? ? [].
  - destruct (unify fuel s0 a b) as [s1| | |] eqn:U; try discriminate.
    destruct (unify_sound _ _ _ W U) as [W1 [X1 D1]].
    destruct (IH _ _ W1 H) as [W2 [X2 [D2 M2]]]. repeat split; auto.
    + eapply ext_trans; eauto.
    + intros a' b' [E|I]; [inversion E; subst; eapply den_eq_ext; eauto|auto].
    + intros th St Un. apply M2.
      * apply (@unify_most_general fuel s0 a b s1 th W U St). apply Un. left; reflexivity.
      * intros a' b' I. apply Un. right; exact I.
Qed.

(* a stack fails (rather than runs out of fuel or meets a cyclic case) only if the equations have no
   common unifier respecting the initial bindings *)
Theorem stack_fail_no_unifier fuel : forall stk s0, wf s0 -> stack fuel s0 stk = UFail ->
  forall th, sat th s0 -> ~ unifies th stk.
Proof.
  induction stk as [|[a b] r IH]; intros s0 W H th St Un; cbn [stack] in H; [discriminate|].
  destruct (unify fuel s0 a b) as [s1| | |] eqn:U; try discriminate.
  - destruct (unify_sound _ _ _ W U) as [W1 _].
    apply (IH _ W1 H th).
    + apply (@unify_most_general fuel s0 a b s1 th W U St). apply Un. left; reflexivity.
    + intros a' b' I. apply Un. right; exact I.
  - apply (@unify_fail_no_unifier fuel s0 a b th W U St). apply Un. left; reflexivity.
Qed.

(* non-vacuity.  (1) unify(X, Y) is created under no binding, Y is then aliased to X by another
   unification, and only then the object is started: it yields, binds NOTHING, and X, Y still
   dereference to the unbound X.  (2) the same with the alias made through a chain Y -> Z -> X.
   (3) created under no binding, started under X = f(Z): Y is bound to the dereferenced f(Z). *)
Example late_start_alias :
  let h' := [(1, TVar 0)] in
  wf h' /\ ext [] h' /\
  next 5 h' (mk_unify [] (TVar 0) (TVar 1)) = Some (h', GVarSelf, true) /\
  next 5 [(1, TVar 2); (2, TVar 0)] (mk_unify [] (TVar 0) (TVar 1)) = Some ([(1, TVar 2); (2, TVar 0)], GVarSelf, true) /\
  next 5 [(0, TFun [102%N] [TVar 2])] (mk_unify [] (TVar 0) (TVar 1))
    = Some ([(1, TFun [102%N] [TVar 2]); (0, TFun [102%N] [TVar 2])], GVarDeleg (GVarBound 1), true).
Proof.
  split; [repeat constructor|]. split; [exists [(1, TVar 0)]; reflexivity|]. vm_compute. repeat split.
Qed.
