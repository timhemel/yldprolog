(* The engine's unification algorithm (engine.py: unify, Atom.unify, Variable.unify,
   Functor.unify, unify_arrays) over a triangular store, and its soundness.

   Dispatch as in the code: both sides are dereferenced (get_value); an unbound
   variable on the left is bound to the dereferenced right side (unless it is
   that very variable: the self-unification shortcut), otherwise an unbound
   variable on the right is bound to the left side; atoms unify by name, raw
   Python constants by equality, compound terms by name, then by number of
   arguments, then argument by argument from left to right, each argument seeing
   the bindings made by the earlier ones.  There is no occurs check in the code:
   the cases in which it would matter are marked UCyc (the property leaves them
   unspecified); UOof = not enough fuel. *)
From Coq Require Import List Arith Bool ZArith.
Import ListNotations.
From YP Require Import Base.Str Term.Term.
Set Implicit Arguments.

Inductive ures := UOk (s:store) | UFail | UOof | UCyc.

Section Arr.
  Variable U : store -> term -> term -> ures.
  Fixpoint arr (xs ys:list term) (s:store) : ures :=
    match xs, ys with
    | [], [] => UOk s
    | a::ar, b::br => match U s a b with UOk s1 => arr ar br s1 | r => r end
    | _, _ => UFail end.
End Arr.

Definition bind (s:store) (v:nat) (a:term) : ures :=
  if occurs v a then UCyc else UOk ((v,a)::s).

Fixpoint unify (n:nat) (s:store) (t1 t2:term) : ures :=
  match n with O => UOof | S n =>
    let a1 := den s t1 in let a2 := den s t2 in
    match a1, a2 with
    | TVar v, TVar w => if Nat.eqb v w then UOk s else UOk ((v,a2)::s)
    | TVar v, _ => bind s v a2
    | _, TVar w => bind s w a1
    | TAtom x, TAtom y => if str_eqb x y then UOk s else UFail
    | TInt x, TInt y => if Z.eqb x y then UOk s else UFail
    | TStr x, TStr y => if str_eqb x y then UOk s else UFail
    | TFun f xs, TFun g ys =>
        if str_eqb f g then (if Nat.eqb (length xs) (length ys) then arr (unify n) xs ys s else UFail) else UFail
    | _, _ => UFail
    end end.

Definition unify_arrays (n:nat) (s:store) (xs ys:list term) : ures :=
  if Nat.eqb (length xs) (length ys) then arr (unify n) xs ys s else UFail.

Definition ext (s s':store) := exists nw, s' = nw ++ s.
Lemma ext_refl s : ext s s. Proof. exists []; reflexivity. Qed.
Lemma ext_trans a b c : ext a b -> ext b c -> ext a c.
Proof. intros [n1 E1] [n2 E2]. exists (n2++n1). subst. rewrite app_assoc. reflexivity. Qed.

Lemma den_eq_ext s s' a b : ext s s' -> den s a = den s b -> den s' a = den s' b.
Proof. intros [nw E] H. subst s'. apply den_app_cong. exact H. Qed.

(* One step of unify, read off the two dereferenced arguments: nothing to do, bind the cell v to a,
   fail, or go through the two argument lists. *)
Inductive ukind := KSame | KBind (v:nat) (a:term) | KClash | KArgs (xs ys:list term).

Definition kind_of (a1 a2:term) : ukind :=
  match a1, a2 with
  | TVar v, TVar w => if Nat.eqb v w then KSame else KBind v a2
  | TVar v, _ => KBind v a2
  | _, TVar w => KBind w a1
  | TAtom x, TAtom y => if str_eqb x y then KSame else KClash
  | TInt x, TInt y => if Z.eqb x y then KSame else KClash
  | TStr x, TStr y => if str_eqb x y then KSame else KClash
  | TFun f xs, TFun g ys =>
      if str_eqb f g then (if Nat.eqb (length xs) (length ys) then KArgs xs ys else KClash) else KClash
  | _, _ => KClash
  end.

Lemma unify_S n s t1 t2 :
  unify (S n) s t1 t2 =
  match kind_of (den s t1) (den s t2) with
  | KSame => UOk s
  | KBind v a => bind s v a
  | KClash => UFail
  | KArgs xs ys => arr (unify n) xs ys s
  end.
Proof.
  cbn [unify].
  destruct (den s t1) as [x|x|x|v|f xs]; destruct (den s t2) as [y|y|y|w|g ys]; cbn [kind_of];
    try reflexivity.
  - destruct (str_eqb x y); reflexivity.
  - destruct (Z.eqb x y); reflexivity.
  - destruct (str_eqb x y); reflexivity.
  - destruct (Nat.eqb v w) eqn:E; [reflexivity|].
    unfold bind. cbn [occurs]. rewrite Nat.eqb_sym, E. reflexivity.
  - destruct (str_eqb f g); [|reflexivity]. destruct (Nat.eqb (length xs) (length ys)); reflexivity.
Qed.

Inductive kind_spec : term -> term -> ukind -> Prop :=
| ks_same a : kind_spec a a KSame
| ks_bind_l v a : a <> TVar v -> kind_spec (TVar v) a (KBind v a)
| ks_bind_r v a : a <> TVar v -> kind_spec a (TVar v) (KBind v a)
| ks_clash a1 a2 : kind_spec a1 a2 KClash
| ks_args f xs ys : length xs = length ys -> kind_spec (TFun f xs) (TFun f ys) (KArgs xs ys).

Lemma kind_ofP a1 a2 : kind_spec a1 a2 (kind_of a1 a2).
Proof.
  destruct a1 as [x|x|x|v|f xs]; destruct a2 as [y|y|y|w|g ys]; cbn [kind_of];
    try (constructor; discriminate).
  - destruct (str_eqb_spec x y) as [->|_]; constructor.
  - destruct (Z.eqb_spec x y) as [->|_]; constructor.
  - destruct (str_eqb_spec x y) as [->|_]; constructor.
  - destruct (Nat.eqb_spec v w) as [->|N]; constructor. congruence.
  - destruct (str_eqb_spec f g) as [->|_]; [|constructor].
    destruct (Nat.eqb_spec (length xs) (length ys)) as [L|_]; constructor. exact L.
Qed.

Definition nonvar (a:term) : Prop := match a with TVar _ => False | _ => True end.

Lemma unify_nonvar n s a1 a2 : nonvar a1 -> nonvar a2 ->
  unify (S n) s a1 a2 =
  match kind_of a1 a2 with
  | KSame => UOk s
  | KBind v a => bind s v a
  | KClash => UFail
  | KArgs xs ys => arr (unify n) (map (den s) xs) (map (den s) ys) s
  end.
Proof.
  intros N1 N2. rewrite unify_S.
  destruct a1 as [x|x|x|v|f xs]; try contradiction; destruct a2 as [y|y|y|w|g ys]; try contradiction;
    rewrite ?den_atom, ?den_int, ?den_str, ?den_fun; cbn [kind_of]; try reflexivity.
  - destruct (str_eqb x y); reflexivity.
  - destruct (Z.eqb x y); reflexivity.
  - destruct (str_eqb x y); reflexivity.
  - rewrite !map_length. destruct (str_eqb f g); [|reflexivity].
    destruct (Nat.eqb (length xs) (length ys)); reflexivity.
Qed.

Lemma unify_fresh_var n s v a : lookup v s = None -> occurs v (den s a) = false ->
  unify (S n) s (TVar v) a = UOk ((v, den s a) :: s).
Proof.
  intros L O. rewrite unify_S, (den_var_unbound s v L).
  assert (K: kind_of (TVar v) (den s a) = KBind v (den s a)).
  { destruct (den s a) as [y|y|y|w|g ys]; try reflexivity.
    cbn [kind_of]. simpl in O. rewrite Nat.eqb_sym, O. reflexivity. }
  rewrite K. unfold bind. rewrite O. reflexivity.
Qed.

Definition sound_at (U:store -> term -> term -> ures) :=
  forall s t1 t2 s', wf s -> U s t1 t2 = UOk s' -> wf s' /\ ext s s' /\ den s' t1 = den s' t2.

Lemma arr_sound U : sound_at U ->
  forall xs ys s s', wf s -> arr U xs ys s = UOk s' ->
  wf s' /\ ext s s' /\ map (den s') xs = map (den s') ys.
Proof.
  intros HU. induction xs as [|a ar IH]; intros [|b br] s s' W H; simpl in H; try discriminate.
  - inversion H; subst. repeat split; auto using ext_refl.
  - destruct (U s a b) as [s1| | |] eqn:E; try discriminate.
    destruct (HU _ _ _ _ W E) as [W1 [X1 D1]].
    destruct (IH _ _ _ W1 H) as [W2 [X2 D2]].
    repeat split; auto; [eapply ext_trans; eauto|].
    simpl. rewrite D2. f_equal. eapply den_eq_ext; eauto.
Qed.

Lemma bind_ok s v a s' : bind s v a = UOk s' -> occurs v a = false /\ s' = (v,a)::s.
Proof.
  unfold bind. destruct (occurs v a); [discriminate|]. intros H. inversion H. auto.
Qed.

Lemma bind_sound_l s v a t1 t2 s' :
  wf s -> den s t1 = TVar v -> den s t2 = a -> bind s v a = UOk s' ->
  wf s' /\ ext s s' /\ den s' t1 = den s' t2.
Proof.
  intros W E1 E2 H. apply bind_ok in H as [O ->]. simpl.
  assert (Ia: den s a = a) by (subst a; apply den_idem; exact W).
  assert (Lv: lookup v s = None).
  { apply (den_free W t1). rewrite E1. simpl. apply Nat.eqb_refl. }
  repeat split.
  - constructor; auto. rewrite Ia. exact O.
  - exists [(v,a)]. reflexivity.
  - rewrite E1, E2, Ia. simpl. rewrite Nat.eqb_refl. symmetry. apply subst1_noocc. exact O.
Qed.

Theorem unify_sound n : sound_at (unify n).
Proof.
  induction n as [|n IH]; intros s t1 t2 s' W H; [discriminate|].
  rewrite unify_S in H.
  remember (den s t1) as a1 eqn:E1. remember (den s t2) as a2 eqn:E2. symmetry in E1, E2.
  destruct (kind_ofP a1 a2) as [a|v a _|v a _| |f xs ys _].
  - inversion H; subst s'. repeat split; auto using ext_refl. congruence.
  - exact (bind_sound_l t1 t2 W E1 E2 H).
  - destruct (bind_sound_l t2 t1 W E2 E1 H) as [W' [X D]]. auto.
  - discriminate.
  - destruct (arr_sound IH _ _ W H) as [W' [X D]]. repeat split; auto.
    destruct X as [nw X]. subst s'.
    rewrite <- (den_ext_den nw t1 W), <- (den_ext_den nw t2 W), E1, E2, !den_fun, D. reflexivity.
Qed.

Corollary unify_arrays_sound n s xs ys s' : wf s -> unify_arrays n s xs ys = UOk s' ->
  wf s' /\ ext s s' /\ map (den s') xs = map (den s') ys.
Proof.
  unfold unify_arrays. intros W H. destruct (Nat.eqb (length xs) (length ys)); [|discriminate].
  eapply arr_sound; eauto using unify_sound.
Qed.

(* compound terms unify only if both name and number of arguments agree; in
   particular a compound term without arguments is not the atom of that name *)
Lemma unify_functor_arity n s f xs g ys s' :
  wf s -> unify n s (TFun f xs) (TFun g ys) = UOk s' -> f = g /\ length xs = length ys.
Proof.
  destruct n as [|n]; [discriminate|]. intros W. cbn [unify]. rewrite !den_fun.
  destruct (str_eqb_spec f g) as [->|]; [|discriminate].
  rewrite !map_length. destruct (Nat.eqb (length xs) (length ys)) eqn:E; [|discriminate].
  apply Nat.eqb_eq in E. auto.
Qed.
Lemma unify_atom_fun n s a f xs : unify (S n) s (TAtom a) (TFun f xs) = UFail /\ unify (S n) s (TFun f xs) (TAtom a) = UFail.
Proof. cbn [unify]. rewrite den_atom, den_fun. auto. Qed.

Lemma arr_ext (U U' : store -> term -> term -> ures) :
  (forall s a b, U s a b = U' s a b) -> forall xs ys s, arr U xs ys s = arr U' xs ys s.
Proof.
  intros H. induction xs as [|a ar IH]; intros [|b br] s; simpl; auto.
  rewrite H. destruct (U' s a b); auto.
Qed.

(* results other than "out of fuel" do not depend on the fuel *)
Lemma arr_mono (U U':store -> term -> term -> ures) :
  (forall s a b r, U s a b = r -> r <> UOof -> U' s a b = r) ->
  forall xs ys s r, arr U xs ys s = r -> r <> UOof -> arr U' xs ys s = r.
Proof.
  intros HU. induction xs as [|a ar IH]; intros [|b br] s r H N; simpl in *; auto.
  destruct (U s a b) as [s1| | |] eqn:E.
  - rewrite (HU _ _ _ _ E) by discriminate. apply IH; auto.
  - rewrite (HU _ _ _ _ E) by discriminate. exact H.
  - congruence.
  - rewrite (HU _ _ _ _ E) by discriminate. exact H.
Qed.

Lemma unify_mono_S n : forall s a b r, unify n s a b = r -> r <> UOof -> unify (S n) s a b = r.
Proof.
  induction n as [|n IH]; intros s a b r H N; [simpl in H; congruence|].
  rewrite unify_S in H |- *. destruct (kind_of (den s a) (den s b)); auto.
  eapply arr_mono; [|exact H|exact N]. intros; apply IH; auto.
Qed.

Lemma unify_mono n m s a b r : unify n s a b = r -> r <> UOof -> n <= m -> unify m s a b = r.
Proof.
  intros H N L. induction L; auto. apply unify_mono_S; auto.
Qed.

(* the result extends the store (no well-formedness needed for this part) *)
Lemma arr_ext_store (U : store -> term -> term -> ures) :
  (forall s a b s', U s a b = UOk s' -> ext s s') ->
  forall xs ys s s', arr U xs ys s = UOk s' -> ext s s'.
Proof.
  intros HU. induction xs as [|a ar IH]; intros [|b br] s s' H; simpl in H; try discriminate.
  - inversion H; subst; apply ext_refl.
  - destruct (U s a b) as [s1| | |] eqn:E; try discriminate. eapply ext_trans; [eapply HU; eauto|eapply IH; eauto].
Qed.

Lemma ext_cons s v a : ext s ((v, a) :: s).
Proof. exists [(v, a)]. reflexivity. Qed.

Lemma unify_ext_store n : forall s a b s', unify n s a b = UOk s' -> ext s s'.
Proof.
  induction n as [|n IH]; intros s a b s' H; [discriminate|].
  rewrite unify_S in H. destruct (kind_of (den s a) (den s b)) as [|v x| |xs ys].
  - inversion H. apply ext_refl.
  - apply bind_ok in H as [_ ->]. apply ext_cons.
  - discriminate.
  - eapply arr_ext_store; [|exact H]. intros; eapply IH; eauto.
Qed.

Lemma unify_den n s0 s a b : wf s0 -> ext s0 s -> unify n s (den s0 a) (den s0 b) = unify n s a b.
Proof.
  intros W [nw E]. subst s. destruct n as [|n]; [reflexivity|].
  rewrite !unify_S, !den_ext_den by exact W. reflexivity.
Qed.

(* unify_arrays on argument lists that were dereferenced earlier (Functor.get_value copies the term
   with dereferenced arguments) is unify_arrays on the original lists *)
Lemma arr_den n s0 : wf s0 -> forall xs ys s, wf s -> ext s0 s ->
  arr (unify n) (map (den s0) xs) (map (den s0) ys) s = arr (unify n) xs ys s.
Proof.
  intros W0. induction xs as [|a ar IH]; intros [|b br] s W X; simpl; auto.
  rewrite unify_den by auto.
  destruct (unify n s a b) as [s1| | |] eqn:E; auto.
  destruct (unify_sound _ _ _ W E) as [W1 [X1 _]]. apply IH; auto. eapply ext_trans; eauto.
Qed.

Lemma unify_det n m s a b r1 r2 :
  unify n s a b = r1 -> unify m s a b = r2 -> r1 <> UOof -> r2 <> UOof -> r1 = r2.
Proof.
  intros H1 H2 N1 N2. rewrite <- (@unify_mono n (max n m) s a b r1 H1 N1 (Nat.le_max_l n m)).
  exact (@unify_mono m (max n m) s a b r2 H2 N2 (Nat.le_max_r n m)).
Qed.

(* non-vacuity: p(X, f(Y), X) = p(g(Z), f(a), W) *)
Example ex1 : exists s', unify 10 [] (TFun [112%N] [TVar 1; TFun [102%N] [TVar 2]; TVar 1])
                                     (TFun [112%N] [TFun [103%N] [TVar 3]; TFun [102%N] [TAtom [97%N]]; TVar 4]) = UOk s'
  /\ den s' (TVar 4) = TFun [103%N] [TVar 3] /\ den s' (TVar 2) = TAtom [97%N].
Proof. eexists. vm_compute. repeat split. Qed.
