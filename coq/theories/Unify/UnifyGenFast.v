(* Evaluation-friendly twins of Unify.unify and of the generator objects of UnifyGen.v: the same
   functions with den replaced by the polynomial dfast (Term/Dfast.v).  Pointwise equal, without
   side conditions, so everything proved about the originals holds for what is executed. *)
From Coq Require Import List Arith Bool ZArith.
Import ListNotations.
From YP Require Import Base.Str Term.Term Term.Dfast Unify.Unify Unify.UnifyGen.

Fixpoint unify_x (n:nat) (s:store) (t1 t2:term) : ures :=
  match n with O => UOof | S n =>
    let r := rstore s in
    let a1 := aseq r t1 in let a2 := aseq r t2 in
    match a1, a2 with
    | TVar v, TVar w => if Nat.eqb v w then UOk s else UOk ((v,a2)::s)
    | TVar v, _ => bind s v a2
    | _, TVar w => bind s w a1
    | TAtom x, TAtom y => if str_eqb x y then UOk s else UFail
    | TInt x, TInt y => if Z.eqb x y then UOk s else UFail
    | TStr x, TStr y => if str_eqb x y then UOk s else UFail
    | TFun f xs, TFun g ys =>
        if str_eqb f g then (if Nat.eqb (length xs) (length ys) then arr (unify_x n) xs ys s else UFail) else UFail
    | _, _ => UFail
    end end.

Lemma unify_x_eq n : forall s t1 t2, unify_x n s t1 t2 = unify n s t1 t2.
Proof.
  induction n as [|n IH]; intros s t1 t2; [reflexivity|].
  cbn [unify_x unify]. cbv zeta. rewrite !aseq_rstore.
  destruct (den s t1) as [x|x|x|v|f xs]; destruct (den s t2) as [y|y|y|w|g ys]; auto.
  destruct (str_eqb f g); auto. destruct (Nat.eqb (length xs) (length ys)); auto.
  apply arr_ext. exact IH.
Qed.

Definition unify_arrays_x (n:nat) (s:store) (xs ys:list term) : ures :=
  if Nat.eqb (length xs) (length ys) then arr (unify_x n) xs ys s else UFail.
Lemma unify_arrays_x_eq n s xs ys : unify_arrays_x n s xs ys = unify_arrays n s xs ys.
Proof.
  unfold unify_arrays_x, unify_arrays. destruct (Nat.eqb (length xs) (length ys)); auto.
  apply arr_ext. apply unify_x_eq.
Qed.

Definition mk_unify_x (h:heap) (t1 t2:term) : gen :=
  let r := rstore h in
  let a1 := aseq r t1 in let a2 := aseq r t2 in
  match a1, a2 with
  | TVar v, _ => GVarFresh v a2
  | _, TVar w => GVarFresh w a1
  | TAtom x, TAtom y => if str_eqb x y then GSucc false else GFail
  | TInt x, TInt y => if Z.eqb x y then GSucc false else GFail
  | TStr x, TStr y => if str_eqb x y then GSucc false else GFail
  | TFun f xs, TFun g ys => if str_eqb f g then GArrFresh xs ys else GFail
  | _, _ => GFail
  end.

Lemma mk_unify_x_eq h t1 t2 : mk_unify_x h t1 t2 = mk_unify h t1 t2.
Proof. unfold mk_unify_x, mk_unify. cbv zeta. rewrite !aseq_rstore. reflexivity. Qed.

Section OpenX.
  Variable N : heap -> gen -> option (heap * gen * bool).
  Fixpoint open_arr_x (h:heap) (xs ys:list term) : option (heap * list gen * bool) :=
    match xs, ys with
    | a::ar, b::br =>
        match N h (mk_unify_x h a b) with
        | None => None
        | Some (h1, g1, true) =>
            match open_arr_x h1 ar br with
            | None => None
            | Some (h2, gs, ok) => Some (h2, g1::gs, ok)
            end
        | Some (h1, g1, false) => Some (h1, [g1], false)
        end
    | _, _ => Some (h, [], true)
    end.
End OpenX.

Fixpoint next_x (n:nat) (h:heap) (g:gen) : option (heap * gen * bool) :=
  match n with O => None | S n =>
    match g with
    | GSucc false => Some (h, GSucc true, true)
    | GSucc true => Some (h, GSucc true, false)
    | GFail => Some (h, GFail, false)
    | GDone => Some (h, GDone, false)
    | GVarFresh v t =>
        match lookup v h with
        | None =>
            let val := dfast h t in
            if is_var v val then Some (h, GVarSelf, true)
            else Some ((v,val)::h, GVarBound v, true)
        | Some _ =>
            match next_x n h (mk_unify_x h (TVar v) t) with
            | None => None
            | Some (h', g', true) => Some (h', GVarDeleg g', true)
            | Some (h', _, false) => Some (h', GDone, false)
            end
        end
    | GVarSelf => Some (h, GDone, false)
    | GVarBound v => Some (unbind v h, GDone, false)
    | GVarDeleg g' =>
        match next_x n h g' with
        | None => None
        | Some (h', g'', true) => Some (h', GVarDeleg g'', true)
        | Some (h', _, false) => Some (h', GDone, false)
        end
    | GArrFresh xs ys =>
        if Nat.eqb (length xs) (length ys) then
          match open_arr_x (next_x n) h xs ys with
          | None => None
          | Some (h', held, true) => Some (h', GArrHeld held, true)
          | Some (h', held, false) => Some (close_all h' held, GDone, false)
          end
        else Some (h, GDone, false)
    | GArrHeld held => Some (close_all h held, GDone, false)
    end
  end.

Lemma open_arr_x_eq (N N' : heap -> gen -> option (heap * gen * bool)) :
  (forall h g, N h g = N' h g) -> forall xs ys h, open_arr_x N h xs ys = open_arr N' h xs ys.
Proof.
  intros HN. induction xs as [|a ar IH]; intros [|b br] h; cbn [open_arr_x open_arr]; auto.
  rewrite mk_unify_x_eq, HN. destruct (N' h (mk_unify h a b)) as [[[h1 g1] [|]]|]; auto. rewrite IH. reflexivity.
Qed.

Lemma next_x_eq n : forall h g, next_x n h g = next n h g.
Proof.
  induction n as [|n IH]; intros h g; [reflexivity|].
  cbn [next_x next]. destruct g as [[|]| |v t| |v|g|xs ys|held|]; auto.
  - rewrite mk_unify_x_eq, IH. unfold dfast. rewrite aseq_rstore. reflexivity.
  - rewrite IH. reflexivity.
  - rewrite (open_arr_x_eq (next_x n) (next n) IH). reflexivity.
Qed.
