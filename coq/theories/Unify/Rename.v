(* Unification does not depend on the identity of variables: it commutes with every injective
   renaming of cells (C02: the outcome is a function of the shape of the terms and of which variables
   are the same, nothing else). *)
From Coq Require Import List Arith Bool ZArith.
Import ListNotations.
From YP Require Import Base.Str Term.Term Unify.Unify Unify.Bounded.
Set Implicit Arguments.

Fixpoint ren (p : nat -> nat) (t : term) : term :=
  match t with
  | TVar v => TVar (p v)
  | TFun f args => TFun f (map (ren p) args)
  | _ => t
  end.

Definition ren_store (p : nat -> nat) (s : store) : store := map (fun b => (p (fst b), ren p (snd b))) s.

Definition ren_res (p : nat -> nat) (r : ures) : ures :=
  match r with UOk s => UOk (ren_store p s) | x => x end.

Definition injective (p : nat -> nat) : Prop := forall a b, p a = p b -> a = b.

Lemma ren_agree p q t : (forall w, occurs w t = true -> p w = q w) -> ren p t = ren q t.
Proof.
  induction t as [a|z|x|v|f args IH] using term_ind'; intros H; simpl; auto.
  - rewrite H; [reflexivity|]. simpl. apply Nat.eqb_refl.
  - f_equal. apply map_ext_in. intros y Hy. apply (proj1 (Forall_forall _ _) IH y Hy).
    intros w Hw. apply H. apply occurs_fun. exists y. auto.
Qed.

Lemma ren_id t : ren (fun w => w) t = t.
Proof.
  induction t as [a|z|x|v|f args IH] using term_ind'; simpl; auto.
  f_equal. rewrite <- (map_id args) at 2. apply map_ext_Forall. exact IH.
Qed.

Lemma occurs_ren p w t : occurs w (ren p t) = true -> exists a, w = p a /\ occurs a t = true.
Proof.
  induction t as [a|z|x|v|f args IH] using term_ind'; simpl; intros H; try discriminate.
  - apply Nat.eqb_eq in H. exists v. split; [symmetry; exact H|apply Nat.eqb_refl].
  - apply existsb_exists in H as [y [Hy Ho]]. apply in_map_iff in Hy as [x [<- Hx]].
    destruct (proj1 (Forall_forall _ _) IH x Hx Ho) as [a [E O]]. exists a. split; [exact E|].
    apply existsb_exists. exists x; auto.
Qed.

Section Inj.
Variable p : nat -> nat.
Hypothesis Hp : injective p.

Lemma eqb_ren a b : Nat.eqb (p a) (p b) = Nat.eqb a b.
Proof.
  destruct (Nat.eqb_spec a b) as [->|N]; [apply Nat.eqb_refl|].
  apply Nat.eqb_neq. intros E. apply N. apply Hp. exact E.
Qed.

Lemma ren_subst1 v r x : ren p (subst1 v r x) = subst1 (p v) (ren p r) (ren p x).
Proof.
  induction x as [a|z|q|w|f args IH] using term_ind'; cbn [subst1 ren]; try reflexivity.
  - rewrite eqb_ren. destruct (Nat.eqb w v); reflexivity.
  - f_equal. rewrite !map_map. apply map_ext_Forall. exact IH.
Qed.

Lemma ren_occurs v x : occurs (p v) (ren p x) = occurs v x.
Proof.
  induction x as [a|z|q|w|f args IH] using term_ind'; cbn [occurs ren]; try reflexivity.
  - apply eqb_ren.
  - apply existsb_map_Forall. exact IH.
Qed.

Lemma ren_den s : forall u, den (ren_store p s) (ren p u) = ren p (den s u).
Proof.
  induction s as [|[v t] s IH]; intros u; simpl; [reflexivity|].
  rewrite !IH. symmetry. apply ren_subst1.
Qed.

Lemma ren_arr (U : store -> term -> term -> ures) :
  (forall s a b, U (ren_store p s) (ren p a) (ren p b) = ren_res p (U s a b)) ->
  forall xs ys s, arr U (map (ren p) xs) (map (ren p) ys) (ren_store p s) = ren_res p (arr U xs ys s).
Proof.
  intros HU. induction xs as [|a ar IH]; intros [|b br] s; simpl; auto.
  rewrite HU. destruct (U s a b) as [s1| | |]; simpl; auto.
Qed.

Theorem unify_equivariant n : forall s a b,
  unify n (ren_store p s) (ren p a) (ren p b) = ren_res p (unify n s a b).
Proof.
  induction n as [|n IH]; intros s a b; [reflexivity|].
  cbn [unify]. rewrite !ren_den.
  destruct (den s a) as [x|x|x|v|f xs]; destruct (den s b) as [y|y|y|w|g ys]; cbn [ren ren_res]; try reflexivity;
    try (unfold bind; cbn [occurs]; reflexivity).
  - destruct (str_eqb x y); reflexivity.
  - destruct (Z.eqb x y); reflexivity.
  - destruct (str_eqb x y); reflexivity.
  - rewrite eqb_ren. destruct (Nat.eqb v w); reflexivity.
  - unfold bind. change (TFun g (map (ren p) ys)) with (ren p (TFun g ys)). rewrite ren_occurs.
    destruct (occurs v (TFun g ys)); reflexivity.
  - unfold bind. change (TFun f (map (ren p) xs)) with (ren p (TFun f xs)). rewrite ren_occurs.
    destruct (occurs w (TFun f xs)); reflexivity.
  - destruct (str_eqb f g); [|reflexivity]. rewrite !map_length.
    destruct (Nat.eqb (length xs) (length ys)); [|reflexivity].
    apply ren_arr. exact IH.
Qed.
End Inj.

(* The same for a renaming that is injective only on the cells below k, when store and terms mention only
   cells below k. *)
Definition inj_on (k : nat) (p : nat -> nat) : Prop := forall a b, a < k -> b < k -> p a = p b -> a = b.

Lemma bounded_ren k k' p t : bounded k t -> (forall a, a < k -> p a < k') -> bounded k' (ren p t).
Proof. intros B Hp w Hw. destruct (occurs_ren _ _ _ Hw) as [a [-> O]]. apply Hp. apply B. exact O. Qed.

Section InjOn.
Variable k : nat.
Variable p : nat -> nat.
Hypothesis Hp : inj_on k p.

Lemma eqb_ren_b a b : a < k -> b < k -> Nat.eqb (p a) (p b) = Nat.eqb a b.
Proof.
  intros La Lb. destruct (Nat.eqb_spec a b) as [->|N]; [apply Nat.eqb_refl|].
  apply Nat.eqb_neq. intros E. apply N. apply Hp; auto.
Qed.

Lemma bounded_arg f args x : bounded k (TFun f args) -> In x args -> bounded k x.
Proof. intros B Hx. apply bounded_fun in B. exact (proj1 (Forall_forall _ _) B x Hx). Qed.

Lemma ren_subst1_b v r x : v < k -> bounded k x -> ren p (subst1 v r x) = subst1 (p v) (ren p r) (ren p x).
Proof.
  intros Lv. induction x as [a|z|q|w|f args IH] using term_ind'; intros B; simpl; auto.
  - assert (Lw: w < k) by (apply B; simpl; apply Nat.eqb_refl).
    rewrite eqb_ren_b by assumption. destruct (Nat.eqb w v); reflexivity.
  - f_equal. rewrite !map_map. apply map_ext_in. intros y Hy.
    apply (proj1 (Forall_forall _ _) IH y Hy). eapply bounded_arg; eauto.
Qed.

Lemma ren_occurs_b v x : v < k -> bounded k x -> occurs (p v) (ren p x) = occurs v x.
Proof.
  intros Lv. induction x as [a|z|q|w|f args IH] using term_ind'; intros B; cbn [occurs ren]; try reflexivity.
  - assert (Lw: w < k) by (apply B; simpl; apply Nat.eqb_refl). apply eqb_ren_b; assumption.
  - apply existsb_map_Forall. apply Forall_forall. intros y Hy.
    apply (proj1 (Forall_forall _ _) IH y Hy). eapply bounded_arg; eauto.
Qed.

Lemma ren_den_b s : store_bounded k s -> forall u, bounded k u -> den (ren_store p s) (ren p u) = ren p (den s u).
Proof.
  induction s as [|[v t] s IH]; intros B u Bu; simpl; [reflexivity|].
  assert (B': store_bounded k s) by (intros w x H; apply B; right; exact H).
  destruct (B v t (or_introl eq_refl)) as [Lv Bt].
  rewrite !IH by assumption. symmetry. apply ren_subst1_b; [exact Lv|apply bounded_den; assumption].
Qed.

Lemma ren_arr_b (U : store -> term -> term -> ures) :
  (forall s a b, store_bounded k s -> bounded k a -> bounded k b -> U (ren_store p s) (ren p a) (ren p b) = ren_res p (U s a b)) ->
  (forall s a b s', store_bounded k s -> bounded k a -> bounded k b -> U s a b = UOk s' -> store_bounded k s') ->
  forall xs ys s, store_bounded k s -> Forall (bounded k) xs -> Forall (bounded k) ys ->
  arr U (map (ren p) xs) (map (ren p) ys) (ren_store p s) = ren_res p (arr U xs ys s).
Proof.
  intros HU HB. induction xs as [|a ar IH]; intros [|b br] s B Fx Fy; simpl; auto.
  inversion Fx; inversion Fy; subst.
  rewrite HU by assumption. destruct (U s a b) as [s1| | |] eqn:E; simpl; auto.
  apply IH; [apply (HB s a b s1); assumption|assumption|assumption].
Qed.

Theorem unify_equivariant_b n : forall s a b, store_bounded k s -> bounded k a -> bounded k b ->
  unify n (ren_store p s) (ren p a) (ren p b) = ren_res p (unify n s a b).
Proof.
  induction n as [|n IH]; intros s a b B Ba Bb; [reflexivity|].
  cbn [unify]. rewrite !ren_den_b by assumption.
  pose proof (bounded_den k s B a Ba) as D1. pose proof (bounded_den k s B b Bb) as D2.
  assert (BV: forall v, occurs v (TVar v) = true) by (intros v; simpl; apply Nat.eqb_refl).
  destruct (den s a) as [x|x|x|v|f xs]; destruct (den s b) as [y|y|y|w|g ys]; cbn [ren ren_res]; try reflexivity;
    try (unfold bind; cbn [occurs]; reflexivity).
  - destruct (str_eqb x y); reflexivity.
  - destruct (Z.eqb x y); reflexivity.
  - destruct (str_eqb x y); reflexivity.
  - rewrite eqb_ren_b by auto. destruct (Nat.eqb v w); reflexivity.
  - unfold bind. change (TFun g (map (ren p) ys)) with (ren p (TFun g ys)). rewrite ren_occurs_b by auto.
    destruct (occurs v (TFun g ys)); reflexivity.
  - unfold bind. change (TFun f (map (ren p) xs)) with (ren p (TFun f xs)). rewrite ren_occurs_b by auto.
    destruct (occurs w (TFun f xs)); reflexivity.
  - destruct (str_eqb f g); [|reflexivity]. rewrite !map_length.
    destruct (Nat.eqb (length xs) (length ys)); [|reflexivity].
    apply ren_arr_b; [exact IH|intros s0 a0 b0 s' H0 H1 H2 H3; exact (unify_bounded k n s0 a0 b0 s' H0 H1 H2 H3)|exact B|exact (proj1 (bounded_fun k f xs) D1)|exact (proj1 (bounded_fun k g ys) D2)].
Qed.
End InjOn.
