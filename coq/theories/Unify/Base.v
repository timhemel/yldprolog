(* Unification depends on the active bindings only through the dereferenced values of its arguments:
   running it on top of a store s (under further bindings nw made since) gives the same new bindings as
   running it, from nw alone, on the s-resolved terms. *)
From Coq Require Import List Arith Bool.
Import ListNotations.
From YP Require Import Base.Str Term.Term Unify.Unify.
Set Implicit Arguments.

Definition vals_free (s nw : store) : Prop := forall v t, In (v, t) nw -> free_in s t.
Definition lift (s : store) (r : ures) : ures := match r with UOk nw => UOk (nw ++ s) | x => x end.

Lemma vals_free_nil s : vals_free s [].
Proof. intros v t []. Qed.

Lemma vals_free_cons s v a nw : free_in s a -> vals_free s nw -> vals_free s ((v, a) :: nw).
Proof. intros Fa F w t [H|H]; [inversion H; subst; exact Fa|exact (F w t H)]. Qed.

Lemma den_split nw : forall s, vals_free s nw -> forall u, den (nw ++ s) u = den nw (den s u).
Proof.
  induction nw as [|[v t] r IH]; intros s F u; simpl; [reflexivity|].
  assert (Fr: vals_free s r) by (intros w x H; apply (F w x); right; exact H).
  rewrite !(IH s Fr). rewrite (den_id (F v t (or_introl eq_refl))). reflexivity.
Qed.

Lemma free_den s nw : vals_free s nw -> forall x, free_in s x -> free_in s (den nw x).
Proof.
  induction nw as [|[v t] r IH]; intros F x Fx; simpl; [exact Fx|].
  assert (Fr: vals_free s r) by (intros w y H; apply (F w y); right; exact H).
  apply free_subst1; apply IH; auto. exact (F v t (or_introl eq_refl)).
Qed.

Lemma free_fun_args s f args x : free_in s (TFun f args) -> In x args -> free_in s x.
Proof. intros F Hx w Hw. apply F. simpl. apply existsb_exists. exists x; auto. Qed.

Lemma free_app_r nw s x : free_in (nw ++ s) x -> free_in s x.
Proof.
  intros F w Hw. specialize (F w Hw). induction nw as [|[v t] r IH]; simpl in *; [exact F|].
  destruct (Nat.eqb w v); [discriminate|auto].
Qed.

(* the values bound by a base-free run stay resolved with respect to the base *)
Lemma arr_vals_free s (U : store -> term -> term -> ures) :
  (forall nw a b nw', vals_free s nw -> free_in s a -> free_in s b -> U nw a b = UOk nw' -> vals_free s nw') ->
  forall xs ys nw nw', vals_free s nw -> (forall x, In x xs -> free_in s x) -> (forall y, In y ys -> free_in s y) ->
  arr U xs ys nw = UOk nw' -> vals_free s nw'.
Proof.
  intros HU. induction xs as [|a ar IH]; intros [|b br] nw nw' F Fx Fy H; simpl in H; try discriminate.
  - inversion H; subst; exact F.
  - destruct (U nw a b) as [n1| | |] eqn:E; try discriminate.
    apply (IH br n1 nw'); auto.
    + apply (HU nw a b n1); auto; [apply Fx|apply Fy]; left; reflexivity.
    + intros x Hx; apply Fx; right; exact Hx.
    + intros y Hy; apply Fy; right; exact Hy.
Qed.

Lemma unify_vals_free s n : forall nw a b nw', vals_free s nw -> free_in s a -> free_in s b ->
  unify n nw a b = UOk nw' -> vals_free s nw'.
Proof.
  induction n as [|n IH]; intros nw a b nw' F Fa Fb H; [discriminate|].
  rewrite unify_S in H.
  pose proof (free_den F Fa) as D1. pose proof (free_den F Fb) as D2.
  revert H D1 D2. destruct (kind_ofP (den nw a) (den nw b)) as [x|v x _|v x _| |f xs ys _]; intros H D1 D2.
  - inversion H; subst nw'. exact F.
  - apply bind_ok in H as [_ ->]. apply vals_free_cons; auto.
  - apply bind_ok in H as [_ ->]. apply vals_free_cons; auto.
  - discriminate.
  - apply (@arr_vals_free s (unify n) IH xs ys nw nw' F); auto; intros z Hz.
    + exact (@free_fun_args _ _ _ _ D1 Hz).
    + exact (@free_fun_args _ _ _ _ D2 Hz).
Qed.

Definition base_at (s : store) (U : store -> term -> term -> ures) : Prop :=
  forall nw a b, wf (nw ++ s) -> vals_free s nw -> U (nw ++ s) a b = lift s (U nw (den s a) (den s b)).

Lemma arr_base s n : base_at s (unify n) ->
  forall xs ys nw, wf (nw ++ s) -> vals_free s nw ->
  arr (unify n) xs ys (nw ++ s) = lift s (arr (unify n) (map (den s) xs) (map (den s) ys) nw).
Proof.
  intros HB. induction xs as [|a ar IH]; intros [|b br] nw W Fv; cbn [arr map]; try reflexivity.
  pose proof (wf_app_r _ _ W) as Ws.
  rewrite (HB nw a b W Fv).
  destruct (unify n nw (den s a) (den s b)) as [n1| | |] eqn:E; cbn [lift]; try reflexivity.
  apply IH.
  - assert (E': unify n (nw ++ s) a b = UOk (n1 ++ s)) by (rewrite (HB nw a b W Fv), E; reflexivity).
    destruct (unify_sound _ _ _ W E') as [W1 _]. exact W1.
  - apply (@unify_vals_free s n nw (den s a) (den s b) n1 Fv); [apply den_free; exact Ws|apply den_free; exact Ws|exact E].
Qed.

Theorem unify_base s n : base_at s (unify n).
Proof.
  induction n as [|n IH]; intros nw a b W F; [reflexivity|].
  rewrite !unify_S, !(den_split F).
  pose proof (den_free W a) as Fa. pose proof (den_free W b) as Fb. rewrite (den_split F) in Fa, Fb.
  assert (I: forall f l, free_in (nw ++ s) (TFun f l) -> map (den s) l = l).
  { intros f l Fl. rewrite <- (map_id l) at 2. apply map_ext_in. intros z Hz.
    apply den_id. apply free_app_r with (nw := nw). exact (@free_fun_args _ _ _ _ Fl Hz). }
  revert Fa Fb. destruct (kind_ofP (den nw (den s a)) (den nw (den s b))) as [x|v x _|v x _| |f xs ys _];
    intros Fa Fb; cbn [lift]; try reflexivity.
  - unfold bind. destruct (occurs v x); reflexivity.
  - unfold bind. destruct (occurs v x); reflexivity.
  - rewrite (@arr_base s n IH xs ys nw W F), (I f xs Fa), (I f ys Fb). reflexivity.
Qed.

(* the form used most: from a well-formed store, the result is the store plus the bindings computed
   from the resolved arguments alone *)
Corollary unify_increment n s a b : wf s -> unify n s a b = lift s (unify n [] (den s a) (den s b)).
Proof. intros W. exact (@unify_base s n [] a b W (vals_free_nil s)). Qed.

Lemma unify_arrays_increment n s xs ys : wf s ->
  unify_arrays n s xs ys = lift s (unify_arrays n [] (map (den s) xs) (map (den s) ys)).
Proof.
  intros W. unfold unify_arrays. rewrite !map_length.
  destruct (Nat.eqb (length xs) (length ys)); [|reflexivity].
  apply (@arr_base s n (@unify_base s n) xs ys [] W (vals_free_nil s)).
Qed.
