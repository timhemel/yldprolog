(* Code-point strings, decimal printing, and the observation type shared by
   all correspondence runs.  No proofs about the code live here. *)
From Coq Require Import List NArith ZArith Bool Ascii String.
Import ListNotations.
Local Open Scope N_scope.

Definition str := list N.

Fixpoint str_eqb (a b : str) : bool :=
  match a, b with
  | [], [] => true
  | x :: a', y :: b' => N.eqb x y && str_eqb a' b'
  | _, _ => false
  end.

Lemma str_eqb_spec a b : reflect (a = b) (str_eqb a b).
Proof.
  revert b; induction a as [|x a IH]; intros [|y b]; simpl; try (constructor; congruence).
  destruct (N.eqb_spec x y) as [->|Hn]; simpl.
  - destruct (IH b) as [->|Hn]; constructor; congruence.
  - constructor; congruence.
Qed.

Lemma str_eqb_eq a b : str_eqb a b = true <-> a = b.
Proof. destruct (str_eqb_spec a b); split; congruence. Qed.
Lemma str_eqb_refl a : str_eqb a a = true.
Proof. apply str_eqb_eq; reflexivity. Qed.
Lemma str_eqb_neq a b : str_eqb a b = false <-> a <> b.
Proof. destruct (str_eqb_spec a b); split; congruence. Qed.
Lemma str_eqb_sym a b : str_eqb a b = str_eqb b a.
Proof.
  destruct (str_eqb_spec a b) as [->|H]; [symmetry; apply str_eqb_refl|].
  symmetry; apply str_eqb_neq; congruence.
Qed.

(* ASCII string literal -> code points (for readable definitions and examples) *)
Fixpoint of_string (s : string) : str :=
  match s with
  | EmptyString => []
  | String c r => N_of_ascii c :: of_string r
  end.

(* decimal digits of a positive number, most significant first; fuel = number of bits + 1 *)
Fixpoint dec_digits_fuel (fuel : nat) (n : N) (acc : str) : str :=
  match fuel with
  | O => acc
  | S f =>
      let d := 48 + n mod 10 in
      let q := n / 10 in
      if N.eqb q 0 then d :: acc else dec_digits_fuel f q (d :: acc)
  end.

Definition dec_of_N (n : N) : str := dec_digits_fuel (S (N.to_nat (N.size n))) n [].
Definition dec_of_nat (n : nat) : str := dec_of_N (N.of_nat n).
Definition dec_of_Z (z : Z) : str :=
  match z with
  | Z0 => [48]
  | Zpos p => dec_of_N (Npos p)
  | Zneg p => 45 :: dec_of_N (Npos p)
  end.

(* Harness glue: cases are written by the Python side as Gallina text. Source
   strings are ASCII literals in which every code point outside 32..126, the
   double quote and the backslash are written as backslash, decimal code, semicolon;
   the observations of the model are printed back as one Coq string per case. *)

Fixpoint dec_escape (s : string) (acc : option N) : str :=
  match s with
  | EmptyString => []
  | String c r =>
      let n := N_of_ascii c in
      match acc with
      | None => if N.eqb n 92 then dec_escape r (Some 0) else n :: dec_escape r None
      | Some v =>
          if N.eqb n 59 then v :: dec_escape r None
          else dec_escape r (Some (v * 10 + (n - 48)))
      end
  end.
Definition d (s : string) : str := dec_escape s None.

Inductive obs := OS (s : str) | OZ (z : Z) | OL (l : list obs).

Fixpoint to_string (s : str) : string :=
  match s with
  | [] => EmptyString
  | c :: r => String (ascii_of_N c) (to_string r)
  end.

Fixpoint sep_dots (l : list str) : str :=
  match l with
  | [] => []
  | [x] => x
  | x :: r => x ++ 46 :: sep_dots r
  end.

(* a string is printed between braces; printable ASCII other than the double quote, backslash and
   braces is printed as it is, every other code point as backslash, decimal code, semicolon *)
Definition esc_char (c : N) : str :=
  if (N.leb 32 c && N.leb c 126 && negb (N.eqb c 34) && negb (N.eqb c 92) && negb (N.eqb c 123) && negb (N.eqb c 125))%bool
  then [c] else 92 :: dec_of_N c ++ [59].

Fixpoint show_obs_str (o : obs) : str :=
  match o with
  | OS s => 123 :: flat_map esc_char s ++ [125]
  | OZ z => dec_of_Z z
  | OL l => 40 :: (fix go (l : list obs) : str :=
              match l with
              | [] => [41]
              | [x] => show_obs_str x ++ [41]
              | x :: r => show_obs_str x ++ 32 :: go r
              end) l
  end.
Definition show (o : obs) : string := to_string (show_obs_str o).

Definition obool (b : bool) : obs := OZ (if b then 1 else 0)%Z.
Definition onat (n : nat) : obs := OZ (Z.of_nat n).
Definition oopt {A} (f : A -> obs) (o : option A) : obs :=
  match o with None => OL [] | Some a => OL [f a] end.
Definition olist {A} (f : A -> obs) (l : list A) : obs := OL (map f l).
Definition otag (t : string) (l : list obs) : obs := OL (OS (of_string t) :: l).

(* For evaluated examples `exists a, r = Some a /\ P a` about a closed r: one evaluation of the match decides
   both, and the value of r is never written out. *)
Lemma some_such_that {A} (r : option A) (P : A -> Prop) :
  match r with Some a => P a | None => False end -> exists a, r = Some a /\ P a.
Proof. destruct r as [a|]; [|contradiction]. intros H. exists a. split; [reflexivity|exact H]. Qed.

Lemma Forall2_imp {A B} (P Q : A -> B -> Prop) l1 l2 :
  (forall a b, P a b -> Q a b) -> Forall2 P l1 l2 -> Forall2 Q l1 l2.
Proof. intros H. induction 1; constructor; auto. Qed.
