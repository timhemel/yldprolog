(* C16, run-time side of the literals: the expression that yp_generator.compile_expression emits for a literal
   (atom(..) / functor(.., [..]) / listpair(.., ..) / makelist([..]) / ATOM_NIL / an int / a Python variable),
   evaluated by the engine constructors (Sem/Machine.eval_expr = YP.atom, YP.functor, YP.listpair, YP.makelist),
   builds exactly the term the literal stands for (Literals.sden), and to_python (Engine/GetValue.py_of) maps that
   term to the Python value the property text prescribes.  The atom table (name -> object) of one engine returns one
   object per name; unification never looks at the object, only at the name.
   The list constructors are spelled three times (Literals.s_dot / s_nil / cons_term for the source side, GetValue.dot /
   nil_name / mklist for to_python, Machine.cons_term / nil_atom / mk_list for the engine): the first lemmas say they agree. *)
From Coq Require Import String.
From Coq Require Import List NArith ZArith Arith Bool Lia.
Import ListNotations.
From YP Require Import Base.Str Term.Term Term.Show Unify.Unify Unify.Mgu Lang.Ast Lang.Lexer Lang.Cst Lang.Parser
  Lang.Unquote Lang.Literals Lang.Front Comp.IR Comp.CompileBody Comp.CompileClause Sem.Machine Engine.GetValue.
Local Open Scope string_scope.
Local Open Scope list_scope.

Lemma s_dot_eq : Literals.s_dot = s_ ".".
Proof. reflexivity. Qed.
Lemma s_nil_eq : Literals.s_nil = s_ "[]".
Proof. reflexivity. Qed.
Lemma cons_term_eq h t : Literals.cons_term h t = Machine.cons_term h t.
Proof. reflexivity. Qed.
Lemma digits_value_eq w : digits_value w = Z.of_N (num_value w).
Proof. reflexivity. Qed.
Lemma dot_eq : GetValue.dot = Literals.s_dot.
Proof. reflexivity. Qed.
Lemma nil_name_eq : GetValue.nil_name = Literals.s_nil.
Proof. reflexivity. Qed.

(* makelist: functools.reduce(lambda x, y: listpair(y, x), reversed(l), ATOM_NIL) *)
Lemma mk_list_fold l : mk_list l = fold_right Literals.cons_term (TAtom Literals.s_nil) l.
Proof. induction l as [|x r IH]; simpl; [reflexivity|]. rewrite IH. reflexivity. Qed.

Lemma mk_list_mklist l : mk_list l = GetValue.mklist l.
Proof. exact (mk_list_fold l). Qed.

Lemma evals_map r xs :
  (fix evals (l : list expr) : list term := match l with [] => [] | x :: t => eval_expr r x :: evals t end) xs
  = map (eval_expr r) xs.
Proof. induction xs as [|x xs IH]; [reflexivity|]. cbn [map]. rewrite <- IH. reflexivity. Qed.

(* the engine constructors, one equation each *)
Lemma eval_atom r a : eval_expr r (ECall (s_ "atom") [EStr a]) = TAtom a.
Proof. reflexivity. Qed.
Lemma eval_functor r f xs : eval_expr r (ECall (s_ "functor") [EStr f; EList xs]) = TFun f (map (eval_expr r) xs).
Proof. cbn [eval_expr]. rewrite evals_map. reflexivity. Qed.
Lemma eval_listpair r h t :
  eval_expr r (ECall (s_ "listpair") [h; t]) = Machine.cons_term (eval_expr r h) (eval_expr r t).
Proof. reflexivity. Qed.
Lemma eval_makelist r xs : eval_expr r (ECall (s_ "makelist") [EList xs]) = mk_list (map (eval_expr r) xs).
Proof. cbn [eval_expr]. rewrite evals_map. reflexivity. Qed.
Lemma eval_nil r : eval_expr r (EVar (s_ "ATOM_NIL")) = nil_atom.
Proof. reflexivity. Qed.
Lemma eval_num r w : eval_expr r (ENum w) = TInt (Z.of_N (num_value w)).
Proof. reflexivity. Qed.

Lemma pyvar_not_nil v : str_eqb (pyvar v) (s_ "ATOM_NIL") = false.
Proof. reflexivity. Qed.
Lemma eval_var r v : eval_expr r (EVar (pyvar v)) = match env_get (pyvar v) r with Some t => t | None => bad_term end.
Proof. cbn [eval_expr]. rewrite pyvar_not_nil. reflexivity. Qed.

(* makelist([x1,...,xn]) builds the same term as
   listpair(x1, listpair(x2, ... listpair(xn, ATOM_NIL))) -- the '.'/2 chain ending in [] *)
Definition listpair_chain (xs : list expr) : expr :=
  fold_right (fun x acc => ECall (s_ "listpair") [x; acc]) (EVar (s_ "ATOM_NIL")) xs.

Theorem makelist_listpair_chain r xs :
  eval_expr r (ECall (s_ "makelist") [EList xs]) = eval_expr r (listpair_chain xs) /\
  eval_expr r (listpair_chain xs) = fold_right Literals.cons_term (TAtom Literals.s_nil) (map (eval_expr r) xs).
Proof.
  assert (C : eval_expr r (listpair_chain xs) = fold_right Literals.cons_term (TAtom Literals.s_nil) (map (eval_expr r) xs)).
  { induction xs as [|x xs IH]; [reflexivity|]. cbn [map listpair_chain fold_right].
    fold (listpair_chain xs). rewrite eval_listpair, IH. reflexivity. }
  split; [|exact C]. rewrite eval_makelist, mk_list_fold, C. reflexivity.
Qed.

(* the Python locals bind the variable V_<v> of every source variable v of the literal to rho v *)
Definition binds (r : env) (rho : str -> term) (vs : list str) : Prop :=
  forall v, In v vs -> env_get (pyvar v) r = Some (rho v).

Lemma compile_list x items :
  compile_expression (SList (x :: items)) = ECall (s_ "makelist") [EList (map compile_expression (x :: items))].
Proof. reflexivity. Qed.

Theorem literal_denotation : forall t r rho, binds r rho (sterm_vars t) ->
  eval_expr r (compile_expression t) = sden rho t.
Proof.
  induction t as [a|w|v|f args IH|items IH|h tl IHh IHt] using sterm_ind'; intros r rho Hb.
  - reflexivity.
  - reflexivity.
  - cbn [compile_expression]. rewrite eval_var, (Hb v); [reflexivity | left; reflexivity].
  - cbn [compile_expression sden]. rewrite eval_functor, map_map. f_equal.
    apply map_ext_Forall. rewrite Forall_forall in *. intros x Hx. apply (IH x Hx).
    intros v Hv. apply Hb. cbn [sterm_vars]. apply in_flat_map. eauto.
  - assert (E : map (eval_expr r) (map compile_expression items) = map (sden rho) items).
    { rewrite map_map. apply map_ext_Forall. rewrite Forall_forall in *. intros x Hx. apply (IH x Hx).
      intros v Hv. apply Hb. cbn [sterm_vars]. apply in_flat_map. eauto. }
    destruct items as [|x items]; [reflexivity|].
    rewrite compile_list, eval_makelist, mk_list_fold, E. reflexivity.
  - cbn [compile_expression sden]. rewrite eval_listpair, (IHh r rho), (IHt r rho); [reflexivity| |];
      intros v Hv; apply Hb; cbn [sterm_vars]; apply in_or_app; auto.
Qed.

(* a literal without variables denotes one fixed term, whatever the environment *)
Corollary ground_literal_denotation t r rho : sterm_vars t = [] ->
  eval_expr r (compile_expression t) = sden rho t.
Proof. intros H. apply literal_denotation. rewrite H. intros v []. Qed.

(* The Python value the property text prescribes for a literal, given the Python values pv of its variables
   (PNone for an unbound one): atoms -> names, `[]` (however written) -> the empty list, integers -> ints, `[...]` ->
   lists, `[..|T]` -> a list when T's value is a list, compound terms not named `.` -> (name, argument list).
   None = not specified by the property (a `.`-named compound written as such, a list pattern whose tail is not a list). *)
Fixpoint lit_py (pv : str -> pyval) (t : sterm) : option pyval :=
  let go := fix go (l : list sterm) : option (list pyval) :=
    match l with
    | [] => Some []
    | x :: r => match lit_py pv x, go r with Some y, Some ys => Some (y :: ys) | _, _ => None end
    end in
  match t with
  | SAtom a => Some (if str_eqb a nil_name then PList [] else PStr a)
  | SNum w => Some (PInt (Z.of_N (num_value w)))
  | SVar v => Some (pv v)
  | SFun f args => if str_eqb f dot then None else option_map (PPair f) (go args)
  | SList items => option_map PList (go items)
  | SPair h tl => match lit_py pv h, lit_py pv tl with
                  | Some x, Some (PList l) => Some (PList (x :: l))
                  | _, _ => None
                  end
  end.

Fixpoint lit_pys (pv : str -> pyval) (l : list sterm) : option (list pyval) :=
  match l with
  | [] => Some []
  | x :: r => match lit_py pv x, lit_pys pv r with Some y, Some ys => Some (y :: ys) | _, _ => None end
  end.

Lemma lit_py_go pv l :
  (fix go (l : list sterm) : option (list pyval) :=
    match l with
    | [] => Some []
    | x :: r => match lit_py pv x, go r with Some y, Some ys => Some (y :: ys) | _, _ => None end
    end) l = lit_pys pv l.
Proof. induction l as [|x r IH]; [reflexivity|]. cbn [lit_pys]. rewrite <- IH. reflexivity. Qed.

Lemma lit_pys_Forall2 pv rho l : Forall (fun t => forall v, lit_py pv t = Some v -> py_of (sden rho t) = POk v) l ->
  forall ys, lit_pys pv l = Some ys -> Forall2 (fun x y => py_of x = POk y) (map (sden rho) l) ys.
Proof.
  induction 1 as [|t l Ht _ IH]; intros ys H; cbn [lit_pys] in H.
  - injection H as <-. constructor.
  - destruct (lit_py pv t) as [y|] eqn:Ey; [|discriminate]. destruct (lit_pys pv l) as [ys'|]; [|discriminate].
    injection H as <-. cbn [map]. constructor; auto.
Qed.

(* whenever the variables of the literal stand for terms whose Python values are pv, the
   to_python specification py_of maps the term the literal denotes to lit_py *)
Theorem to_python_literal pv rho : (forall x, py_of (rho x) = POk (pv x)) ->
  forall t v, lit_py pv t = Some v -> py_of (sden rho t) = POk v.
Proof.
  intros Hrho.
  induction t as [a|w|x|f args IH|items IH|h tl IHh IHt] using sterm_ind'; intros v H; cbn [lit_py] in H.
  - injection H as <-. cbn [sden py_of]. destruct (str_eqb a nil_name); reflexivity.
  - injection H as <-. reflexivity.
  - injection H as <-. apply Hrho.
  - rewrite lit_py_go in H. destruct (str_eqb f dot) eqn:Ef; [discriminate|].
    destruct (lit_pys pv args) as [ys|] eqn:E; [|discriminate]. injection H as <-.
    cbn [sden]. apply py_of_compound; [apply str_eqb_neq; exact Ef|]. eapply lit_pys_Forall2; eauto.
  - rewrite lit_py_go in H. destruct (lit_pys pv items) as [ys|] eqn:E; [|discriminate]. injection H as <-.
    cbn [sden]. rewrite <- mk_list_fold, mk_list_mklist. apply py_of_list. eapply lit_pys_Forall2; eauto.
  - destruct (lit_py pv h) as [x|] eqn:Eh; [|discriminate]. destruct (lit_py pv tl) as [[| | |l|]|] eqn:Et; try discriminate.
    injection H as <-. cbn [sden]. unfold Literals.cons_term. rewrite <- dot_eq.
    apply py_of_dot; [exact (IHh x eq_refl) | exact (IHt (PList l) eq_refl)].
Qed.

(* ... and so does the engine's to_python, applied to the term the emitted constructor calls build, for every
   store in which that term is fully resolved and every recursion depth at which to_python returns *)
Corollary to_python_compiled_literal pv rho r n s t v :
  binds r rho (sterm_vars t) -> (forall x, py_of (rho x) = POk (pv x)) -> lit_py pv t = Some v ->
  free_in s (sden rho t) -> to_python n s (eval_expr r (compile_expression t)) <> POof ->
  to_python n s (eval_expr r (compile_expression t)) = POk v.
Proof.
  intros Hb Hrho Hl Hf Hn. rewrite (literal_denotation t r rho Hb) in *.
  rewrite (to_python_spec n Hf Hn). eapply to_python_literal; eauto.
Qed.

(* YP.atom: self._atom_store.setdefault(name, Atom(name)); return self._atom_store[name].
   The table maps names to object identities (here: natural numbers handed out by a counter). *)
Definition atom_table := list (str * nat).
Fixpoint tbl_get (name : str) (tb : atom_table) : option nat :=
  match tb with [] => None | (k, o) :: r => if str_eqb name k then Some o else tbl_get name r end.
(* returns the object and the new table; fresh = identity of the Atom(name) object just constructed *)
Definition yp_atom (name : str) (fresh : nat) (tb : atom_table) : nat * atom_table :=
  match tbl_get name tb with
  | Some o => (o, tb)
  | None => (fresh, tb ++ [(name, fresh)])
  end.

Lemma tbl_get_app name tb tb' : tbl_get name (tb ++ tb') =
  match tbl_get name tb with Some o => Some o | None => tbl_get name tb' end.
Proof. induction tb as [|[k o] r IH]; simpl; [reflexivity|]. destruct (str_eqb name k); auto. Qed.

(* once atom(name) has returned an object, every later atom(name) of the same engine returns the
   same object, whatever other atoms are created in between and whatever fresh objects are offered *)
Inductive later : atom_table -> atom_table -> Prop :=
| later_refl tb : later tb tb
| later_step tb tb' name fresh : later tb tb' -> later tb (snd (yp_atom name fresh tb')).

Lemma later_keeps tb tb' : later tb tb' -> forall name o, tbl_get name tb = Some o -> tbl_get name tb' = Some o.
Proof.
  induction 1 as [|tb tb' nm fresh _ IH]; intros name o H; [exact H|].
  specialize (IH name o H). unfold yp_atom. destruct (tbl_get nm tb'); simpl; [exact IH|].
  rewrite tbl_get_app, IH. reflexivity.
Qed.

Theorem atom_identity tb name fresh tb' fresh' :
  let '(o, tb1) := yp_atom name fresh tb in
  later tb1 tb' -> fst (yp_atom name fresh' tb') = o /\ snd (yp_atom name fresh' tb') = tb'.
Proof.
  destruct (yp_atom name fresh tb) as [o tb1] eqn:E. intros Hl.
  assert (G : tbl_get name tb1 = Some o).
  { unfold yp_atom in E. destruct (tbl_get name tb) eqn:Eg; injection E as <- <-; [exact Eg|].
    rewrite tbl_get_app, Eg. simpl. rewrite str_eqb_refl. reflexivity. }
  unfold yp_atom. rewrite (later_keeps _ _ Hl name o G). auto.
Qed.

(* different names never share an object as long as fresh identities are fresh *)
Definition tbl_inj (tb : atom_table) : Prop :=
  forall a b o, tbl_get a tb = Some o -> tbl_get b tb = Some o -> a = b.
Lemma yp_atom_inj name fresh tb : tbl_inj tb -> (forall k, tbl_get k tb <> Some fresh) ->
  tbl_inj (snd (yp_atom name fresh tb)).
Proof.
  intros Hi Hf. unfold yp_atom. destruct (tbl_get name tb) eqn:E; simpl; [exact Hi|].
  intros a b o. rewrite !tbl_get_app. simpl.
  destruct (tbl_get a tb) eqn:Ea; destruct (tbl_get b tb) eqn:Eb.
  - intros Ha Hb. injection Ha as <-. injection Hb as <-. eapply Hi; eauto.
  - destruct (str_eqb_spec b name); [|discriminate]. intros Ha Hb. injection Ha as <-. injection Hb as <-.
    exfalso. eapply Hf; eauto.
  - destruct (str_eqb_spec a name); [|discriminate]. intros Ha Hb. injection Ha as <-. injection Hb as <-.
    exfalso. eapply Hf; eauto.
  - destruct (str_eqb_spec a name); [|discriminate]. destruct (str_eqb_spec b name); [|discriminate]. congruence.
Qed.

(* the term model carries the NAME of an atom only (TAtom name) -- Atom.unify compares
   self._name == arg._name and never the object -- so atoms made by different engines unify iff their names
   are equal, and unification of two atoms binds nothing *)
Theorem atom_unify_by_name n s a b :
  unify (S n) s (TAtom a) (TAtom b) = if str_eqb a b then UOk s else UFail.
Proof. cbn [unify]. rewrite !den_atom. reflexivity. Qed.

(* the term a user builds with atom / functor / listpair / makelist for a literal (the same
   constructor calls, in the user's environment r2) and the term the compiled clause builds (environment r1) are one
   term when the variables have the same values; they unify under every active store, and the unification
   constrains nothing that was not already constrained (the substitution sub_of s read off s still solves s') *)
Theorem api_term_unifies t r1 r2 rho s :
  binds r1 rho (sterm_vars t) -> binds r2 rho (sterm_vars t) -> wf s ->
  eval_expr r1 (compile_expression t) = eval_expr r2 (compile_expression t) /\
  exists n s', unify n s (eval_expr r1 (compile_expression t)) (eval_expr r2 (compile_expression t)) = UOk s' /\
               wf s' /\ ext s s' /\ sat (sub_of s) s'.
Proof.
  intros H1 H2 W. rewrite (literal_denotation t r1 rho H1), (literal_denotation t r2 rho H2).
  split; [reflexivity|].
  assert (St : sat (sub_of s) s) by (apply sat_sub_of; [exact W | apply ext_refl]).
  destruct (unify_mgu (sden rho t) (sden rho t) W St eq_refl) as [n [s' [U [W' [X [_ S]]]]]].
  exists n, s'. auto.
Qed.

(* executable entry point for the harness (C16):
   the Python values that the SPECIFICATION lit_py prescribes for the literals of a source text, computed from the text
   by the model front end.  The harness compares them with what to_python returns for the compiled program. *)
Fixpoint pyval_obs (v : pyval) : obs :=
  match v with
  | PStr x => otag "s" [OS x]
  | PInt z => otag "i" [OZ z]
  | PNone => otag "none" []
  | PList l => otag "l" [OL (map pyval_obs l)]
  | PPair f args => otag "t" [OS f; OL (map pyval_obs args)]
  end.
Definition opt_py_obs (o : option pyval) : obs :=
  match o with Some v => pyval_obs v | None => otag "unspecified" [] end.

Fixpoint env_find (v : str) (env : list (str * sterm)) : option sterm :=
  match env with [] => None | (x, t) :: r => if str_eqb v x then Some t else env_find v r end.
(* variables bound to ground literals: their Python value is the value of that literal; all others are unbound *)
Definition env_pv (env : list (str * sterm)) (v : str) : pyval :=
  match env_find v env with
  | Some t => match lit_py (fun _ => PNone) t with Some x => x | None => PNone end
  | None => PNone
  end.

Definition is_fact_clause (c : clause) : bool := is_prefix (s_ "fact") (c_name c).

(* the variables of a literal numbered by first occurrence (how a reader of the run-time term numbers the Variable
   objects it meets) *)
Fixpoint index_of (v : str) (l : list str) (i : nat) : nat :=
  match l with [] => i | x :: r => if str_eqb v x then i else index_of v r (S i) end.
Definition rho_first (t : sterm) (v : str) : term := TVar (index_of v (dedup (sterm_vars t)) 0).

Fixpoint lits_obs (cs : list clause) (envs : list (list (str * sterm))) : list obs :=
  match cs, envs with
  | c :: cr, env :: er =>
      match c_args c with
      | t :: _ => OL [opt_py_obs (lit_py (fun _ => PNone) t); opt_py_obs (lit_py (env_pv env) t);
                      term_obs (sden (rho_first t) t)]
      | [] => otag "no-argument" []
      end :: lits_obs cr er
  | _, _ => []
  end.

(* for the i-th clause named fact<i>: [Python value with all variables unbound; Python value with the variables bound as in
   envs[i]; the run-time term itself (sden), variables numbered by first occurrence] *)
Definition run_lits (s : str) (envs : list (list (str * sterm))) : obs :=
  match front s with
  | Some prog => otag "ok" [OL (lits_obs (filter is_fact_clause prog) envs)]
  | None => otag "none" []
  end.

(* the atom tables of two engines under a sequence of atom(name) calls: the object each call returns
   (objects are numbered by creation; every call offers the next number as the identity of a new Atom) *)
Fixpoint atoms_run (calls : list (bool * str)) (fresh : nat) (tb1 tb2 : atom_table) : list obs :=
  match calls with
  | [] => []
  | (e, name) :: r =>
      if e then let '(o, tb) := yp_atom name fresh tb2 in onat o :: atoms_run r (S fresh) tb1 tb
      else let '(o, tb) := yp_atom name fresh tb1 in onat o :: atoms_run r (S fresh) tb tb2
  end.

Definition run_c16 (s : str) (envs : list (list (str * sterm))) (calls : list (bool * str)) : obs :=
  OL [run_front s; run_lits s envs; OL (atoms_run calls 0 [] [])].
