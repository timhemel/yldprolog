(* The parser as a recogniser of the grammar's language.
   The depth fuel that `parse` supplies (5 * #tokens + 10) is more than completeness needs (2 * #tokens + 4,
   Lang/ParserCanon.parse_complete_bound): PARSE_COMPLETE for `parse` itself.
   The parser looks at the KIND of a token only, except for the six kinds whose text it copies into the tree
   (VARIABLE ATOM NUMERAL UNOP BINOP STRING): forgetting the text of all other tokens (`norm`) changes nothing.
   Consequence (with PARSE_YIELD): the complete specification of the recogniser --
     parse ts = Some c  <->  c is canonical and yield c = map norm ts          (`parse_spec`)
     parse ts = None    <->  no derivation tree of the grammar has the yield map norm ts   (`parse_none_spec`) *)
From Coq Require Import List NArith Arith Bool Lia.
Import ListNotations.
From YP Require Import Base.Str Lang.Lexer Lang.Cst Lang.Parser Lang.ParserSound Lang.ParserMono Lang.ParserComplete
  Lang.ParserCanon.

(* PARSE_COMPLETE: `parse` (with the fuel it supplies itself) accepts the yield of EVERY derivation tree of the
   grammar and returns the canonical tree of that sentence *)
Theorem parse_complete p : parse (yield p) = Some (canon_program p).
Proof.
  unfold parse. apply parse_complete_bound. lia.
Qed.

Corollary parse_complete_not_none p : parse (yield p) <> None.
Proof. rewrite parse_complete. discriminate. Qed.

Corollary parse_canonical_exact c : canonical c = true -> parse (yield c) = Some c.
Proof. intros C. rewrite parse_complete, (canon_of_canonical c C). reflexivity. Qed.

Definition nres {A} (o : option (A * list tok)) : option (A * list tok) :=
  match o with Some (x, r) => Some (x, map norm r) | None => None end.

Lemma is_k_norm k ts : is_k k (map norm ts) = is_k k ts.
Proof. destruct ts as [|[k' x] r]; [reflexivity|]. simpl. unfold norm. simpl. destruct (has_text k'); reflexivity. Qed.
Lemma tl_norm ts : tl (map norm ts) = map norm (tl ts).
Proof. destruct ts; reflexivity. Qed.
Lemma starts_norm ts : starts_term (map norm ts) = starts_term ts.
Proof. destruct ts as [|[k' x] r]; [reflexivity|]. simpl. unfold norm. simpl. destruct (has_text k'); reflexivity. Qed.

(* `do`, `if` and `expect`, of which the parser's bodies are built, commute with norm *)
Lemma n_bind {A B} (e' e : option (A * list tok)) (f' f : A -> list tok -> option (B * list tok)) :
  e' = nres e -> (forall x r, f' x (map norm r) = nres (f x r)) ->
  (do '(x, r) <- e'; f' x r) = nres (do '(x, r) <- e; f x r).
Proof. intros -> H. destruct e as [[x r]|]; [apply H | reflexivity]. Qed.

(* the text that `expect k` returns survives norm when k is one of the six kinds with a text of their own *)
Lemma n_expect {B} k ts (f' f : str -> list tok -> option (B * list tok)) :
  (forall x r, f' (if has_text k then x else []) (map norm r) = nres (f x r)) ->
  (do '(x, r) <- expect k (map norm ts); f' x r) = nres (do '(x, r) <- expect k ts; f x r).
Proof.
  intros H. destruct ts as [|[k' x] r]; [reflexivity|]. cbn [map expect]. unfold norm at 1. cbn [fst].
  destruct (has_text k') eqn:Ht; cbn [expect]; destruct (rname_eqb k k') eqn:E; try reflexivity;
    apply rname_eqb_eq in E; subst k'; specialize (H x r); rewrite Ht in H; exact H.
Qed.

Lemma n_if {A} (b' b : bool) (u' v' u v : option (A * list tok)) :
  b' = b -> u' = nres u -> v' = nres v -> (if b' then u' else v') = nres (if b then u else v).
Proof. intros -> -> ->. destruct b; reflexivity. Qed.

(* One step along the syntax of a parser function's body: a test looks at kinds only, `expect` and a call with
   less fuel (the induction hypothesis) are binds, what is left is a result whose remainder is a tl. *)
Ltac norm_step :=
  first [ reflexivity
        | rewrite tl_norm
        | solve [auto]
        | apply n_if; [rewrite ?is_k_norm, ?starts_norm; reflexivity | | ]
        | apply n_expect; cbn [has_text]; intros ? ?
        | apply n_bind; [ | intros ? ?]
        | match goal with |- context [match ?l with [] => _ | _ :: _ => _ end] => destruct l end ].

Definition Nterm (n : nat) : Prop :=
  (forall ts, p_term n (map norm ts) = nres (p_term n ts)) /\
  (forall ts, p_prim n (map norm ts) = nres (p_prim n ts)) /\
  (forall acc ts, p_binops n acc (map norm ts) = nres (p_binops n acc ts)) /\
  (forall ts, p_termlist n (map norm ts) = nres (p_termlist n ts)) /\
  (forall ts, p_tail n (map norm ts) = nres (p_tail n ts)).

Lemma norm_term_all : forall n, Nterm n.
Proof.
  induction n as [|n [IHt [IHp [IHb [IHl IHtl]]]]].
  - repeat split; intros; reflexivity.
  - repeat split.
    + intros ts. cbn [p_term]. repeat norm_step.
    + intros ts. destruct ts as [|[k x] r]; [reflexivity|]. cbn [map]. unfold norm at 1. cbn [fst].
      destruct k; cbn [has_text p_prim]; repeat norm_step.
    + intros acc ts. cbn [p_binops]. repeat norm_step.
    + intros ts. cbn [p_termlist]. repeat norm_step.
    + intros ts. cbn [p_tail]. repeat norm_step.
Qed.

Lemma norm_term n ts : p_term n (map norm ts) = nres (p_term n ts).
Proof. apply (norm_term_all n). Qed.

Lemma norm_simple n ts : p_simple n (map norm ts) = nres (p_simple n ts).
Proof. pose proof (norm_term n) as IH. unfold p_simple. repeat norm_step. Qed.

Definition Npe (n : nat) : Prop :=
  (forall p ts, p_pe n p (map norm ts) = nres (p_pe n p ts)) /\
  (forall ts, p_pe_prim n (map norm ts) = nres (p_pe_prim n ts)) /\
  (forall p acc ts, p_pe_loop n p acc (map norm ts) = nres (p_pe_loop n p acc ts)).

Lemma norm_pe_all : forall n, Npe n.
Proof.
  induction n as [|n [IHe [IHp IHl]]].
  - repeat split; intros; reflexivity.
  - pose proof (norm_simple n) as IHs. repeat split.
    + intros p ts. cbn [p_pe]. repeat norm_step.
    + intros ts. cbn [p_pe_prim]. do 2 (apply n_if; [rewrite is_k_norm; reflexivity | repeat norm_step | ]).
      * (* `(`: the term reading is tried first, on both sides with the same outcome *)
        rewrite norm_term. destruct (p_term n ts) as [[t r]|]; [reflexivity|]. cbn [nres]. repeat norm_step.
      * repeat norm_step.
    + intros p acc ts. cbn [p_pe_loop]. repeat norm_step.
Qed.

Lemma norm_pe n p ts : p_pe n p (map norm ts) = nres (p_pe n p ts).
Proof. apply (norm_pe_all n). Qed.

Lemma norm_cord n ts : p_cord n (map norm ts) = nres (p_cord n ts).
Proof.
  pose proof (norm_simple n) as IHs. pose proof (norm_pe n) as IHe. unfold p_cord. repeat norm_step.
Qed.

Lemma norm_program m n : forall ts, p_program m n (map norm ts) = p_program m n ts.
Proof.
  induction m as [|m IH]; intros ts; destruct ts as [|t0 ts0]; try reflexivity.
  change (map norm (t0 :: ts0)) with (norm t0 :: map norm ts0). cbn [p_program].
  change (norm t0 :: map norm ts0) with (map norm (t0 :: ts0)). rewrite norm_cord.
  destruct (p_cord n (t0 :: ts0)) as [[c r]|]; [|reflexivity]. cbn [nres]. rewrite IH. reflexivity.
Qed.

Theorem parse_norm ts : parse (map norm ts) = parse ts.
Proof. unfold parse. rewrite map_length. apply norm_program. Qed.

Theorem parse_canonical ts c : parse ts = Some c -> canonical c = true.
Proof.
  intros H. pose proof (parse_yield _ _ H) as Y.
  pose proof (parse_complete c) as P. rewrite Y, parse_norm, H in P. injection P as E.
  rewrite E. apply canon_program_spec.
Qed.

Theorem parse_spec ts c : parse ts = Some c <-> (canonical c = true /\ yield c = map norm ts).
Proof.
  split.
  - intros H. split; [eapply parse_canonical; eauto | apply parse_yield; exact H].
  - intros [C Y]. rewrite <- parse_norm, <- Y. apply parse_canonical_exact. exact C.
Qed.

(* PARSE_NONE_SPEC: rejected <=> not a sentence of the grammar (no derivation tree at all, canonical or not) *)
Theorem parse_none_spec ts : parse ts = None <-> (forall p : cprogram, yield p <> map norm ts).
Proof.
  split.
  - intros H p Y. pose proof (parse_complete p) as P. rewrite Y, parse_norm, H in P. discriminate.
  - intros H. destruct (parse ts) as [c|] eqn:E; [|reflexivity]. exfalso. apply (H c). apply parse_yield. exact E.
Qed.

(* PARSE_UNAMBIGUOUS *)
Theorem parse_unique ts c : parse ts = Some c ->
  forall c', canonical c' = true -> yield c' = map norm ts -> c' = c.
Proof.
  intros H c' C' Y. assert (H' : parse ts = Some c') by (apply parse_spec; auto). congruence.
Qed.

Corollary parse_unambiguous ts c : parse ts = Some c ->
  forall c', canonical c = true -> canonical c' = true -> yield c' = map norm ts -> c' = c.
Proof. intros H c' _. apply parse_unique. exact H. Qed.
