(* The front end of the compiler:  text -> tokens -> parse tree -> AST,
   and the executable entry points used by the correspondence checks of C10 and C16. *)
From Coq Require Import String.
From Coq Require Import List NArith ZArith Arith Bool.
Import ListNotations.
From YP Require Import Base.Str Lang.Ast Lang.ShowAst Lang.Lexer Lang.Cst Lang.Parser Lang.ParserSound Lang.Unquote.
Local Open Scope string_scope.
Local Open Scope list_scope.

Definition front (s : str) : option program :=
  do 'ts <- lex s;
  do 'cst <- parse ts;
  do '(p, _) <- v_program cst 0;
  Some p.

(* observation: where the text is refused, or the AST *)
Definition run_front (s : str) : obs :=
  match lex s with
  | None => otag "lex-error" []
  | Some ts =>
      match parse ts with
      | None => otag "parse-error" []
      | Some cst =>
          match v_program cst 0 with
          | None => otag "refused" []
          | Some (p, k) => otag "ok" [program_obs p; onat k]
          end
      end
  end.

(* the token stream: (ANTLR token type = position of the rule + 1, text) *)
Definition run_lex (s : str) : obs :=
  match lex s with
  | None => otag "lex-error" []
  | Some ts => otag "ok" [OL (map (fun t : item => OL [onat (S (ridx (fst t))); OS (snd t)]) ts)]
  end.

Definition run_both (s : str) : obs := OL [run_lex s; run_front s].

(* FRONT_WHOLE_INPUT.  If the front end returns a program for the text s then
   - s is, character for character, the concatenation of maximal-munch items (tokens, white space,
     comments), each in the language of its rule: no character is skipped or unlexable;
   - there is a derivation tree cst of the grammar whose leaves are exactly the tokens of s, all of them
     and in order: s is a complete sentence of prolog.g4, nothing is left over after the last clause;
   - the program has exactly one clause per clause node of cst, in order, each the visitor's image of
     its node: no clause is omitted, added or reordered. *)
Theorem front_whole_input s prog : front s = Some prog ->
  exists items cst k,
    lexes s items [] /\ concat (map snd items) = s /\
    Forall (fun it => rule_lang (fst it) (snd it)) items /\
    yield cst = map norm (filter keep items) /\
    v_program cst 0 = Some (prog, k) /\
    Forall2 clause_image (clauses_of cst) prog /\
    length prog = length (clauses_of cst).
Proof.
  unfold front. intros H.
  destruct (lex s) as [ts|] eqn:El; [|discriminate].
  destruct (parse ts) as [cst|] eqn:Ep; [|discriminate].
  destruct (v_program cst 0) as [[p k]|] eqn:Ev; [|discriminate].
  injection H as <-.
  apply lex_exact in El as [items [Hl [Hc [Hf ->]]]].
  apply parse_yield in Ep.
  exists items, cst, k. repeat split; auto.
  - eapply v_program_clauses; eauto.
  - eapply v_program_count; eauto.
Qed.

(* rejection is the only other outcome, and its three causes *)
Theorem front_none s : front s = None ->
  lex s = None \/ (exists ts, lex s = Some ts /\ parse ts = None) \/
  (exists ts cst, lex s = Some ts /\ parse ts = Some cst /\ v_program cst 0 = None).
Proof.
  unfold front. intros H.
  destruct (lex s) as [ts|] eqn:El; [|auto]. right.
  destruct (parse ts) as [cst|] eqn:Ep; [|left; eauto]. right.
  destruct (v_program cst 0) as [[p k]|] eqn:Ev; [discriminate|]. eauto.
Qed.
