(* A quoted atom is opaque to the lexer.

   Between the quotes of a quoted atom EVERYTHING is atom text: a `%` (also at the start of a line), line
   breaks, full stops, `:-`, brackets, clause text, the comment openers of other languages.  None of it
   starts a comment or a token, and what follows the closing quote is lexed exactly as it would be lexed on
   its own.  (A treatment of the source TEXT before the lexer - "a line whose first non-blank
   character is % is a comment" - is wrong exactly here.)

   `plain_body b`: the body contains no quote and does not end with a backslash (a backslash directly in
   front of the closing quote would make that quote a candidate for the escaped quote of \' and the token
   could extend to a later quote - maximal munch; Lang/Lexer.lex_one_string is the general case).

   THEOREMS
     lex_one_quoted     the maximal munch at an opening quote followed by a plain body and a quote is the
                        STRING token that ends at that quote, whatever follows;
     lex_quoted_opaque  lex ('b' ++ rest) = (STRING, 'b') :: lex rest, and it fails iff lex rest fails;
     lex_quoted_body_irrelevant   two texts that differ only in the (plain) body of a quoted atom at their
                        start have token streams that differ only in the text of that one token: same
                        length, same token kinds, same texts elsewhere - and one is lexable iff the other is. *)
From Coq Require Import String.
From Coq Require Import List NArith Arith Lia Bool.
Import ListNotations.
From YP Require Import Base.Str Lang.Lexer.
Local Open Scope string_scope.
Local Open Scope list_scope.

Definition plain_body (b : str) : Prop := ~ In 39%N b /\ last b 0%N <> 92%N.

Definition quoted (b : str) : str := 39%N :: b ++ [39%N].

Lemma quoted_app b rest : quoted b ++ rest = 39%N :: b ++ 39%N :: rest.
Proof. unfold quoted. simpl. rewrite <- app_assoc. reflexivity. Qed.

Lemma esc_end_plain : forall b e,
  ~ In 39%N b -> last b 0%N <> 92%N -> (b = [] -> e = false) -> esc_end e b = Some false.
Proof.
  induction b as [|c b IH]; intros e Hq Hl He.
  - simpl. rewrite (He eq_refl). reflexivity.
  - cbn [esc_end].
    assert (Hc : N.eqb c 39 = false).
    { apply N.eqb_neq. intros ->. apply Hq. left. reflexivity. }
    rewrite Hc. apply IH.
    + intros Hin. apply Hq. right. exact Hin.
    + destruct b as [|c' b']; [simpl; intros E; discriminate E | exact Hl].
    + intros ->. simpl in Hl. apply N.eqb_neq. exact Hl.
Qed.

Lemma lex_one_quoted b rest : plain_body b ->
  lex_one (quoted b ++ rest) = Some (R_STRING, length (quoted b)).
Proof.
  intros [Hq Hl]. rewrite quoted_app. unfold quoted. cbn [length]. rewrite app_length. cbn [length].
  rewrite Nat.add_1_r. apply lex_one_string. apply esc_end_plain; auto.
Qed.

Lemma quoted_lang b : plain_body b -> rule_lang R_STRING (quoted b).
Proof.
  intros [Hq _]. exists b. split; [reflexivity|].
  induction b as [|c b IH]; [constructor|].
  apply sb_plain.
  - intros ->. apply Hq. left. reflexivity.
  - apply IH. intros Hin. apply Hq. right. exact Hin.
Qed.

Lemma lexes_quoted b rest items : plain_body b -> lexes rest items [] ->
  lexes (quoted b ++ rest) ((R_STRING, quoted b) :: items) [].
Proof.
  intros Hb Hr. apply lexes_cons; auto.
  - apply lex_one_some. apply lex_one_quoted. exact Hb.
  - apply quoted_lang. exact Hb.
  - unfold quoted. discriminate.
Qed.

Lemma lexes_quoted_inv b rest items : plain_body b -> lexes (quoted b ++ rest) items [] ->
  exists items', items = (R_STRING, quoted b) :: items' /\ lexes rest items' [].
Proof.
  intros Hb H. inversion H as [s0 E1 E2 | r w s items0 rest0 Hm Hl Hne Hrest E1 E2 E3]; subst.
  change (39%N :: (b ++ [39%N]) ++ rest) with (quoted b ++ rest) in E1.
  assert (Hm' : munch (w ++ s) R_STRING (length (quoted b))).
  { rewrite E1. apply lex_one_some. apply lex_one_quoted. exact Hb. }
  destruct (munch_unique _ _ _ _ _ Hm Hm') as [-> Hlen].
  assert (Hw : w = quoted b /\ s = rest).
  { clear - E1 Hlen. revert w E1 Hlen. generalize (quoted b) as qb.
    induction qb as [|c qb IH]; intros w E Hlen.
    - destruct w; [split; [reflexivity | exact E] | discriminate].
    - destruct w as [|c' w]; [discriminate|]. simpl in E, Hlen. injection E as -> E.
      destruct (IH w E) as [-> ->]; [lia | split; reflexivity]. }
  destruct Hw as [-> ->]. eexists. split; [reflexivity | exact Hrest].
Qed.

(* QUOTED ATOM OPAQUE.  For every body without a quote that does not end in a backslash, and every text
   `rest`: the token stream of 'body' ++ rest is the STRING token 'body' followed by the token stream of
   rest, and the one text is unlexable exactly when the other is. *)
Theorem lex_quoted_opaque b rest : plain_body b ->
  lex (quoted b ++ rest) = option_map (cons (R_STRING, quoted b)) (lex rest).
Proof.
  intros Hb. destruct (lex rest) as [ts|] eqn:Er; cbn [option_map].
  - apply lex_exact in Er as [items [Hl [_ [_ ->]]]].
    rewrite (lex_complete _ _ (lexes_quoted b rest items Hb Hl)). reflexivity.
  - destruct (lex (quoted b ++ rest)) as [ts|] eqn:E; [|reflexivity]. exfalso.
    apply lex_exact in E as [items [Hl _]].
    apply lexes_quoted_inv in Hl as [items' [_ Hl']]; [|exact Hb].
    apply lex_complete in Hl'. congruence.
Qed.

(* What stands between the quotes does not matter to anything but the text of that one token. *)
Theorem lex_quoted_body_irrelevant b1 b2 rest : plain_body b1 -> plain_body b2 ->
  match lex (quoted b1 ++ rest), lex (quoted b2 ++ rest) with
  | Some (t1 :: ts1), Some (t2 :: ts2) => t1 = (R_STRING, quoted b1) /\ t2 = (R_STRING, quoted b2) /\ ts1 = ts2
  | None, None => True
  | _, _ => False
  end.
Proof.
  intros H1 H2. rewrite !lex_quoted_opaque by assumption.
  destruct (lex rest); cbn [option_map]; auto.
Qed.

(* non-vacuity: a two-line body whose second line starts with % and contains a full stop, a comma and clause text;
   the corruption that follows the closing quote (a doubled comma) is seen by the lexer as two COMMA tokens *)
Example quoted_opaque_example :
  let b := d "see" ++ [10%N] ++ d "% chapter 2. p(a) :- q, r" in
  plain_body b /\
  lex (quoted b ++ d ", , x") = Some [(R_STRING, quoted b); (R_COMMA, d ","); (R_COMMA, d ","); (R_ATOM, d "x")].
Proof.
  cbv zeta. split.
  - split; [vm_compute; intuition discriminate | vm_compute; discriminate].
  - vm_compute. reflexivity.
Qed.
