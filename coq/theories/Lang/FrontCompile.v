(* C10, last link: "never compiled into a program that silently omits or alters clauses".
   The AST that the front end returns (Lang/Front.v: one clause per clause node of the sentence, in order) is handed
   to compile_program (Comp/CompileClause.v = YPPrologCompiler.compile_program).  Here:
     * visitProgram's grouping keeps every clause: the group of key k is exactly the clauses of the program with
       head key k, in source order; the keys are pairwise different, in order of first occurrence;
     * compile_program emits exactly one function per group, named by the key, whose body is the concatenation, in
       source order, of the code of each clause of the group -- so every clause of the text has its code in the
       function of its head key, and there is no other code. *)
From Coq Require Import String.
From Coq Require Import List NArith Arith Bool Lia.
Import ListNotations.
From YP Require Import Base.Str Lang.Ast Lang.Lexer Lang.Cst Lang.Parser Lang.ParserSound Lang.Unquote Lang.Front
  Comp.IR Comp.CompileBody Comp.CompileClause Comp.CompileTotal Comp.EmitShape Comp.NumeralName Comp.Emit Comp.PyRepr
  Comp.CompileText Comp.CompileTextSound.

Definition has_key (k : key) (c : clause) : bool := key_eqb k (clause_key c).
Definition fn_key (f : func) : key := (fn_name f, fn_arity f).

Definition keys_ok (ks : list key) (p : list clause) : Prop :=
  NoDup ks /\ (forall c, In c p -> In (clause_key c) ks) /\ (forall k, In k ks -> exists c, In c p /\ clause_key c = k).

Lemma head_keys_ok p : keys_ok (head_keys p) p.
Proof.
  destruct (head_keys_spec p) as [Hnd Hin]. split; [exact Hnd|]. split.
  - intros c Hc. apply Hin. apply in_map. exact Hc.
  - intros k Hk. apply Hin in Hk. apply in_map_iff in Hk. destruct Hk as [c [E Hc]]. exists c. split; assumption.
Qed.

(* the code of a function is the concatenation, in order, of the code of each of its clauses *)
Definition clause_code (c : clause) (piece : list stmt) : Prop := exists k k', compile_clause c k = Some (piece, k').

Lemma compile_clauses_pieces cs : forall cnt code cnt', compile_clauses cs cnt = Some (code, cnt') ->
  exists pieces, code = concat pieces /\ Forall2 clause_code cs pieces.
Proof.
  induction cs as [|c r IH]; intros cnt code cnt' H; cbn [compile_clauses] in H.
  - injection H as <- _. exists []. split; [reflexivity|constructor].
  - destruct (compile_clause c cnt) as [[pc k1]|] eqn:E; [|discriminate].
    destruct (compile_clauses r k1) as [[rest k2]|] eqn:E1; [|discriminate]. injection H as <- _.
    destruct (IH _ _ _ E1) as [pieces [-> F]]. exists (pc :: pieces). split; [reflexivity|].
    constructor; [exists cnt, k1; exact E|exact F].
Qed.

Definition func_of_group (g : key * list clause) (f : func) : Prop :=
  fn_key f = fst g /\ exists pieces, fn_body f = concat pieces /\ Forall2 clause_code (snd g) pieces.

Lemma compile_groups_funcs gs : forall cnt fs cnt', compile_groups gs cnt = Some (fs, cnt') ->
  Forall2 func_of_group gs fs.
Proof.
  induction gs as [|[k cs] r IH]; intros cnt fs cnt' H; cbn [compile_groups] in H.
  - injection H as <- _. constructor.
  - destruct (compile_clauses cs cnt) as [[code k1]|] eqn:E; [|discriminate].
    destruct (compile_groups r k1) as [[fs' k2]|] eqn:E1; [|discriminate]. injection H as <- _.
    constructor; [|eapply IH; eauto]. split; [destruct k; reflexivity|]. cbn [fn_body snd]. eapply compile_clauses_pieces; eauto.
Qed.

Lemma Forall2_map_l {A B C} (R : B -> C -> Prop) (f : A -> B) l l' :
  Forall2 R (map f l) l' <-> Forall2 (fun a c => R (f a) c) l l'.
Proof.
  split.
  - revert l'. induction l as [|a l IH]; intros l' H; inversion H; subst; constructor; auto.
  - induction 1; simpl; constructor; auto.
Qed.

(* COMPILE_WHOLE_PROGRAM: one function per head key, in order of first occurrence, no two for one key; the body
   of the function for key k is exactly the code of the clauses with key k, in source order; every clause of the
   program has a key that has a function *)
Theorem compile_whole_program p : exists ir ks,
  compile_program p = Some ir /\ keys_ok ks p /\
  Forall2 (fun k f => fn_key f = k /\ exists pieces, fn_body f = concat pieces /\
                      Forall2 clause_code (filter (has_key k) p) pieces) ks ir.
Proof.
  unfold compile_program. rewrite group_program_groups.
  destruct (compile_groups (map (group_of p) (head_keys p)) 0) as [[fs k]|] eqn:Ec.
  - exists fs, (head_keys p). split; [reflexivity|]. split; [apply head_keys_ok|].
    apply compile_groups_funcs in Ec. apply (proj1 (Forall2_map_l func_of_group (group_of p) _ fs)) in Ec. exact Ec.
  - exfalso. eapply compile_groups_total; eauto.
Qed.

(* FRONT_COMPILE_WHOLE: accepted text => (front_whole_input) the text is a complete sentence whose clause nodes are,
   one for one and in order, the clauses of prog, and the compiler's output has one function per head key whose body
   is the code of all the clauses of that key: nothing of the input is left out of the compiled program *)
Theorem front_compile_whole s prog : front s = Some prog ->
  (exists items cst k,
     lexes s items [] /\ concat (map snd items) = s /\ yield cst = map norm (filter keep items) /\
     v_program cst 0 = Some (prog, k) /\ Forall2 clause_image (clauses_of cst) prog) /\
  exists ir ks,
    compile_program prog = Some ir /\ keys_ok ks prog /\
    Forall2 (fun k f => fn_key f = k /\ exists pieces, fn_body f = concat pieces /\
                        Forall2 clause_code (filter (has_key k) prog) pieces) ks ir.
Proof.
  intros H. split; [|apply compile_whole_program].
  destruct (front_whole_input s prog H) as [items [cst [k [H1 [H2 [_ [H4 [H5 [H6 _]]]]]]]]].
  exists items, cst, k. auto.
Qed.

(* the compiler's own refusal

   After the visitor the implementation raises in one more situation (apart from the size limit D13): when
   compile_expression / compile_predicate is called on a Functor whose name is a NumeralTerm (`1(a)`).  The front
   end model keeps such a functor under a name that begins with a backslash (Lang/Unquote.v); it is touched by the
   compiler exactly when that name appears in the intermediate code (goals dropped as dead code after `fail`
   never get there). *)

(* COMPILE_FRONT: the model of _compile_prolog_from_stream up to the intermediate code.
   None = the implementation raises; Some (prog, ir) = it goes on to print ir. *)
Definition compile_front (s : str) : option (program * ir_program) :=
  match front s with
  | None => None
  | Some p =>
      match compile_program p with
      | Some ir => if ir_bad ir then None else Some (p, ir)
      | None => None
      end
  end.

(* COMPILE_FRONT_WHOLE: code is produced only for complete sentences, and then for the whole sentence *)
Theorem compile_front_whole s prog ir : compile_front s = Some (prog, ir) ->
  front s = Some prog /\ compile_program prog = Some ir /\ ir_bad ir = false /\
  (exists items cst k,
     lexes s items [] /\ concat (map snd items) = s /\ yield cst = map norm (filter keep items) /\
     v_program cst 0 = Some (prog, k) /\ Forall2 clause_image (clauses_of cst) prog) /\
  exists ks, keys_ok ks prog /\
    Forall2 (fun k f => fn_key f = k /\ exists pieces, fn_body f = concat pieces /\
                        Forall2 clause_code (filter (has_key k) prog) pieces) ks ir.
Proof.
  unfold compile_front. intros H. destruct (front s) as [p|] eqn:Ef; [|discriminate].
  destruct (compile_program p) as [ir0|] eqn:Ec; [|discriminate].
  destruct (ir_bad ir0) eqn:Eb; [discriminate|]. injection H as <- <-.
  destruct (front_compile_whole s p Ef) as [H1 [ir1 [ks [Ec1 [Hk HF]]]]].
  rewrite Ec in Ec1. injection Ec1 as <-. repeat split; auto. exists ks. auto.
Qed.

(* the text-producing model

   Comp/CompileText.compile_text is the whole of compile_prolog_from_string, down to the Python text and
   CPython's size limits; it is what the C10 check compares byte for byte with the implementation.  It returns text
   only where compile_front returns code, and the text is the emission of exactly that code. *)

Theorem compile_text_front printable s text : compile_text printable s = CText text ->
  exists p ir, compile_front s = Some (p, ir) /\ text = emit_program (py_repr printable) ir.
Proof.
  intros H. destruct (compile_text_inv _ _ _ H) as [p [ir [Hf [Hc [Hb [_ [_ Ht]]]]]]].
  exists p, ir. unfold compile_front. rewrite Hf, Hc, Hb. auto.
Qed.
