(* Fuel of the parser (Lang/Parser.v) only bounds the recursion depth: what a term-level function returns with
   some fuel it returns with every larger fuel.  `ev` / `evb`: what a function returns for all sufficiently
   large fuels / from a given fuel on. *)
From Coq Require Import List NArith Arith Bool Lia.
Import ListNotations.
From YP Require Import Base.Str Lang.Lexer Lang.Cst Lang.Parser.

Definition le_res {A} (o o' : option A) : Prop := forall x, o = Some x -> o' = Some x.

Lemma le_res_refl {A} (o : option A) : le_res o o.
Proof. intros x H. exact H. Qed.

Lemma le_bind {A B} (e e' : option (A * list tok)) (f f' : A -> list tok -> option B) :
  le_res e e' -> (forall x r, le_res (f x r) (f' x r)) ->
  le_res (do '(x, r) <- e; f x r) (do '(x, r) <- e'; f' x r).
Proof.
  intros He Hf y H. destruct e as [[x r]|]; [|discriminate].
  rewrite (He _ eq_refl). apply Hf. exact H.
Qed.

Lemma le_if {A} (b : bool) (u u' v v' : option A) :
  le_res u u' -> le_res v v' -> le_res (if b then u else v) (if b then u' else v').
Proof. destruct b; auto. Qed.

(* The body of each parser function is built from `do`, `if` and calls with less fuel; the same body with more
   fuel in the calls returns at least as much.  One step follows the syntax of the body: a call is covered by
   the induction hypothesis, anything without a call by le_res_refl. *)
Ltac mono_step :=
  first [ apply le_res_refl
        | solve [auto]
        | apply le_if
        | apply le_bind; [ | intros ? ?]
        | match goal with |- context [match ?l with [] => _ | _ :: _ => _ end] => destruct l end ].

Definition Mterm (n : nat) : Prop :=
  (forall m ts, n <= m -> le_res (p_term n ts) (p_term m ts)) /\
  (forall m ts, n <= m -> le_res (p_prim n ts) (p_prim m ts)) /\
  (forall m acc ts, n <= m -> le_res (p_binops n acc ts) (p_binops m acc ts)) /\
  (forall m ts, n <= m -> le_res (p_termlist n ts) (p_termlist m ts)) /\
  (forall m ts, n <= m -> le_res (p_tail n ts) (p_tail m ts)).

Lemma term_mono_all : forall n, Mterm n.
Proof.
  induction n as [|n [IHt [IHp [IHb [IHl IHtl]]]]].
  - repeat split; intros; discriminate.
  - repeat split; intros m; destruct m as [|m]; try (intros; lia).
    + intros ts Hle. apply le_S_n in Hle. cbn [p_term]. repeat mono_step.
    + intros ts Hle. apply le_S_n in Hle. cbn [p_prim]. destruct ts as [|[k y] r]; [apply le_res_refl|].
      destruct k; repeat mono_step.
    + intros acc ts Hle. apply le_S_n in Hle. cbn [p_binops]. repeat mono_step.
    + intros ts Hle. apply le_S_n in Hle. cbn [p_termlist]. repeat mono_step.
    + intros ts Hle. apply le_S_n in Hle. cbn [p_tail]. repeat mono_step.
Qed.

Lemma p_term_mono n m ts x : n <= m -> p_term n ts = Some x -> p_term m ts = Some x.
Proof. intros Hle. apply (term_mono_all n). exact Hle. Qed.
Lemma p_prim_mono n m ts x : n <= m -> p_prim n ts = Some x -> p_prim m ts = Some x.
Proof. intros Hle. apply (term_mono_all n). exact Hle. Qed.
Lemma p_binops_mono n m acc ts x : n <= m -> p_binops n acc ts = Some x -> p_binops m acc ts = Some x.
Proof. intros Hle. apply (term_mono_all n). exact Hle. Qed.
Lemma p_termlist_mono n m ts x : n <= m -> p_termlist n ts = Some x -> p_termlist m ts = Some x.
Proof. intros Hle. apply (term_mono_all n). exact Hle. Qed.
Lemma p_tail_mono n m ts x : n <= m -> p_tail n ts = Some x -> p_tail m ts = Some x.
Proof. intros Hle. apply (term_mono_all n). exact Hle. Qed.

Lemma p_simple_mono n m ts x : n <= m -> p_simple n ts = Some x -> p_simple m ts = Some x.
Proof.
  intros Hn. revert x. change (le_res (p_simple n ts) (p_simple m ts)). unfold p_simple.
  repeat apply le_if; try apply le_res_refl.
  apply le_bind; [|intros; apply le_res_refl]. intros y. apply p_term_mono. exact Hn.
Qed.

(* NOTE.  p_pe_prim is deliberately not claimed monotone: its `(` case tries the term reading first and falls
   back to the predicate-expression reading when that returns None, and None can also mean "not enough fuel".
   Lang/ParserComplete.v therefore states what the predicate-expression level returns from a given fuel on (`evb`),
   never for one fuel. *)

(* f returns x for every sufficiently large fuel *)
Definition ev {A} (f : nat -> option A) (x : A) : Prop := exists n0, forall n, n0 <= n -> f n = Some x.

Definition evb {A} (b : nat) (f : nat -> option A) (x : A) : Prop := forall n, b <= n -> f n = Some x.

Lemma evb_ev {A} b (f : nat -> option A) x : evb b f x -> ev f x.
Proof. intros H. exists b. exact H. Qed.

Lemma evb_le {A} b b' (f : nat -> option A) x : b <= b' -> evb b f x -> evb b' f x.
Proof. intros Hb H n Hn. apply H. lia. Qed.

(* a function that spends one unit of fuel and then succeeds whenever b units are left *)
Lemma evb_step {A} {b'} b (h : nat -> option A) z : S b <= b' -> (forall n, b <= n -> h (S n) = Some z) -> evb b' h z.
Proof. intros HB H n Hn. destruct n as [|n]; [lia|]. apply H. lia. Qed.

Lemma evb_step2 {A} {b'} b1 b2 (h : nat -> option A) z : S (Nat.max b1 b2) <= b' ->
  (forall n, b1 <= n -> b2 <= n -> h (S n) = Some z) -> evb b' h z.
Proof. intros HB H. apply (evb_step (Nat.max b1 b2) h z HB). intros n Hn. apply H; lia. Qed.

Lemma ev_of_some_term n ts x : p_term n ts = Some x -> ev (fun m => p_term m ts) x.
Proof. intros H. exists n. intros m Hm. eapply p_term_mono; eauto. Qed.

Lemma ev_unique {A} (f : nat -> option A) x y : ev f x -> ev f y -> x = y.
Proof.
  intros [n1 H1] [n2 H2]. specialize (H1 (n1 + n2) ltac:(lia)). specialize (H2 (n1 + n2) ltac:(lia)). congruence.
Qed.
