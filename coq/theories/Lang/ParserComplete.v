(* PARSE_COMPLETE, first part: the parser (Lang/Parser.v) returns every canonical derivation tree of prolog.g4.

   The grammar is ambiguous (term BINOP term and the three infix operators of predicateexpression are
   left-recursive/ambiguous rules that ANTLR disambiguates by precedence; `(`..`)` can be a term or a
   predicate expression).  CANONICAL derivation trees (`ctb`, `cpb`, `canonical`) are the trees in the shape the
   parser builds: BINOP chains nested to the left with primaries as right operands, a prefix operator applied to a
   primary, `,` `->` `;` nested by precedence and to the right, a bracketed predicate expression only where the
   bracketed text is not a term.  For every canonical tree c, parsing `yield c` returns exactly c from depth fuel
   2 * #tokens + 4 on (`program_complete_bound`); hence a token sequence is the yield of at most one canonical tree
   (`canonical_unique`).  That every derivation tree has a canonical one with the same yield is Lang/ParserCanon.v. *)
From Coq Require Import List NArith Arith Bool Lia.
Import ListNotations.
From YP Require Import Base.Str Lang.Lexer Lang.Cst Lang.Parser Lang.ParserSound Lang.ParserMono.

Definition hdk (ts : list tok) : option rname := match ts with (k, _) :: _ => Some k | [] => None end.

Lemma is_k_hdk k ts : is_k k ts = match hdk ts with Some k' => rname_eqb k k' | None => false end.
Proof. destruct ts as [|[k' x] r]; reflexivity. Qed.

Lemma is_k_same k x r : is_k k ((k, x) :: r) = true.
Proof. simpl. apply rname_eqb_eq. reflexivity. Qed.
Lemma is_k_diff k k' x r : k <> k' -> is_k k ((k', x) :: r) = false.
Proof. simpl. intros H. destruct (rname_eqb k k') eqn:E; [apply rname_eqb_eq in E; contradiction|reflexivity]. Qed.
Lemma is_k_nil k : is_k k [] = false.
Proof. reflexivity. Qed.
Lemma expect_same k x r : expect k ((k, x) :: r) = Some (x, r).
Proof. simpl. replace (rname_eqb k k) with true by (symmetry; apply rname_eqb_eq; reflexivity). reflexivity. Qed.

Definition nf_prim (ts : list tok) : bool :=
  match hdk ts with Some R_LPAR | Some R_SLASH => false | _ => true end.
Definition nf_term (ts : list tok) : bool :=
  match hdk ts with Some R_LPAR | Some R_SLASH | Some R_BINOP => false | _ => true end.
Definition is_closer (ts : list tok) : bool :=
  match hdk ts with Some R_RPAR | Some R_RBRACK | Some R_BAR => true | _ => false end.

Lemma nf_term_prim ts : nf_term ts = true -> nf_prim ts = true.
Proof. unfold nf_term, nf_prim. destruct (hdk ts) as [[]|]; auto. Qed.
Lemma nf_prim_k ts : nf_prim ts = true -> is_k R_SLASH ts = false /\ is_k R_LPAR ts = false.
Proof. unfold nf_prim. rewrite !is_k_hdk. destruct (hdk ts) as [[]|]; try discriminate; auto. Qed.
Lemma nf_term_binop ts : nf_term ts = true -> is_k R_BINOP ts = false.
Proof. unfold nf_term. rewrite !is_k_hdk. destruct (hdk ts) as [[]|]; try discriminate; auto. Qed.
Lemma closer_spec ts : is_closer ts = true ->
  nf_term ts = true /\ is_k R_COMMA ts = false /\ starts_term ts = false.
Proof.
  unfold is_closer, nf_term. rewrite is_k_hdk. destruct ts as [|[k x] r]; [discriminate|]. simpl.
  destruct k; try discriminate; auto.
Qed.

Definition tstart (k : rname) : bool := starts_term [(k, [])].

Lemma y_term_hd t : exists k x more, y_term t = (k, x) :: more /\ tstart k = true.
Proof.
  induction t as [a|a args IH|a n|v|op t IH|l op r IHl IHr|op l r IHl IHr|t IH|items IH|h v IH|h rest v IHh IHr]
    using cterm_ind'; cbn [y_term]; try (destruct a; simpl; eauto 6; fail); unfold fx; eauto 6.
  destruct IHl as [k [x [more [-> Hk]]]]. simpl. eauto 6.
Qed.

Lemma y_term_is_k k t X : tstart k = false -> is_k k (y_term t ++ X) = false.
Proof.
  intros Hk. destruct (y_term_hd t) as [k' [x [more [-> Hk']]]]. simpl.
  destruct (rname_eqb k k') eqn:E; [|reflexivity]. apply rname_eqb_eq in E. congruence.
Qed.
Lemma y_term_starts t X : starts_term (y_term t ++ X) = true.
Proof. destruct (y_term_hd t) as [k' [x [more [-> Hk']]]]. simpl. destruct k'; try discriminate; reflexivity. Qed.
Lemma y_term_nf t X : nf_term (y_term t ++ X) = false \/ True.
Proof. auto. Qed.

Definition is_binop (t : cterm) : bool := match t with T_binop _ _ _ => true | _ => false end.

Fixpoint ctb (t : cterm) : bool :=
  match t with
  | T_atom _ | T_arity _ _ | T_var _ => true
  | T_functor _ args => forallb ctb args
  | T_unop _ t => ctb t && negb (is_binop t)
  | T_binop l _ r => ctb l && ctb r && negb (is_binop r)
  | T_binop_prefix _ l r => ctb l && ctb r
  | T_paren t => ctb t
  | T_list items => forallb ctb items
  | T_listpair1 h _ => ctb h
  | T_listpair2 h rest _ => ctb h && forallb ctb rest
  end.

Lemma y_term_len t : 1 <= length (y_term t).
Proof. destruct (y_term_hd t) as [k [x [more [-> _]]]]. simpl. lia. Qed.

Local Ltac len_arith := repeat first [rewrite app_length | progress cbn [length app y_term y_simple y_pe y_clause y_cord]]; lia.

Lemma evb_term_of_prim ts t r res b1 b2 :
  evb b1 (fun n => p_prim n ts) (t, r) -> evb b2 (fun n => p_binops n t r) res ->
  evb (S (Nat.max b1 b2)) (fun n => p_term n ts) res.
Proof.
  intros H1 H2. apply (evb_step2 b1 b2); [lia|]. intros n Hn1 Hn2.
  cbn [p_term]. rewrite H1 by exact Hn1. exact (H2 n Hn2).
Qed.

Lemma evb_binops_stop t rest : is_k R_BINOP rest = false -> evb 1 (fun n => p_binops n t rest) (t, rest).
Proof. intros H. apply (evb_step 0); [lia|]. intros n _. cbn [p_binops]. rewrite H. reflexivity. Qed.

Lemma evb_binops_step acc op r rest res b1 b2 :
  evb b1 (fun n => p_prim n (y_term r ++ rest)) (r, rest) ->
  evb b2 (fun n => p_binops n (T_binop acc op r) rest) res ->
  evb (S (Nat.max b1 b2)) (fun n => p_binops n acc ((R_BINOP, op) :: y_term r ++ rest)) res.
Proof.
  intros H1 H2. apply (evb_step2 b1 b2); [lia|]. intros n Hn1 Hn2.
  cbn [p_binops]. rewrite is_k_same, expect_same. rewrite H1 by exact Hn1. exact (H2 n Hn2).
Qed.

(* Fuel: two units per token of the yield are enough, since a chain of calls that reads no token is short
   (term -> primary; termlist -> term) and every turn of a loop reads at least two tokens.  p_term reads t and goes
   on with the BINOP loop, `res` being what that loop returns from fuel b on: the loop is entered one level deeper
   for every operator of the chain that t is, at most length (y_term t) levels, hence b + length; the operands
   need 2 * length + 2 by themselves, hence the max. *)
Definition Gterm (t : cterm) : Prop :=
  ctb t = true ->
  (forall rest res b, nf_prim rest = true ->
     evb b (fun n => p_binops n t rest) res ->
     evb (Nat.max (b + length (y_term t)) (2 * length (y_term t) + 2)) (fun n => p_term n (y_term t ++ rest)) res) /\
  (is_binop t = false -> forall rest, nf_prim rest = true ->
     evb (2 * length (y_term t) + 1) (fun n => p_prim n (y_term t ++ rest)) (t, rest)).

Lemma Gterm_full t : Gterm t -> ctb t = true -> forall rest, nf_term rest = true ->
  evb (2 * length (y_term t) + 2) (fun n => p_term n (y_term t ++ rest)) (t, rest).
Proof.
  intros G C rest Hf.
  apply (evb_le (Nat.max (1 + length (y_term t)) (2 * length (y_term t) + 2))); [lia|].
  apply (proj1 (G C)); [apply nf_term_prim; exact Hf|].
  apply evb_binops_stop. apply nf_term_binop; exact Hf.
Qed.

Lemma Gterm_of_prim t : is_binop t = false ->
  (ctb t = true -> forall rest, nf_prim rest = true ->
     evb (2 * length (y_term t) + 1) (fun n => p_prim n (y_term t ++ rest)) (t, rest)) ->
  Gterm t.
Proof.
  intros Hb P C. split; [|intros _; exact (P C)].
  intros rest res b Hf Hres. pose proof (y_term_len t) as Hl.
  apply (evb_le (S (Nat.max (2 * length (y_term t) + 1) b))); [lia|].
  eapply evb_term_of_prim; [apply (P C rest Hf) | exact Hres].
Qed.

Lemma nf_term_tail l rest : is_closer rest = true -> nf_term (y_tail l ++ rest) = true.
Proof. intros Hc. destruct l as [|u l]; [apply (closer_spec _ Hc)|reflexivity]. Qed.

Lemma tail_complete l : Forall Gterm l -> forallb ctb l = true -> forall rest, is_closer rest = true ->
  evb (2 * length (y_tail l) + 1) (fun n => p_tail n (y_tail l ++ rest)) (l, rest).
Proof.
  induction 1 as [|t l Gt _ IH]; intros C rest Hc.
  - destruct (closer_spec _ Hc) as [_ [Hcm _]]. apply (evb_step 0); [lia|]. intros n _.
    cbn [p_tail y_tail flat_map app]. rewrite Hcm. reflexivity.
  - cbn [forallb] in C. apply andb_true_iff in C as [Ct Cl].
    pose proof (IH Cl rest Hc) as H2.
    pose proof (Gterm_full t Gt Ct _ (nf_term_tail l rest Hc)) as H1.
    unfold y_tail. cbn [flat_map]. fold (y_tail l).
    apply (evb_step2 (2 * length (y_term t) + 2) (2 * length (y_tail l) + 1)); [len_arith|].
    intros n Hn1 Hn2. rewrite <- app_assoc. cbn [app p_tail].
    unfold fx at 1. rewrite is_k_same. cbn [tl]. rewrite H1 by exact Hn1. rewrite H2 by exact Hn2. reflexivity.
Qed.

Lemma y_tail_cons t l : y_tail (t :: l) = fx R_COMMA :: sep_commas (map y_term (t :: l)).
Proof. rewrite sep_commas_cons. reflexivity. Qed.

Lemma termlist_complete l : Forall Gterm l -> forallb ctb l = true -> forall rest, is_closer rest = true ->
  evb (2 * length (sep_commas (map y_term l)) + 3) (fun n => p_termlist n (sep_commas (map y_term l) ++ rest)) (l, rest).
Proof.
  intros G C rest Hc. destruct l as [|t l].
  - destruct (closer_spec _ Hc) as [_ [_ Hs]]. apply (evb_step 0); [lia|]. intros n _.
    cbn [p_termlist map sep_commas app]. rewrite Hs. reflexivity.
  - inversion G as [|? ? Gt Gl]; subst. cbn [forallb] in C. apply andb_true_iff in C as [Ct Cl].
    pose proof (tail_complete l Gl Cl rest Hc) as H2.
    pose proof (Gterm_full t Gt Ct _ (nf_term_tail l rest Hc)) as H1.
    rewrite sep_commas_cons.
    apply (evb_step2 (2 * length (y_term t) + 2) (2 * length (y_tail l) + 1)); [len_arith|].
    intros n Hn1 Hn2. rewrite <- app_assoc. cbn [p_termlist]. rewrite y_term_starts.
    rewrite H1 by exact Hn1. rewrite H2 by exact Hn2. reflexivity.
Qed.

Local Ltac nrm := cbn [app]; repeat (rewrite <- app_assoc; cbn [app]).

Theorem term_complete : forall t, Gterm t.
Proof.
  induction t as [a|a args IH|a m|v|op t IH|l op r IHl IHr|op l r IHl IHr|t IH|items IH|h v IH|h rest0 v IHh IHr]
    using cterm_ind'.
  - (* atom *)
    apply Gterm_of_prim; [reflexivity|]. intros _ rest Hf. destruct (nf_prim_k _ Hf) as [Hs Hl].
    apply (evb_step 0); [lia|]. intros n _.
    destruct a; cbn [y_term y_atom app p_prim]; rewrite ?Hs, Hl; reflexivity.
  - (* functor *)
    apply Gterm_of_prim; [reflexivity|]. intros C rest _. cbn [ctb] in C.
    pose proof (termlist_complete args IH C (fx R_RPAR :: rest) eq_refl) as H1.
    cbn [y_term].
    apply (evb_step (2 * length (sep_commas (map y_term args)) + 3)); [len_arith|].
    intros n Hn. nrm. unfold fx at 1.
    destruct a; cbn [y_atom p_prim]; rewrite ?is_k_diff by discriminate; rewrite is_k_same; cbn [tl];
      rewrite H1 by exact Hn; unfold fx; rewrite expect_same; reflexivity.
  - (* name/arity *)
    apply Gterm_of_prim; [reflexivity|]. intros _ rest _.
    apply (evb_step 0); [lia|]. intros n _.
    cbn [y_term app p_prim]. unfold fx. rewrite is_k_same. cbn [tl]. rewrite expect_same. reflexivity.
  - (* variable *)
    apply Gterm_of_prim; [reflexivity|]. intros _ rest _.
    apply (evb_step 0); [lia|]. intros n _. reflexivity.
  - (* prefix operator *)
    apply Gterm_of_prim; [reflexivity|]. intros C rest Hf.
    cbn [ctb] in C. apply andb_true_iff in C as [Ct Hb]. apply negb_true_iff in Hb.
    pose proof (proj2 (IH Ct) Hb rest Hf) as H1.
    apply (evb_step (2 * length (y_term t) + 1)); [len_arith|]. intros n Hn.
    cbn [y_term app p_prim]. rewrite H1 by exact Hn. reflexivity.
  - (* infix operator: the chain is nested to the left, its right operand is a primary *)
    intros C. cbn [ctb] in C. apply andb_true_iff in C as [C Hb]. apply andb_true_iff in C as [Cl Cr]. apply negb_true_iff in Hb.
    split; [|discriminate].
    intros rest res b Hf Hres. cbn [y_term]. nrm.
    eapply evb_le; [|apply (proj1 (IHl Cl)); [reflexivity|];
                     apply evb_binops_step; [apply (proj2 (IHr Cr) Hb rest Hf) | exact Hres]].
    len_arith.
  - (* BINOP '(' term ',' term ')' *)
    apply Gterm_of_prim; [reflexivity|]. intros C rest _. cbn [ctb] in C. apply andb_true_iff in C as [Cl Cr].
    pose proof (Gterm_full l IHl Cl (fx R_COMMA :: y_term r ++ fx R_RPAR :: rest) eq_refl) as H1.
    pose proof (Gterm_full r IHr Cr (fx R_RPAR :: rest) eq_refl) as H2.
    apply (evb_step2 (2 * length (y_term l) + 2) (2 * length (y_term r) + 2)); [len_arith|].
    intros n Hn1 Hn2. cbn [y_term]. nrm. cbn [p_prim]. unfold fx at 1. rewrite expect_same.
    rewrite H1 by exact Hn1. unfold fx at 1. rewrite expect_same. rewrite H2 by exact Hn2. unfold fx. rewrite expect_same. reflexivity.
  - (* '(' term ')' *)
    apply Gterm_of_prim; [reflexivity|]. intros C rest _. cbn [ctb] in C.
    pose proof (Gterm_full t IH C (fx R_RPAR :: rest) eq_refl) as H1.
    apply (evb_step (2 * length (y_term t) + 2)); [len_arith|].
    intros n Hn. cbn [y_term]. nrm. unfold fx at 1. cbn [p_prim]. rewrite H1 by exact Hn.
    unfold fx. rewrite expect_same. reflexivity.
  - (* [ termlist ] *)
    apply Gterm_of_prim; [reflexivity|]. intros C rest _. cbn [ctb] in C.
    destruct items as [|h tl0].
    + apply (evb_step 0); [lia|]. intros n _. cbn [y_term map sep_commas app]. unfold fx. cbn [p_prim].
      rewrite is_k_same. reflexivity.
    + inversion IH as [|? ? Gh Gtl]; subst. cbn [forallb] in C. apply andb_true_iff in C as [Ch Ctl].
      pose proof (Gterm_full h Gh Ch _ (nf_term_tail tl0 (fx R_RBRACK :: rest) eq_refl)) as H1.
      cbn [y_term]. rewrite sep_commas_cons.
      destruct tl0 as [|t1 tl1].
      * apply (evb_step (2 * length (y_term h) + 2)); [len_arith|]. intros n Hn.
        nrm. unfold fx at 1. cbn [p_prim].
        rewrite y_term_is_k by reflexivity. cbn [y_tail flat_map app] in H1. rewrite H1 by exact Hn.
        unfold fx. rewrite is_k_same. reflexivity.
      * pose proof (termlist_complete (t1 :: tl1) Gtl Ctl (fx R_RBRACK :: rest) eq_refl) as H2.
        rewrite y_tail_cons.
        apply (evb_step2 (2 * length (y_term h) + 2) (2 * length (sep_commas (map y_term (t1 :: tl1))) + 3));
          [len_arith|].
        intros n Hn1 Hn2. nrm. unfold fx at 1. cbn [p_prim].
        rewrite y_term_is_k by reflexivity. rewrite y_tail_cons in H1. rewrite H1 by exact Hn1. nrm.
        unfold fx in *. rewrite !is_k_diff by discriminate. rewrite is_k_same. cbn [tl].
        rewrite H2 by exact Hn2. rewrite is_k_same. reflexivity.
  - (* [ term | V ] *)
    apply Gterm_of_prim; [reflexivity|]. intros C rest _. cbn [ctb] in C.
    pose proof (Gterm_full h IH C (fx R_BAR :: (R_VARIABLE, v) :: fx R_RBRACK :: rest) eq_refl) as H1.
    apply (evb_step (2 * length (y_term h) + 2)); [len_arith|]. intros n Hn.
    cbn [y_term]. nrm. unfold fx at 1. cbn [p_prim]. rewrite y_term_is_k by reflexivity. rewrite H1 by exact Hn.
    unfold fx. rewrite is_k_diff by discriminate. rewrite is_k_same. cbn [tl]. rewrite !expect_same. reflexivity.
  - (* [ term , termlist | V ] *)
    apply Gterm_of_prim; [reflexivity|]. intros C rest _. cbn [ctb] in C. apply andb_true_iff in C as [Ch Cr].
    pose proof (Gterm_full h IHh Ch (fx R_COMMA :: sep_commas (map y_term rest0) ++ fx R_BAR :: (R_VARIABLE, v) :: fx R_RBRACK :: rest) eq_refl) as H1.
    pose proof (termlist_complete rest0 IHr Cr (fx R_BAR :: (R_VARIABLE, v) :: fx R_RBRACK :: rest) eq_refl) as H2.
    apply (evb_step2 (2 * length (y_term h) + 2) (2 * length (sep_commas (map y_term rest0)) + 3)); [len_arith|].
    intros n Hn1 Hn2. cbn [y_term]. nrm. unfold fx at 1. cbn [p_prim]. rewrite y_term_is_k by reflexivity. rewrite H1 by exact Hn1.
    unfold fx in *. rewrite !is_k_diff by discriminate. rewrite is_k_same. cbn [tl].
    rewrite H2 by exact Hn2. rewrite is_k_diff by discriminate. rewrite is_k_same. cbn [tl].
    rewrite !expect_same. reflexivity.
Qed.

Corollary term_complete_full t : ctb t = true -> forall rest, nf_term rest = true ->
  evb (2 * length (y_term t) + 2) (fun n => p_term n (y_term t ++ rest)) (t, rest).
Proof. intros C. apply Gterm_full; [apply term_complete | exact C]. Qed.

Lemma p_term_bad_start n k x r : tstart k = false -> p_term n ((k, x) :: r) = None.
Proof. intros H. destruct n as [|[|n]]; try reflexivity. cbn [p_term p_prim]. destruct k; try discriminate; reflexivity. Qed.

Lemma p_term_some_hd n ts x : p_term n ts = Some x -> exists k y r, ts = (k, y) :: r /\ tstart k = true.
Proof.
  intros H. destruct ts as [|[k y] r].
  - destruct n as [|[|n]]; discriminate.
  - destruct (tstart k) eqn:E; [eauto|]. rewrite p_term_bad_start in H by exact E. discriminate.
Qed.

Lemma expect_not k ts : hdk ts <> Some k -> expect k ts = None.
Proof.
  destruct ts as [|[k' x] r]; [reflexivity|]. simpl. intros H.
  destruct (rname_eqb k k') eqn:E; [|reflexivity]. apply rname_eqb_eq in E. congruence.
Qed.

Lemma paren_none inner :
  (forall n u r2, p_term n inner = Some (u, r2) -> hdk r2 <> Some R_RPAR) ->
  forall n, p_term n (fx R_LPAR :: inner) = None.
Proof.
  intros H n. destruct n as [|[|n]]; try reflexivity. unfold fx. cbn [p_term p_prim].
  destruct (p_term n inner) as [[u r2]|] eqn:E; [|reflexivity].
  rewrite (expect_not _ _ (H _ _ _ E)). reflexivity.
Qed.

Definition lvl (e : pexpr) : nat :=
  match e with PE_and _ _ => 4 | PE_if _ _ => 3 | PE_or _ _ => 2 | _ => 6 end.
Definition is_termlike (e : pexpr) : bool := match e with PE_simple (SP_term _) => true | _ => false end.
Definition csimple (sp : simplepred) : bool := match sp with SP_term t => ctb t | _ => true end.

Fixpoint cpb (e : pexpr) : bool :=
  match e with
  | PE_simple sp => csimple sp
  | PE_not a => cpb a && (lvl a =? 6)
  | PE_and l r => cpb l && cpb r && (4 <? lvl l) && (4 <=? lvl r)
  | PE_if l r => cpb l && cpb r && (3 <? lvl l) && (3 <=? lvl r)
  | PE_or l r => cpb l && cpb r && (2 <? lvl l) && (2 <=? lvl r)
  | PE_paren a => cpb a && negb (is_termlike a)
  end.

Definition hprec (ts : list tok) : nat :=
  match hdk ts with Some R_COMMA => 4 | Some R_ARROW => 3 | Some R_SEMI => 2 | _ => 0 end.

Lemma lvl_bounds e : 2 <= lvl e <= 6.
Proof. destruct e; simpl; lia. Qed.
Lemma hprec_le ts : hprec ts <= 4.
Proof. unfold hprec. destruct (hdk ts) as [[]|]; lia. Qed.

Lemma simple_complete sp : csimple sp = true -> forall rest, nf_term rest = true ->
  evb (2 * length (y_simple sp) + 2) (fun n => p_simple n (y_simple sp ++ rest)) (sp, rest).
Proof.
  intros C rest Hf. destruct sp as [| | |t]; try (intros n _; reflexivity).
  pose proof (term_complete_full t C rest Hf) as H1. intros n Hn.
  unfold p_simple. cbn [y_simple] in *. rewrite !y_term_is_k by reflexivity. rewrite H1 by exact Hn. reflexivity.
Qed.

Lemma term_as_pe_prim n ts u r2 : p_term n ts = Some (u, r2) ->
  ev (fun m => p_pe_prim m ts) (PE_simple (SP_term u), r2).
Proof.
  intros H. destruct (p_term_some_hd _ _ _ H) as [k [y [r [-> Hk]]]].
  exists (S n). intros m Hm. destruct m as [|m]; [lia|].
  assert (Hm' : p_term m ((k, y) :: r) = Some (u, r2)) by (eapply p_term_mono; [|exact H]; lia).
  cbn [p_pe_prim]. rewrite is_k_diff by (intros E0; rewrite <- E0 in Hk; discriminate).
  destruct (is_k R_LPAR ((k, y) :: r)); [rewrite Hm'; reflexivity|].
  unfold p_simple. rewrite !is_k_diff by (intros E0; rewrite <- E0 in Hk; discriminate). rewrite Hm'. reflexivity.
Qed.

Fixpoint first_prim (e : pexpr) : pexpr :=
  match e with PE_and l _ | PE_if l _ | PE_or l _ => first_prim l | _ => e end.
Fixpoint after_first (e : pexpr) : list tok :=
  match e with
  | PE_and l r => after_first l ++ fx R_COMMA :: y_pe r
  | PE_if l r => after_first l ++ fx R_ARROW :: y_pe r
  | PE_or l r => after_first l ++ fx R_SEMI :: y_pe r
  | _ => []
  end.

Definition is_optok (ts : list tok) : bool :=
  match hdk ts with Some R_COMMA | Some R_ARROW | Some R_SEMI => true | _ => false end.

Lemma after_first_hd e : forall X, is_optok X = true -> is_optok (after_first e ++ X) = true.
Proof.
  induction e; intros X HX; cbn [after_first app]; try exact HX; rewrite <- app_assoc; apply IHe1; reflexivity.
Qed.

Lemma optok_not_rpar X : is_optok X = true -> hdk X <> Some R_RPAR.
Proof. unfold is_optok. destruct (hdk X) as [[]|]; try discriminate; intros _ H; discriminate. Qed.
Lemma optok_nf X : is_optok X = true -> nf_term X = true.
Proof. unfold is_optok, nf_term. destruct (hdk X) as [[]|]; try discriminate; reflexivity. Qed.

Lemma y_simple_cons sp : exists t0 r0, y_simple sp = t0 :: r0.
Proof.
  destruct sp; cbn [y_simple]; unfold fx; eauto. destruct (y_term_hd t) as [k [x [more [-> _]]]]. eauto.
Qed.

Lemma y_pe_len e : 1 <= length (y_pe e).
Proof.
  induction e as [sp|a _|l IHl r _|l IHl r _|l IHl r _|a _]; cbn [y_pe]; try len_arith.
  destruct (y_simple_cons sp) as [t0 [r0 ->]]. simpl. lia.
Qed.

Lemma evb_pe_of_prim ts p a r res b1 b2 :
  evb b1 (fun n => p_pe_prim n ts) (a, r) -> evb b2 (fun n => p_pe_loop n p a r) res ->
  evb (S (Nat.max b1 b2)) (fun n => p_pe n p ts) res.
Proof.
  intros H1 H2. apply (evb_step2 b1 b2); [lia|]. intros n Hn1 Hn2.
  cbn [p_pe]. rewrite H1 by exact Hn1. exact (H2 n Hn2).
Qed.

Lemma evb_loop_stop p acc rest : hprec rest = 0 \/ hprec rest < p -> evb 1 (fun n => p_pe_loop n p acc rest) (acc, rest).
Proof.
  intros H. apply (evb_step 0); [lia|]. intros n _. cbn [p_pe_loop].
  unfold hprec in H. rewrite !is_k_hdk. destruct (hdk rest) as [k|]; [|reflexivity].
  destruct k; try reflexivity; simpl;
    match goal with |- context [?a <=? ?b] => destruct (Nat.leb_spec a b); [exfalso; simpl in H; lia|reflexivity] end.
Qed.

Inductive infix_op : rname -> nat -> (pexpr -> pexpr -> pexpr) -> Prop :=
| op_and : infix_op R_COMMA 4 PE_and
| op_if : infix_op R_ARROW 3 PE_if
| op_or : infix_op R_SEMI 2 PE_or.

Lemma infix_op_spec k q C : infix_op k q C ->
  2 <= q <= 4 /\
  (forall X, hprec (fx k :: X) = q /\ is_optok (fx k :: X) = true) /\
  (forall l r, lvl (C l r) = q /\ is_termlike (C l r) = false /\
     cpb (C l r) = cpb l && cpb r && (q <? lvl l) && (q <=? lvl r) /\
     y_pe (C l r) = y_pe l ++ fx k :: y_pe r /\
     first_prim (C l r) = first_prim l /\ after_first (C l r) = after_first l ++ fx k :: y_pe r).
Proof. destruct 1; repeat split; try reflexivity; lia. Qed.

Lemma evb_loop_op {k q C p acc e ts r' res b1 b2} : infix_op k q C -> p <= q ->
  evb b1 (fun n => p_pe n q ts) (e, r') -> evb b2 (fun n => p_pe_loop n p (C acc e) r') res ->
  evb (S (Nat.max b1 b2)) (fun n => p_pe_loop n p acc (fx k :: ts)) res.
Proof.
  intros Hop Hp H1 H2. apply (evb_step2 b1 b2); [lia|]. intros n Hn1 Hn2.
  apply Nat.leb_le in Hp.
  destruct Hop; unfold fx; cbn [p_pe_loop]; rewrite ?is_k_diff by discriminate; rewrite is_k_same, Hp;
    cbn [andb tl]; rewrite H1 by exact Hn1; exact (H2 n Hn2).
Qed.

(* for a canonical e: PP - a primary is read by p_pe_prim; LL - p_pe reads e and goes on with the operator loop;
   NT - `(` e `)` has no term reading unless e is a term; FP - what p_pe_prim reads at the start of e *)
Local Definition PP (e : pexpr) : Prop := lvl e = 6 -> forall rest, nf_term rest = true ->
  evb (2 * length (y_pe e) + 3) (fun n => p_pe_prim n (y_pe e ++ rest)) (e, rest).
Local Definition LL (e : pexpr) : Prop := forall p rest res b, p <= lvl e -> hprec rest < lvl e -> nf_term rest = true ->
  evb b (fun n => p_pe_loop n p e rest) res ->
  evb (Nat.max (b + length (y_pe e)) (2 * length (y_pe e) + 4)) (fun n => p_pe n p (y_pe e ++ rest)) res.
Local Definition NT (e : pexpr) : Prop := is_termlike e = false ->
  forall n rest, p_term n (fx R_LPAR :: y_pe e ++ fx R_RPAR :: rest) = None.
Local Definition FP (e : pexpr) : Prop := forall rest, nf_term rest = true ->
  ev (fun n => p_pe_prim n (y_pe e ++ rest)) (first_prim e, after_first e ++ rest).
Definition Gpe (e : pexpr) : Prop := cpb e = true -> PP e /\ LL e /\ NT e /\ FP e.

Lemma Gpe_of_prim e : lvl e = 6 -> first_prim e = e -> after_first e = [] ->
  (cpb e = true -> PP e /\ NT e) -> Gpe e.
Proof.
  intros Hl E1 E2 H C. destruct (H C) as [P N]. split; [exact P|]. split; [|split; [exact N|]].
  - intros p rest res b _ _ Hf Hres. pose proof (y_pe_len e) as Hlen.
    apply (evb_le (S (Nat.max (2 * length (y_pe e) + 3) b))); [lia|].
    eapply evb_pe_of_prim; [apply P; assumption | exact Hres].
  - intros rest Hf. rewrite E1, E2. eapply evb_ev. apply P; assumption.
Qed.

(* A term reading of `y_pe l OP ..` ends where p_pe_prim ends (term_as_pe_prim, ev_unique): after the first primary
   of l, in front of an operator token, never in front of a `)`.  So `( l OP r )` has no term reading (NT). *)
Lemma term_reading_stops l X : FP l -> is_optok X = true ->
  forall n u r2, p_term n (y_pe l ++ X) = Some (u, r2) -> hdk r2 <> Some R_RPAR.
Proof.
  intros F HX n u r2 H. apply term_as_pe_prim in H.
  pose proof (ev_unique _ _ _ H (F X (optok_nf _ HX))) as E. injection E as _ ->.
  apply optok_not_rpar. apply after_first_hd. exact HX.
Qed.

Lemma LL_full e : LL e -> forall p rest, p <= lvl e -> hprec rest = 0 \/ hprec rest < p -> nf_term rest = true ->
  evb (2 * length (y_pe e) + 4) (fun n => p_pe n p (y_pe e ++ rest)) (e, rest).
Proof.
  intros L p rest Hp Hh Hf. pose proof (lvl_bounds e) as Hb.
  apply (evb_le (Nat.max (1 + length (y_pe e)) (2 * length (y_pe e) + 4))); [lia|].
  apply L; [exact Hp | lia | exact Hf |]. apply evb_loop_stop. exact Hh.
Qed.

Lemma infix_complete {k q C l r} : infix_op k q C -> Gpe l -> Gpe r -> Gpe (C l r).
Proof.
  intros Hop IHl IHr C0.
  destruct (infix_op_spec _ _ _ Hop) as [Hq [Hk Hs]]. destruct (Hs l r) as [El [Et [Ec [Ey [Ef Ea]]]]].
  rewrite Ec in C0.
  apply andb_true_iff in C0 as [C0 H2]. apply andb_true_iff in C0 as [C0 H1]. apply andb_true_iff in C0 as [Cl Cr].
  apply Nat.ltb_lt in H1. apply Nat.leb_le in H2.
  destruct (IHl Cl) as [_ [Ll [_ Fl]]]. destruct (IHr Cr) as [_ [Lr _]].
  split; [intros Hl; lia|]. split; [|split].
  - intros p rest res b Hp Hh Hf Hres. rewrite El in Hp, Hh. rewrite Ey. nrm.
    destruct (Hk (y_pe r ++ rest)) as [Hpr Hot].
    pose proof (LL_full r Lr q rest H2 (or_intror Hh) Hf) as Hr.
    pose proof (evb_loop_op (acc := l) Hop Hp Hr Hres) as Hloop.
    pose proof (Ll p (fx k :: y_pe r ++ rest) res _ ltac:(lia) ltac:(lia) (optok_nf _ Hot) Hloop) as H.
    eapply evb_le; [|exact H]. len_arith.
  - intros _ n rest. apply paren_none. rewrite Ey. nrm. apply term_reading_stops; [exact Fl | apply Hk].
  - intros rest Hf. rewrite Ey, Ef, Ea. nrm. apply Fl. apply optok_nf. apply Hk.
Qed.

Theorem pe_complete : forall e, Gpe e.
Proof.
  induction e as [sp|a IH|l IHl r IHr|l IHl r IHr|l IHl r IHr|a IH].
  - (* simplepredicate *)
    apply Gpe_of_prim; try reflexivity. intros C. cbn [cpb] in C. split.
    + intros _ rest Hf. destruct sp as [| | |t].
      1-3: (apply (evb_step 0); [lia|]; intros n _; reflexivity).
      pose proof (simple_complete (SP_term t) C rest Hf) as H1.
      pose proof (term_complete_full t C rest Hf) as H2. cbn [y_pe y_simple] in *.
      apply (evb_step (2 * length (y_term t) + 2)); [lia|]. intros n Hn.
      cbn [p_pe_prim]. rewrite y_term_is_k by reflexivity.
      destruct (is_k R_LPAR (y_term t ++ rest)).
      * rewrite H2 by lia. reflexivity.
      * rewrite H1 by lia. reflexivity.
    + intros Ht n rest. destruct sp as [| | |t]; [| | |discriminate];
        (apply paren_none; intros n0 u r2 H; cbn [y_pe y_simple app] in H; unfold fx in H;
         rewrite p_term_bad_start in H by reflexivity; discriminate).
  - (* \+ *)
    apply Gpe_of_prim; try reflexivity. intros C. cbn [cpb] in C.
    apply andb_true_iff in C as [Ca Hl]. apply Nat.eqb_eq in Hl.
    destruct (IH Ca) as [_ [La _]]. split.
    + intros _ rest Hf.
      assert (H5 : evb (2 * length (y_pe a) + 4) (fun n => p_pe n 5 (y_pe a ++ rest)) (a, rest)).
      { pose proof (hprec_le rest). apply (LL_full a La); [lia | right; lia | exact Hf]. }
      apply (evb_step (2 * length (y_pe a) + 4)); [len_arith|]. intros n Hn.
      cbn [y_pe app]. unfold fx. cbn [p_pe_prim]. rewrite is_k_same. cbn [tl]. rewrite H5 by exact Hn. reflexivity.
    + intros _ n rest. apply paren_none. intros n0 u r2 H. cbn [y_pe app] in H. unfold fx in H.
      rewrite p_term_bad_start in H by reflexivity. discriminate.
  - exact (infix_complete op_and IHl IHr).
  - exact (infix_complete op_if IHl IHr).
  - exact (infix_complete op_or IHl IHr).
  - (* ( predicateexpression ) where the bracketed text is not a term *)
    apply Gpe_of_prim; try reflexivity. intros C. cbn [cpb] in C.
    apply andb_true_iff in C as [Ca Ht]. apply negb_true_iff in Ht.
    destruct (IH Ca) as [_ [La [Na _]]]. split.
    + intros _ rest Hf.
      pose proof (LL_full a La 0 (fx R_RPAR :: rest) (Nat.le_0_l _) (or_introl eq_refl) eq_refl) as H1.
      apply (evb_step (2 * length (y_pe a) + 4)); [len_arith|]. intros n Hn.
      cbn [y_pe]. nrm. pose proof (Na Ht n rest) as HN. unfold fx in *. cbn [p_pe_prim].
      rewrite is_k_diff by discriminate. rewrite is_k_same. rewrite HN. cbn [tl]. rewrite H1 by exact Hn.
      rewrite expect_same. reflexivity.
    + intros _ n rest. apply paren_none. intros n0 u r2 H. cbn [y_pe] in H. revert H. nrm. intros H.
      rewrite (Na Ht n0 (fx R_RPAR :: rest)) in H. discriminate.
Qed.

Definition cclauseb (c : cclause) : bool :=
  match c with C_fact h => csimple h | C_rule h b => csimple h && cpb b end.
Definition ccordb (c : cord) : bool :=
  match c with CD_clause c => cclauseb c | CD_directive sp => csimple sp end.
Definition canonical (p : cprogram) : bool := forallb ccordb p.

Lemma y_simple_is_k k sp X : tstart k = false -> k <> R_TRUE -> k <> R_FAIL -> k <> R_CUT ->
  is_k k (y_simple sp ++ X) = false.
Proof.
  intros Hk H1 H2 H3. destruct sp; cbn [y_simple app]; unfold fx; try (apply is_k_diff; assumption).
  apply y_term_is_k; exact Hk.
Qed.

Lemma cord_complete c : ccordb c = true -> forall rest,
  evb (2 * length (y_cord c) + 4) (fun n => p_cord n (y_cord c ++ rest)) (c, rest).
Proof.
  intros C rest. destruct c as [[h|h b]|sp]; cbn [ccordb cclauseb] in C.
  - pose proof (simple_complete h C (fx R_DOT :: rest) eq_refl) as H1.
    intros n Hn. unfold p_cord. cbn [y_cord y_clause]. nrm.
    rewrite y_simple_is_k by (try reflexivity; discriminate). rewrite H1 by (revert Hn; len_arith).
    unfold fx. rewrite is_k_same. reflexivity.
  - apply andb_true_iff in C as [Ch Cb].
    pose proof (simple_complete h Ch (fx R_NECK :: y_pe b ++ fx R_DOT :: rest) eq_refl) as H1.
    destruct (pe_complete b Cb) as [_ [Lb _]].
    pose proof (LL_full b Lb 0 (fx R_DOT :: rest) (Nat.le_0_l _) (or_introl eq_refl) eq_refl) as H2.
    intros n Hn. unfold p_cord. cbn [y_cord y_clause]. nrm.
    rewrite y_simple_is_k by (try reflexivity; discriminate). rewrite H1 by (revert Hn; len_arith).
    unfold fx in *. rewrite is_k_diff by discriminate. rewrite expect_same. rewrite H2 by (revert Hn; len_arith).
    rewrite expect_same. reflexivity.
  - pose proof (simple_complete sp C (fx R_DOT :: rest) eq_refl) as H1.
    intros n Hn. unfold p_cord. cbn [y_cord]. nrm. unfold fx at 1. rewrite is_k_same. cbn [tl].
    rewrite H1 by (revert Hn; len_arith). unfold fx. rewrite expect_same. reflexivity.
Qed.

Lemma y_cord_cons c : exists t0 r0, y_cord c = t0 :: r0.
Proof.
  destruct c as [[h|h b]|sp]; cbn [y_cord y_clause]; unfold fx; eauto;
    destruct (y_simple_cons h) as [t0 [r0 ->]]; simpl; eauto.
Qed.

Theorem program_complete_bound prog : canonical prog = true -> forall m, length prog <= m ->
  evb (2 * length (yield prog) + 4) (fun n => p_program m n (yield prog)) prog.
Proof.
  unfold canonical. induction prog as [|c l IH]; intros C m Hm.
  - intros n _. destruct m; reflexivity.
  - cbn [forallb] in C. apply andb_true_iff in C as [Cc Cl].
    destruct m as [|m]; [simpl in Hm; lia|].
    pose proof (IH Cl m ltac:(simpl in Hm; lia)) as H2.
    pose proof (cord_complete c Cc (yield l)) as H1.
    assert (Hl : length (yield (c :: l)) = length (y_cord c) + length (yield l)) by apply app_length.
    intros n Hn. unfold yield. cbn [flat_map]. fold (yield l).
    destruct (y_cord_cons c) as [t0 [r0 E]].
    assert (Eq : y_cord c ++ yield l = t0 :: (r0 ++ yield l)) by (rewrite E; reflexivity).
    rewrite Eq. cbn [p_program]. rewrite <- Eq. rewrite H1 by lia. rewrite H2 by lia. reflexivity.
Qed.

(* PROGRAM_COMPLETE (m = the bound on the number of clauses, n = the depth fuel) *)
Theorem program_complete prog : canonical prog = true -> forall m, length prog <= m ->
  ev (fun n => p_program m n (yield prog)) prog.
Proof. intros C m Hm. eapply evb_ev. apply program_complete_bound; assumption. Qed.

(* UNAMBIGUOUS: a token sequence is the yield of at most one canonical derivation tree *)
Theorem canonical_unique p1 p2 : canonical p1 = true -> canonical p2 = true -> yield p1 = yield p2 -> p1 = p2.
Proof.
  intros C1 C2 E.
  pose proof (program_complete p1 C1 (length p1 + length p2) ltac:(lia)) as H1.
  pose proof (program_complete p2 C2 (length p1 + length p2) ltac:(lia)) as H2.
  rewrite E in H1. exact (ev_unique _ _ _ H1 H2).
Qed.
