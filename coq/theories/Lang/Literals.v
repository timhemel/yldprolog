(* C16, source side: what the literals of a source text denote.
   - quoted atoms: for every text s without backslash, quote s (s between quotes, \' for ') is lexed as
     the single token STRING and unquoted back to s -- including quotes, line breaks, any code point;
   - plain atoms, numerals, variables: the whole text is one token of the expected kind;
   - list syntax folds to '.'/2 chains; `_` is numbered x1, x2, ... per compilation, each number once. *)
From Coq Require Import List NArith ZArith Arith Bool Lia.
Import ListNotations.
From YP Require Import Base.Str Term.Term Lang.Ast Lang.Lexer Lang.Cst Lang.Parser Lang.Unquote.

Definition first_of (rd : rdef) (c : N) : bool :=
  match rd with
  | RLits ls => existsb (fun l => match l with x :: _ => N.eqb x c | [] => false end) ls
  | RClass f _ => f c
  | RString => N.eqb c 39
  | RComment => N.eqb c 37
  end.
Definition first_ok (r : rname) (c : N) : bool := first_of (rule_def r) c.

Lemma rule_lang_first r c w : rule_lang r (c :: w) -> first_ok r c = true.
Proof.
  unfold first_ok, first_of, rule_lang. destruct (rule_def r) as [ls|f g| |]; simpl; intros Hw.
  - apply existsb_exists. exists (c :: w). split; [exact Hw | apply N.eqb_refl].
  - destruct Hw as [c' [w' [E [Hc _]]]]. injection E as -> _. exact Hc.
  - destruct Hw as [b [E _]]. injection E as -> _. reflexivity.
  - destruct Hw as [b [e [E _]]]. injection E as -> _. reflexivity.
Qed.

Fixpoint chars_from (lo : N) (n : nat) : list N :=
  match n with O => [] | S n' => lo :: chars_from (N.succ lo) n' end.

Lemma in_chars_from n : forall lo c, (lo <= c)%N -> (c < lo + N.of_nat n)%N -> In c (chars_from lo n).
Proof.
  induction n as [|n IH]; intros lo c Hlo Hhi; [cbn in Hhi; lia|].
  destruct (N.eq_dec c lo) as [->|Ne]; [left; reflexivity|].
  right. rewrite Nat2N.inj_succ in Hhi. apply IH; lia.
Qed.

(* a text that is, as a whole, in the language of rule r and of no rule listed before r is the single token r *)
Lemma whole_token r w : rule_lang r w -> (forall r', ridx r' < ridx r -> ~ rule_lang r' w) ->
  lex_one w = Some (r, length w).
Proof.
  intros Hw Hearlier. apply lex_one_complete. split.
  - exists w, []. rewrite app_nil_r. auto.
  - intros r' m [w' [rest [E [<- Hw']]]].
    assert (Hlen : length w' <= length w) by (rewrite E, app_length; lia).
    destruct (Nat.eq_dec (length w') (length w)) as [Heq|]; [right|left; lia].
    split; [exact Heq|].
    assert (rest = []) as -> by (destruct rest; [reflexivity|]; rewrite E, app_length in Heq; simpl in Heq; lia).
    rewrite app_nil_r in E. subst w'.
    destruct (Nat.le_gt_cases (ridx r) (ridx r')) as [|Hlt]; [assumption|].
    exfalso. apply (Hearlier r' Hlt Hw').
Qed.

Lemma single_item r w : w <> [] -> lex_one w = Some (r, length w) -> lex_items (length w) w = Some [(r, w)].
Proof.
  intros Hne H. destruct w as [|c w]; [congruence|]. cbn [length lex_items]. rewrite H.
  change (S (length w)) with (length (c :: w)). rewrite skipn_all, firstn_all.
  destruct (length w); reflexivity.
Qed.

Lemma whole_token_lex r w : is_skip r = false -> rule_lang r w ->
  (forall r', ridx r' < ridx r -> ~ rule_lang r' w) -> lex w = Some [(r, w)].
Proof.
  intros Hs Hw He. unfold lex. rewrite (single_item r w).
  - simpl. unfold keep. simpl. rewrite Hs. reflexivity.
  - eapply rule_lang_nonempty; eauto.
  - apply whole_token; auto.
Qed.

(* no rule listed before the k-th, apart from those that ex lets through, starts with one of the characters cs;
   evaluated rule by rule, so that the definition of a rule is looked up once for all of cs *)
Definition earlier_cannot_start (k : nat) (ex : rname -> bool) (cs : list N) : bool :=
  forallb (fun r => negb (ridx r <? k) || ex r ||
                    let rd := rule_def r in forallb (fun c => negb (first_of rd c)) cs) all_rules.

Lemma earlier_cannot_start_spec k ex cs : earlier_cannot_start k ex cs = true ->
  forall r c, ridx r < k -> ex r = false -> In c cs -> first_ok r c = false.
Proof.
  unfold earlier_cannot_start. rewrite forallb_forall. intros H r c Hlt He Hc.
  specialize (H r (all_rules_complete r)). apply Nat.ltb_lt in Hlt. rewrite Hlt, He in H. cbn [negb orb] in H.
  rewrite forallb_forall in H. specialize (H c Hc). unfold first_ok.
  destruct (first_of (rule_def r) c); [discriminate|reflexivity].
Qed.

Lemma digit_first c r : is_digit c = true -> ridx r < ridx R_NUMERAL -> first_ok r c = false.
Proof.
  unfold is_digit. rewrite andb_true_iff, !N.leb_le. intros [L H] Hlt.
  apply (earlier_cannot_start_spec (ridx R_NUMERAL) (fun _ => false) (chars_from 48 10)); [vm_compute; reflexivity|exact Hlt|reflexivity|].
  apply in_chars_from; [exact L | cbn; lia].
Qed.

Lemma varstart_first c r : is_varstart c = true -> ridx r < ridx R_VARIABLE -> first_ok r c = false.
Proof.
  unfold is_varstart, is_uc. rewrite orb_true_iff, andb_true_iff, !N.leb_le, N.eqb_eq. intros Hc Hlt.
  apply (earlier_cannot_start_spec (ridx R_VARIABLE) (fun _ => false) (95%N :: chars_from 65 26)); [vm_compute; reflexivity|exact Hlt|reflexivity|].
  destruct Hc as [[L H]| ->]; [right|left; reflexivity]. apply in_chars_from; [exact L | cbn; lia].
Qed.

(* a lower-case letter starts, among the rules before ATOM, only `true` and `fail` *)
Definition lc_letter (c : N) : bool := ((97 <=? c) && (c <=? 122))%N.
Lemma lc_first c r : lc_letter c = true -> ridx r < ridx R_ATOM -> r <> R_TRUE -> r <> R_FAIL -> first_ok r c = false.
Proof.
  unfold lc_letter. rewrite andb_true_iff, !N.leb_le. intros [L H] Hlt N1 N2.
  apply (earlier_cannot_start_spec (ridx R_ATOM) (fun r => match r with R_TRUE | R_FAIL => true | _ => false end) (chars_from 97 26));
    [vm_compute; reflexivity | exact Hlt | destruct r; try reflexivity; congruence |].
  apply in_chars_from; [exact L | cbn; lia].
Qed.

(* NUMERAL: any non-empty digit string, leading zeros included, is one NUMERAL token *)
Theorem numeral_token w : w <> [] -> forallb is_digit w = true -> lex w = Some [(R_NUMERAL, w)].
Proof.
  intros Hne Hd. destruct w as [|c w]; [congruence|]. simpl in Hd. apply andb_true_iff in Hd as [Hc Hw].
  apply whole_token_lex; [reflexivity| |].
  - exists c, w; auto.
  - intros r' Hlt Hr'. apply rule_lang_first in Hr'.
    rewrite (digit_first c r' Hc Hlt) in Hr'. discriminate.
Qed.

(* VARIABLE: an upper-case letter or `_` followed by letters, digits, `_` *)
Theorem variable_token c w : is_varstart c = true -> forallb is_character w = true ->
  lex (c :: w) = Some [(R_VARIABLE, c :: w)].
Proof.
  intros Hc Hw. apply whole_token_lex; [reflexivity| |].
  - exists c, w; auto.
  - intros r' Hlt Hr'. apply rule_lang_first in Hr'.
    rewrite (varstart_first c r' Hc Hlt) in Hr'. discriminate.
Qed.

(* ATOM: a lower-case letter followed by letters, digits, `_`, other than the keywords true and fail *)
Theorem plain_atom_token c w : lc_letter c = true -> forallb is_character w = true ->
  c :: w <> [116; 114; 117; 101]%N -> c :: w <> [102; 97; 105; 108]%N ->
  lex (c :: w) = Some [(R_ATOM, c :: w)].
Proof.
  intros Hc Hw Ht Hf. apply whole_token_lex; [reflexivity| |].
  - exists c, w. repeat split; auto. unfold is_lc. unfold lc_letter in Hc. rewrite Hc. reflexivity.
  - intros r' Hlt Hr'.
    assert (N1 : r' <> R_TRUE) by (intros ->; destruct Hr' as [E|[]]; vm_compute in E; congruence).
    assert (N2 : r' <> R_FAIL) by (intros ->; destruct Hr' as [E|[]]; vm_compute in E; congruence).
    apply rule_lang_first in Hr'. rewrite (lc_first c r' Hc Hlt N1 N2) in Hr'. discriminate.
Qed.

(* the integer a numeral denotes (yp_generator emits str(int(text))) *)
Definition num_value (w : str) : N := fold_left (fun acc c => (acc * 10 + (c - 48))%N) w 0%N.

Lemma num_value_leading_zeros z w : forallb (N.eqb 48) z = true -> num_value (z ++ w) = num_value w.
Proof.
  unfold num_value. rewrite fold_left_app. intros Hz. f_equal.
  induction z as [|c z IH] using rev_ind; [reflexivity|].
  rewrite forallb_app in Hz. apply andb_true_iff in Hz as [Hz Hc]. cbn [forallb] in Hc. rewrite andb_true_r in Hc.
  apply N.eqb_eq in Hc as <-. rewrite fold_left_app. simpl. rewrite (IH Hz). reflexivity.
Qed.

Definition esc (c : N) : str := if N.eqb c 39 then [92; 39]%N else [c].
Definition quote (s : str) : str := 39%N :: flat_map esc s ++ [39%N].

Lemma esc_end_quote s : ~ In 92%N s -> esc_end false (flat_map esc s) = Some false.
Proof.
  induction s as [|c s IH]; intros Hn; [reflexivity|].
  assert (Hs : ~ In 92%N s) by (intros X; apply Hn; right; exact X).
  assert (Hc92 : c <> 92%N) by (intros X; apply Hn; left; auto).
  cbn [flat_map]. unfold esc at 1. destruct (N.eqb_spec c 39) as [->|Hc]; simpl.
  - exact (IH Hs).
  - destruct (N.eqb_spec c 39); [contradiction|]. destruct (N.eqb_spec c 92); [contradiction|]. exact (IH Hs).
Qed.

(* however the text continues, the quoted form of s is the STRING token taken at this position *)
Theorem quoted_atom_munch s rest : ~ In 92%N s ->
  lex_one (quote s ++ rest) = Some (R_STRING, length (quote s)).
Proof.
  intros Hn. unfold quote. cbn [app length]. rewrite <- app_assoc, app_length, Nat.add_1_r.
  exact (lex_one_string _ rest (esc_end_quote s Hn)).
Qed.

Lemma unq_loop_body b : unq_loop (b ++ [39%N]) = filter (fun c => negb (N.eqb c 92)) b.
Proof.
  induction b as [|c r IH]; [reflexivity|].
  destruct r as [|x r'].
  - simpl. destruct (N.eqb c 92); reflexivity.
  - change ((c :: x :: r') ++ [39%N]) with (c :: (x :: r') ++ [39%N]).
    change (unq_loop (c :: (x :: r') ++ [39%N])) with
      (if N.eqb c 92 then unq_loop ((x :: r') ++ [39%N]) else c :: unq_loop ((x :: r') ++ [39%N])).
    rewrite IH. simpl. destruct (N.eqb c 92); reflexivity.
Qed.

Lemma unquote_quote s : ~ In 92%N s -> unquote (quote s) = s.
Proof.
  intros Hn. unfold unquote, quote. cbn [tl]. rewrite unq_loop_body.
  induction s as [|c s IH]; [reflexivity|].
  assert (Hs : ~ In 92%N s) by (intros X; apply Hn; right; exact X).
  assert (Hc92 : c <> 92%N) by (intros X; apply Hn; left; auto).
  simpl. unfold esc at 1. destruct (N.eqb_spec c 39) as [->|Hc]; simpl.
  - rewrite (IH Hs). reflexivity.
  - destruct (N.eqb_spec c 92); [contradiction|]. simpl. rewrite (IH Hs). reflexivity.
Qed.

Theorem quoted_atom_roundtrip s : ~ In 92%N s ->
  lex (quote s) = Some [(R_STRING, quote s)] /\ unquote (quote s) = s.
Proof.
  intros Hn. split; [|apply unquote_quote; exact Hn].
  pose proof (quoted_atom_munch s [] Hn) as H. rewrite app_nil_r in H.
  unfold lex. rewrite (single_item R_STRING (quote s)); [reflexivity|discriminate|exact H].
Qed.

Corollary quoted_atom_literal s k : ~ In 92%N s ->
  v_term (T_atom (A_STRING (quote s))) k = (Some (SAtom s), k).
Proof. intros Hn. simpl. rewrite (unquote_quote s Hn). reflexivity. Qed.

Definition nv (a : N) (w : str) : N := fold_left (fun acc c => (acc * 10 + (c - 48))%N) w a.

Lemma dec_digits_value f : forall n acc, (n < 2 ^ N.of_nat f)%N ->
  nv 0 (dec_digits_fuel f n acc) = nv n acc.
Proof.
  induction f as [|f IH]; intros n acc Hn.
  - simpl in Hn. assert (n = 0%N) by lia. subst. reflexivity.
  - cbn [dec_digits_fuel]. pose proof (N.div_mod n 10 ltac:(lia)) as Hdm.
    pose proof (N.mod_lt n 10 ltac:(lia)) as Hm.
    destruct (N.eqb_spec (n / 10) 0) as [Hq|Hq].
    + unfold nv. cbn [fold_left]. f_equal. clear Hn IH.
        remember (n / 10)%N as q. remember (n mod 10)%N as m. clear Heqq Heqm. lia.
    + rewrite IH.
      * unfold nv. cbn [fold_left]. f_equal. clear Hn IH.
        remember (n / 10)%N as q. remember (n mod 10)%N as m. clear Heqq Heqm. lia.
      * rewrite Nat2N.inj_succ, N.pow_succ_r' in Hn. apply N.div_lt_upper_bound; lia.
Qed.

Theorem num_value_dec n : num_value (dec_of_N n) = n.
Proof.
  unfold dec_of_N. change (num_value ?w) with (nv 0 w). rewrite dec_digits_value; [reflexivity|].
  rewrite Nat2N.inj_succ, N2Nat.id, N.pow_succ_r'. pose proof (N.size_gt n). lia.
Qed.

Lemma dec_of_nat_inj a b : dec_of_nat a = dec_of_nat b -> a = b.
Proof.
  unfold dec_of_nat. intros H. apply (f_equal num_value) in H. rewrite !num_value_dec in H. lia.
Qed.

Lemma anon_name_inj i j : anon_name i = anon_name j -> i = j.
Proof. unfold anon_name. intros H. injection H as H. apply dec_of_nat_inj in H. lia. Qed.

(* an anonymous-variable name is not the text of any VARIABLE token (nor of `_` itself) *)
Theorem anon_not_source i v : rule_lang R_VARIABLE v -> anon_name i <> v.
Proof.
  intros [c [w [-> [Hc _]]]] H. unfold anon_name in H. injection H as <- _. vm_compute in Hc. discriminate.
Qed.

Definition s_dot : str := [46%N].
Definition s_nil : str := [91%N; 93%N].
Definition cons_term (h t : term) : term := TFun s_dot [h; t].

(* the run-time term a literal stands for, given the values of its variables
   (atom(name) / int / functor(name, args) / makelist(items) or ATOM_NIL / listpair(h, t)) *)
Fixpoint sden (rho : str -> term) (t : sterm) : term :=
  match t with
  | SAtom a => TAtom a
  | SNum w => TInt (Z.of_N (num_value w))
  | SVar v => rho v
  | SFun f args => TFun f (map (sden rho) args)
  | SList items => fold_right cons_term (TAtom s_nil) (map (sden rho) items)
  | SPair h t => cons_term (sden rho h) (sden rho t)
  end.

Lemma sden_fold_pairs rho items tl :
  sden rho (fold_pairs items tl) = fold_right cons_term (sden rho tl) (map (sden rho) items).
Proof.
  unfold fold_pairs. induction items as [|x r IH]; cbn [fold_right map sden]; [reflexivity|].
  rewrite IH. reflexivity.
Qed.

(* [t1,...,tn] is [t1,...,tn|[]] *)
Theorem list_literal rho items : sden rho (SList items) = sden rho (fold_pairs items (SAtom s_nil)).
Proof. rewrite sden_fold_pairs. reflexivity. Qed.

(* [t1,...,tn|V] is visited to the '.'/2 chain of the visited items ending in V *)
Theorem list_pattern_folds h rest v k h' k1 rest' k2 :
  v_term h k = (Some h', k1) -> v_terms rest k1 = (Some rest', k2) ->
  let x := fst (v_var v k2) in
  v_term (T_listpair2 h rest v) k = (Some (fold_pairs (h' :: rest') x), snd (v_var v k2)) /\
  forall rho, sden rho (fold_pairs (h' :: rest') x) =
              fold_right cons_term (sden rho x) (map (sden rho) (h' :: rest')).
Proof.
  intros Hh Hr x. split; [|intros rho; apply sden_fold_pairs].
  rewrite v_term_listpair2, Hh, Hr. subst x. destruct (v_var v k2); reflexivity.
Qed.

(* vs is a sequence of variable names in which the anonymous ones carry strictly increasing numbers
   from [k, k'): each number is used at most once *)
Inductive numbered : nat -> nat -> list str -> Prop :=
| nb_nil k k' : k <= k' -> numbered k k' []
| nb_named k k' v vs : is_anon v = false -> numbered k k' vs -> numbered k k' (v :: vs)
| nb_anon k k' i vs : k <= i -> numbered (S i) k' vs -> numbered k k' (anon_name i :: vs).

Lemma numbered_le k k' vs : numbered k k' vs -> k <= k'.
Proof. induction 1; lia. Qed.

Lemma numbered_weaken j k k' vs : numbered k k' vs -> j <= k -> numbered j k' vs.
Proof.
  intros H; revert j; induction H; intros j Hj.
  - constructor; lia.
  - constructor; auto.
  - constructor; [lia|assumption].
Qed.

Lemma numbered_app k k1 k2 a b : numbered k k1 a -> numbered k1 k2 b -> numbered k k2 (a ++ b).
Proof.
  intros Ha Hb. induction Ha; simpl.
  - eapply numbered_weaken; eauto.
  - apply nb_named; auto.
  - apply nb_anon; auto.
Qed.

(* what visiting does to the counter: it never goes back, and where there is an AST its variables are numbered *)
Definition counted (k : nat) (o : option (list str)) (k' : nat) : Prop :=
  match o with Some vs => numbered k k' vs | None => k <= k' end.

Lemma counted_le k o k' : counted k o k' -> k <= k'.
Proof. destruct o; [apply numbered_le | auto]. Qed.

Lemma counted_app k o1 k1 o2 k2 : counted k o1 k1 -> counted k1 o2 k2 -> counted k (opt2 (@app str) o1 o2) k2.
Proof.
  intros H1 H2. pose proof (counted_le _ _ _ H1). pose proof (counted_le _ _ _ H2).
  destruct o1, o2; simpl in *; try lia. eapply numbered_app; eauto.
Qed.

Lemma v_var_counted v k : counted k (Some (sterm_vars (fst (v_var v k)))) (snd (v_var v k)).
Proof.
  unfold v_var. destruct (is_anon v) eqn:E; simpl.
  - apply nb_anon; [lia|]. constructor; lia.
  - apply nb_named; [exact E|]. constructor; lia.
Qed.

Lemma sterm_vars_fold_pairs items x :
  sterm_vars (fold_pairs items x) = flat_map sterm_vars items ++ sterm_vars x.
Proof.
  unfold fold_pairs. induction items as [|a r IH]; cbn [fold_right flat_map sterm_vars app]; [reflexivity|].
  rewrite IH, app_assoc. reflexivity.
Qed.

Definition term_counted (t : cterm) : Prop :=
  forall k, counted k (option_map sterm_vars (fst (v_term t k))) (snd (v_term t k)).

Lemma v_terms_counted l : Forall term_counted l ->
  forall k, counted k (option_map (flat_map sterm_vars) (fst (v_terms l k))) (snd (v_terms l k)).
Proof.
  induction 1 as [|t l Ht _ IH]; intros k; cbn [v_terms]; [simpl; constructor; lia|].
  specialize (Ht k). destruct (v_term t k) as [x' k1]. specialize (IH k1). destruct (v_terms l k1) as [r' k2].
  (* C is the goal once it is known which of the two visits gave an AST *)
  pose proof (counted_app _ _ _ _ _ Ht IH) as C. destruct x', r'; exact C.
Qed.

Lemma v_term_counted : forall t, term_counted t.
Proof.
  induction t as [a|a args IH|a n|v|op t IH|l op r IHl IHr|op l r IHl IHr|t IH|items IH|h v IH|h rest v IHh IHr]
    using cterm_ind'; intros k.
  - destruct a; simpl; constructor; lia.
  - rewrite v_term_functor. pose proof (v_terms_counted args IH k) as C. destruct (v_terms args k) as [args' k1].
    destruct a, args'; exact C.
  - simpl. lia.
  - simpl. pose proof (v_var_counted v k) as C. destruct (v_var v k). exact C.
  - simpl. specialize (IH k). destruct (v_term t k) as [t' k1]. destruct t'; simpl in *; [rewrite app_nil_r|]; exact IH.
  - simpl. specialize (IHl k). destruct (v_term l k) as [l' k1]. specialize (IHr k1). destruct (v_term r k1) as [r' k2].
    pose proof (counted_app _ _ _ _ _ IHl IHr) as C. destruct l', r'; simpl in *; [rewrite app_nil_r|..]; exact C.
  - simpl. specialize (IHl k). destruct (v_term l k) as [l' k1]. specialize (IHr k1). destruct (v_term r k1) as [r' k2].
    pose proof (counted_app _ _ _ _ _ IHl IHr) as C. destruct l', r'; simpl in *; [rewrite app_nil_r|..]; exact C.
  - simpl. apply IH.
  - rewrite v_term_list. pose proof (v_terms_counted items IH k) as C. destruct (v_terms items k) as [l k1].
    destruct l; exact C.
  - simpl. specialize (IH k). destruct (v_term h k) as [h' k1]. pose proof (v_var_counted v k1) as Cv.
    destruct (v_var v k1) as [x k2]. pose proof (counted_app _ _ _ _ _ IH Cv) as C. destruct h'; exact C.
  - rewrite v_term_listpair2. specialize (IHh k). destruct (v_term h k) as [h' k1].
    pose proof (v_terms_counted rest IHr k1) as Cr. destruct (v_terms rest k1) as [l k2].
    pose proof (v_var_counted v k2) as Cv. destruct (v_var v k2) as [x k3].
    pose proof (counted_app _ _ _ _ _ IHh (counted_app _ _ _ _ _ Cr Cv)) as C.
    destruct h', l; try exact C. cbn [opt2 option_map fst snd]. rewrite sterm_vars_fold_pairs. cbn [flat_map]. rewrite <- app_assoc. exact C.
Qed.

Lemma v_term_numbered t k st k' : v_term t k = (Some st, k') -> numbered k k' (sterm_vars st).
Proof. intros E. pose proof (v_term_counted t k) as C. rewrite E in C. exact C. Qed.

(* the counter never goes back, also when the term has no AST *)
Lemma v_term_le t k : k <= snd (v_term t k).
Proof. exact (counted_le _ _ _ (v_term_counted t k)). Qed.

Definition clause_vars (c : clause) : list str := flat_map sterm_vars (c_args c) ++ body_vars (c_body c).
Definition prog_vars (p : program) : list str := flat_map clause_vars p.

Lemma v_callable_numbered t k f args k1 : v_callable t k = Some (f, args, k1) ->
  numbered k k1 (flat_map sterm_vars args).
Proof.
  unfold v_callable. destruct (callable_shape t); [|discriminate].
  destruct (v_term t k) as [st k'] eqn:E. destruct st as [st|]; [|discriminate].
  pose proof (v_term_numbered t k st k' E) as Hn.
  destruct st; try discriminate; intros H; injection H as <- <- <-; simpl in *; auto.
Qed.

Lemma v_pe_numbered p : forall k b k1, v_pe p k = Some (b, k1) -> numbered k k1 (body_vars b).
Proof.
  induction p as [sp|a IH|a IHa b IHb|a IHa b IHb|a IHa b IHb|a IH]; intros k b0 k1 H; simpl in H.
  - destruct sp; simpl in H; try (injection H as <- <-; constructor; lia).
    destruct (v_callable t k) as [[[f args] k']|] eqn:E; [|discriminate].
    injection H as <- <-. exact (v_callable_numbered t k f args k' E).
  - destruct (v_pe a k) as [[a' k']|] eqn:E; [|discriminate]. injection H as <- <-. simpl. eauto.
  - destruct (v_pe a k) as [[a' k']|] eqn:Ea; [|discriminate]. destruct (v_pe b k') as [[b' k'']|] eqn:Eb; [|discriminate].
    injection H as <- <-. simpl. eapply numbered_app; eauto.
  - destruct (v_pe a k) as [[a' k']|] eqn:Ea; [|discriminate]. destruct (v_pe b k') as [[b' k'']|] eqn:Eb; [|discriminate].
    injection H as <- <-. simpl. eapply numbered_app; eauto.
  - destruct (v_pe a k) as [[a' k']|] eqn:Ea; [|discriminate]. destruct (v_pe b k') as [[b' k'']|] eqn:Eb; [|discriminate].
    injection H as <- <-. simpl. eapply numbered_app; eauto.
  - eauto.
Qed.

Lemma v_head_numbered sp k f args k1 : v_head sp k = Some (f, args, k1) -> numbered k k1 (flat_map sterm_vars args).
Proof.
  destruct sp; simpl; try discriminate.
  destruct (v_callable t k) as [[[f' args'] k']|] eqn:E; [|discriminate].
  destruct (valid_pred_name f'); [|discriminate]. intros H; injection H as <- <- <-.
  eapply v_callable_numbered; eauto.
Qed.

Lemma v_clause_numbered c k cl k1 : v_clause c k = Some (cl, k1) -> numbered k k1 (clause_vars cl).
Proof.
  destruct c as [h|h b]; simpl.
  - destruct (v_head h k) as [[[f args] k']|] eqn:E; [|discriminate]. intros H; injection H as <- <-.
    unfold clause_vars; simpl. rewrite app_nil_r. eapply v_head_numbered; eauto.
  - destruct (v_head h k) as [[[f args] k']|] eqn:E; [|discriminate].
    destruct (v_pe b k') as [[b' k'']|] eqn:Eb; [|discriminate]. intros H; injection H as <- <-.
    unfold clause_vars; simpl. eapply numbered_app; [eapply v_head_numbered; eauto | eapply v_pe_numbered; eauto].
Qed.

(* over one whole compilation, directives included, the anonymous variables of the program
   carry strictly increasing numbers: no two occurrences of `_` share a variable, in one clause or across clauses *)
Theorem anon_fresh cst : forall k prog k', v_program cst k = Some (prog, k') -> numbered k k' (prog_vars prog).
Proof.
  induction cst as [|c cst IH]; intros k prog k' H; simpl in H.
  - injection H as <- <-. constructor; lia.
  - destruct c as [cc|sp].
    + destruct (v_clause cc k) as [[cl k1]|] eqn:E; [|discriminate].
      destruct (v_program cst k1) as [[l k2]|] eqn:E1; [|discriminate].
      injection H as <- <-. unfold prog_vars; simpl.
      eapply numbered_app; [eapply v_clause_numbered; eauto | eapply IH; eauto].
    + destruct (v_directive sp k) as [k1|] eqn:E; [|discriminate].
      eapply numbered_weaken; [eapply IH; eauto|].
      destruct sp; simpl in E; try (injection E as <-; lia).
      destruct (callable_shape t); [|discriminate]. injection E as <-. apply v_term_le.
Qed.
