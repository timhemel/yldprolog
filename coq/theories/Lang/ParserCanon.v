(* NORMALISATION of derivation trees of prolog.g4: every tree has a canonical tree (Lang/ParserComplete.v) with
   the same yield.  Hence the parser accepts every sentence of the grammar (`parse_complete_bound`). *)
From Coq Require Import List NArith Arith Bool Lia.
Import ListNotations.
From YP Require Import Base.Str Lang.Lexer Lang.Cst Lang.Parser Lang.ParserSound Lang.ParserMono Lang.ParserComplete.

(* l BINOP r with r a left-nested chain p1 o2 p2 ... : hang l under the leftmost primary of r *)
Fixpoint graft (l : cterm) (op : str) (r : cterm) : cterm :=
  match r with T_binop r1 o2 r2 => T_binop (graft l op r1) o2 r2 | _ => T_binop l op r end.
(* UNOP t with t a chain: the operator applies to the leftmost primary *)
Fixpoint push_unop (op : str) (t : cterm) : cterm :=
  match t with T_binop a o b => T_binop (push_unop op a) o b | _ => T_unop op t end.

Fixpoint canon_term (t : cterm) : cterm :=
  match t with
  | T_atom _ | T_arity _ _ | T_var _ => t
  | T_functor a args => T_functor a (map canon_term args)
  | T_unop op t => push_unop op (canon_term t)
  | T_binop l op r => graft (canon_term l) op (canon_term r)
  | T_binop_prefix op l r => T_binop_prefix op (canon_term l) (canon_term r)
  | T_paren t => T_paren (canon_term t)
  | T_list items => T_list (map canon_term items)
  | T_listpair1 h v => T_listpair1 (canon_term h) v
  | T_listpair2 h rest v => T_listpair2 (canon_term h) (map canon_term rest) v
  end.

Lemma ctb_binop_intro l op r : ctb l = true -> ctb r = true -> is_binop r = false -> ctb (T_binop l op r) = true.
Proof. intros H H0 H1. cbn [ctb]. rewrite H, H0, H1. reflexivity. Qed.
Lemma ctb_unop_intro op t : ctb t = true -> is_binop t = false -> ctb (T_unop op t) = true.
Proof. intros H H1. cbn [ctb]. rewrite H, H1. reflexivity. Qed.

Lemma graft_spec l op r : ctb l = true -> ctb r = true ->
  ctb (graft l op r) = true /\ y_term (graft l op r) = y_term l ++ (R_BINOP, op) :: y_term r.
Proof.
  intros Cl. induction r; intros Cr; cbn [graft]; try (split; [apply ctb_binop_intro; auto | reflexivity]).
  cbn [ctb] in Cr. apply andb_true_iff in Cr as [Cr Hb]. apply andb_true_iff in Cr as [C1 C2].
  destruct (IHr1 C1) as [Cg Yg]. split.
  - cbn [ctb]. rewrite Cg, C2, Hb. reflexivity.
  - cbn [y_term]. rewrite Yg. rewrite <- app_assoc. reflexivity.
Qed.

Lemma push_unop_spec op t : ctb t = true ->
  ctb (push_unop op t) = true /\ y_term (push_unop op t) = (R_UNOP, op) :: y_term t.
Proof.
  induction t; intros C; cbn [push_unop]; try (split; [apply ctb_unop_intro; auto | reflexivity]).
  cbn [ctb] in C. apply andb_true_iff in C as [C Hb]. apply andb_true_iff in C as [C1 C2].
  destruct (IHt1 C1) as [Cg Yg]. split.
  - cbn [ctb]. rewrite Cg, C2, Hb. reflexivity.
  - cbn [y_term]. rewrite Yg. reflexivity.
Qed.

Lemma canon_list_spec l : Forall (fun t => ctb (canon_term t) = true /\ y_term (canon_term t) = y_term t) l ->
  forallb ctb (map canon_term l) = true /\ map y_term (map canon_term l) = map y_term l.
Proof.
  induction 1 as [|t l [Ct Yt] _ [IH1 IH2]]; [auto|]. cbn [map forallb]. rewrite Ct, IH1, Yt, IH2. auto.
Qed.

Theorem canon_term_spec : forall t, ctb (canon_term t) = true /\ y_term (canon_term t) = y_term t.
Proof.
  induction t as [a|a args IH|a m|v|op t IH|l op r IHl IHr|op l r IHl IHr|t IH|items IH|h v IH|h rest0 v IHh IHr]
    using cterm_ind'; cbn [canon_term]; auto.
  - destruct (canon_list_spec _ IH) as [C Y]. cbn [ctb y_term]. rewrite C, Y. auto.
  - destruct IH as [C Y]. destruct (push_unop_spec op _ C) as [C' Y']. rewrite Y', Y. auto.
  - destruct IHl as [Cl Yl]. destruct IHr as [Cr Yr]. destruct (graft_spec _ op _ Cl Cr) as [C' Y'].
    rewrite Y', Yl, Yr. auto.
  - destruct IHl as [Cl Yl]. destruct IHr as [Cr Yr]. cbn [ctb y_term]. rewrite Cl, Cr, Yl, Yr. auto.
  - destruct IH as [C Y]. cbn [ctb y_term]. rewrite C, Y. auto.
  - destruct (canon_list_spec _ IH) as [C Y]. cbn [ctb y_term]. rewrite C, Y. auto.
  - destruct IH as [C Y]. cbn [ctb y_term]. rewrite C, Y. auto.
  - destruct IHh as [Ch Yh]. destruct (canon_list_spec _ IHr) as [C Y]. cbn [ctb y_term]. rewrite Ch, C, Yh, Y. auto.
Qed.

Definition mk (q : nat) (l r : pexpr) : pexpr :=
  match q with 4 => PE_and l r | 3 => PE_if l r | _ => PE_or l r end.
Definition optok (q : nat) : tok :=
  match q with 4 => fx R_COMMA | 3 => fx R_ARROW | _ => fx R_SEMI end.

(* l OP_q r for canonical l and r: the root is the leftmost operator of lowest precedence *)
Fixpoint join (q : nat) (l : pexpr) {struct l} : pexpr -> pexpr :=
  fix join_r (r : pexpr) {struct r} : pexpr :=
    if (lvl l <=? q) && (lvl l <=? lvl r) then
      match l with
      | PE_and l1 l2 => PE_and l1 (join q l2 r)
      | PE_if l1 l2 => PE_if l1 (join q l2 r)
      | PE_or l1 l2 => PE_or l1 (join q l2 r)
      | _ => mk q l r
      end
    else if q <=? lvl r then mk q l r
    else
      match r with
      | PE_and r1 r2 => PE_and (join_r r1) r2
      | PE_if r1 r2 => PE_if (join_r r1) r2
      | PE_or r1 r2 => PE_or (join_r r1) r2
      | _ => mk q l r
      end.

Lemma join_eq q l r : join q l r =
    if (lvl l <=? q) && (lvl l <=? lvl r) then
      match l with
      | PE_and l1 l2 => PE_and l1 (join q l2 r)
      | PE_if l1 l2 => PE_if l1 (join q l2 r)
      | PE_or l1 l2 => PE_or l1 (join q l2 r)
      | _ => mk q l r
      end
    else if q <=? lvl r then mk q l r
    else
      match r with
      | PE_and r1 r2 => PE_and (join q l r1) r2
      | PE_if r1 r2 => PE_if (join q l r1) r2
      | PE_or r1 r2 => PE_or (join q l r1) r2
      | _ => mk q l r
      end.
Proof. destruct l; destruct r; reflexivity. Qed.

Lemma lvl_mk {q} l r : q = 2 \/ q = 3 \/ q = 4 -> lvl (mk q l r) = q.
Proof. intros [ -> | [ -> | -> ] ]; reflexivity. Qed.

Lemma y_pe_mk {q} l r : q = 2 \/ q = 3 \/ q = 4 -> y_pe (mk q l r) = y_pe l ++ optok q :: y_pe r.
Proof. intros [ -> | [ -> | -> ] ]; reflexivity. Qed.

Lemma cpb_mk {q l r} : q = 2 \/ q = 3 \/ q = 4 ->
  cpb (mk q l r) = true <-> cpb l = true /\ cpb r = true /\ q < lvl l /\ q <= lvl r.
Proof.
  intros [ -> | [ -> | -> ] ]; cbn [mk cpb]; rewrite !andb_true_iff, Nat.ltb_lt, Nat.leb_le; tauto.
Qed.

Lemma infix_inv e : lvl e <= 4 -> exists p e1 e2, (p = 2 \/ p = 3 \/ p = 4) /\ e = mk p e1 e2.
Proof.
  destruct e as [sp|a|l r|l r|l r|a]; cbn [lvl]; intros H; try lia.
  - exists 4, l, r. auto.
  - exists 3, l, r. auto.
  - exists 2, l, r. auto.
Qed.

(* the three ways join goes on: into the right operand of l (l binds loosest), l OP_q r itself, into the left
   operand of r (r binds loosest) *)
Lemma join_cases q l r : q = 2 \/ q = 3 \/ q = 4 ->
  (exists p l1 l2, (p = 2 \/ p = 3 \/ p = 4) /\ l = mk p l1 l2 /\ p <= q /\ p <= lvl r /\
     join q l r = mk p l1 (join q l2 r)) \/
  (q < lvl l /\ q <= lvl r /\ join q l r = mk q l r) \/
  (exists p r1 r2, (p = 2 \/ p = 3 \/ p = 4) /\ r = mk p r1 r2 /\ p < q /\ p < lvl l /\
     join q l r = mk p (join q l r1) r2).
Proof.
  intros Hq. rewrite join_eq. destruct ((lvl l <=? q) && (lvl l <=? lvl r)) eqn:E.
  - apply andb_true_iff in E as [H1 H2]. apply Nat.leb_le in H1, H2. left.
    destruct (infix_inv l ltac:(lia)) as [p [l1 [l2 [Hp ->]]]]. exists p, l1, l2.
    rewrite (lvl_mk l1 l2 Hp) in H1, H2.
    repeat split; try assumption. destruct Hp as [ -> | [ -> | -> ] ]; reflexivity.
  - apply andb_false_iff in E. rewrite !Nat.leb_gt in E. right.
    destruct (Nat.leb_spec q (lvl r)) as [H3|H3].
    + left. repeat split; [lia | exact H3].
    + right. destruct (infix_inv r ltac:(lia)) as [p [r1 [r2 [Hp ->]]]]. exists p, r1, r2.
      rewrite (lvl_mk r1 r2 Hp) in *.
      repeat split; try assumption; [lia|]. destruct Hp as [ -> | [ -> | -> ] ]; reflexivity.
Qed.

(* that the level of join q l r is the least of the three is what the induction needs: the result of the inner
   join becomes an operand and must bind tighter than the root above it *)
Definition Jspec (q : nat) (l r : pexpr) : Prop :=
  cpb l = true -> cpb r = true ->
  cpb (join q l r) = true /\ lvl (join q l r) = Nat.min (lvl l) (Nat.min q (lvl r)) /\
  y_pe (join q l r) = y_pe l ++ optok q :: y_pe r.

Lemma join_spec q : q = 2 \/ q = 3 \/ q = 4 -> forall l r, Jspec q l r.
Proof.
  intros Hq l r. remember (length (y_pe l) + length (y_pe r)) as n eqn:Hn.
  assert (Hle : length (y_pe l) + length (y_pe r) <= n) by lia. clear Hn.
  revert l r Hle. induction n as [|n IH]; intros l r Hle Cl Cr.
  { pose proof (y_pe_len l). lia. }
  destruct (join_cases q l r Hq)
    as [(p & l1 & l2 & Hp & -> & H1 & H2 & ->) | [(H1 & H2 & ->) | (p & r1 & r2 & Hp & -> & H1 & H2 & ->)]].
  - (* the root is the root of l *)
    apply (cpb_mk Hp) in Cl as (Cl1 & Cl2 & Hl1 & Hl2).
    rewrite y_pe_mk, app_length in Hle by exact Hp. cbn [length] in Hle.
    destruct (IH l2 r) as (Cj & Lj & Yj); [lia | exact Cl2 | exact Cr |].
    rewrite !lvl_mk, !y_pe_mk by exact Hp.
    split; [apply (cpb_mk Hp); repeat split; try assumption; lia|].
    split; [lia|]. rewrite Yj, <- app_assoc. reflexivity.
  - (* the root is the new operator *)
    rewrite lvl_mk, y_pe_mk by exact Hq.
    split; [apply (cpb_mk Hq); repeat split; assumption|]. split; [lia|reflexivity].
  - (* the root is the root of r *)
    apply (cpb_mk Hp) in Cr as (Cr1 & Cr2 & Hr1 & Hr2).
    rewrite y_pe_mk, app_length in Hle by exact Hp. cbn [length] in Hle.
    destruct (IH l r1) as (Cj & Lj & Yj); [lia | exact Cl | exact Cr1 |].
    rewrite !lvl_mk, !y_pe_mk by exact Hp.
    split; [apply (cpb_mk Hp); repeat split; try assumption; lia|].
    split; [lia|]. rewrite Yj, <- app_assoc. reflexivity.
Qed.

(* \+ e with e a tree of infix operators: the negation applies to the leftmost primary *)
Fixpoint push_not (e : pexpr) : pexpr :=
  match e with
  | PE_and l r => PE_and (push_not l) r
  | PE_if l r => PE_if (push_not l) r
  | PE_or l r => PE_or (push_not l) r
  | _ => PE_not e
  end.

Lemma cpb_not_intro e : cpb e = true -> lvl e = 6 -> cpb (PE_not e) = true.
Proof. intros C L. cbn [cpb]. rewrite C, L. reflexivity. Qed.

Definition Nspec (e : pexpr) : Prop := cpb e = true ->
  cpb (push_not e) = true /\ lvl (push_not e) = lvl e /\ y_pe (push_not e) = fx R_NOT :: y_pe e.

Lemma push_not_infix p l r : p = 2 \/ p = 3 \/ p = 4 -> Nspec l -> Nspec (mk p l r).
Proof.
  intros Hp IHl C.
  assert (E : push_not (mk p l r) = mk p (push_not l) r) by (destruct Hp as [ -> | [ -> | -> ] ]; reflexivity).
  apply (cpb_mk Hp) in C as (Cl & Cr & H1 & H2). destruct (IHl Cl) as (Cj & Lj & Yj).
  rewrite E, !lvl_mk, !y_pe_mk, Yj by exact Hp.
  split; [apply (cpb_mk Hp); repeat split; try assumption; lia|]. split; reflexivity.
Qed.

Lemma push_not_spec e : Nspec e.
Proof.
  induction e as [sp|a _|l IHl r _|l IHl r _|l IHl r _|a _];
    try (intros C; cbn [push_not]; split; [apply cpb_not_intro; [exact C | reflexivity] | split; reflexivity]).
  - apply (push_not_infix 4 l r); auto.
  - apply (push_not_infix 3 l r); auto.
  - apply (push_not_infix 2 l r); auto.
Qed.

Definition canon_simple (sp : simplepred) : simplepred :=
  match sp with SP_term t => SP_term (canon_term t) | _ => sp end.

Lemma canon_simple_spec sp : csimple (canon_simple sp) = true /\ y_simple (canon_simple sp) = y_simple sp.
Proof. destruct sp; cbn; auto. apply canon_term_spec. Qed.

Fixpoint canon_pe (e : pexpr) : pexpr :=
  match e with
  | PE_simple sp => PE_simple (canon_simple sp)
  | PE_not a => push_not (canon_pe a)
  | PE_and l r => join 4 (canon_pe l) (canon_pe r)
  | PE_if l r => join 3 (canon_pe l) (canon_pe r)
  | PE_or l r => join 2 (canon_pe l) (canon_pe r)
  | PE_paren a =>
      match canon_pe a with
      | PE_simple (SP_term t) => PE_simple (SP_term (T_paren t))     (* the bracketed text is a term *)
      | a' => PE_paren a'
      end
  end.

Theorem canon_pe_spec : forall e, cpb (canon_pe e) = true /\ y_pe (canon_pe e) = y_pe e.
Proof.
  induction e as [sp|a [Ca Ya]|l [Cl Yl] r [Cr Yr]|l [Cl Yl] r [Cr Yr]|l [Cl Yl] r [Cr Yr]|a [Ca Ya]]; cbn [canon_pe].
  - destruct (canon_simple_spec sp) as [C Y]. cbn [cpb y_pe]. rewrite Y. auto.
  - destruct (push_not_spec _ Ca) as [C [_ Y]]. rewrite Y, Ya. auto.
  - destruct (join_spec 4 ltac:(auto) _ _ Cl Cr) as [C [_ Y]]. rewrite Y, Yl, Yr. auto.
  - destruct (join_spec 3 ltac:(auto) _ _ Cl Cr) as [C [_ Y]]. rewrite Y, Yl, Yr. auto.
  - destruct (join_spec 2 ltac:(auto) _ _ Cl Cr) as [C [_ Y]]. rewrite Y, Yl, Yr. auto.
  - cbn [y_pe]. rewrite <- Ya. destruct (canon_pe a) as [[| | |t]| | | | |] eqn:E;
      (split; [cbn [cpb csimple ctb is_termlike negb]; cbn [cpb csimple ctb] in Ca; rewrite ?Ca; reflexivity | reflexivity]).
Qed.

Definition canon_clause (c : cclause) : cclause :=
  match c with C_fact h => C_fact (canon_simple h) | C_rule h b => C_rule (canon_simple h) (canon_pe b) end.
Definition canon_cord (c : cord) : cord :=
  match c with CD_clause c => CD_clause (canon_clause c) | CD_directive sp => CD_directive (canon_simple sp) end.
Definition canon_program (p : cprogram) : cprogram := map canon_cord p.

Lemma canon_cord_spec c : ccordb (canon_cord c) = true /\ y_cord (canon_cord c) = y_cord c.
Proof.
  destruct c as [[h|h b]|sp]; cbn [canon_cord canon_clause ccordb cclauseb y_cord y_clause];
    destruct (canon_simple_spec h) as [Ch Yh] || destruct (canon_simple_spec sp) as [Ch Yh]; rewrite ?Ch, ?Yh; auto.
  destruct (canon_pe_spec b) as [Cb Yb]. rewrite Cb, Yb. auto.
Qed.

Theorem canon_program_spec p : canonical (canon_program p) = true /\ yield (canon_program p) = yield p.
Proof.
  unfold canonical, canon_program, yield. induction p as [|c p [IH1 IH2]]; [auto|].
  destruct (canon_cord_spec c) as [C Y]. cbn [map forallb flat_map]. rewrite C, IH1, Y, IH2. auto.
Qed.

Lemma clauses_le_tokens (p : cprogram) : length p <= length (yield p).
Proof.
  unfold yield. induction p as [|c p IH]; [simpl; lia|]. cbn [flat_map length]. rewrite app_length.
  destruct (y_cord_cons c) as [t0 [r0 ->]]. simpl. lia.
Qed.

(* every sentence of the grammar -- the yield of ANY derivation tree -- is accepted from depth fuel 2 * #tokens + 4
   on, and the tree returned is the canonical tree of the sentence *)
Theorem parse_complete_bound p :
  evb (2 * length (yield p) + 4) (fun n => p_program (length (yield p)) n (yield p)) (canon_program p).
Proof.
  destruct (canon_program_spec p) as [C Y].
  assert (Hm : length (canon_program p) <= length (yield p)).
  { unfold canon_program. rewrite map_length. apply clauses_le_tokens. }
  pose proof (program_complete_bound (canon_program p) C (length (yield p)) Hm) as H. rewrite Y in H. exact H.
Qed.

(* PARSE_COMPLETE for every depth fuel from some point on *)
Theorem parse_complete_fuel p :
  ev (fun n => p_program (length (yield p)) n (yield p)) (canon_program p).
Proof. eapply evb_ev. apply parse_complete_bound. Qed.

(* idempotent on what the parser builds *)
Corollary canon_of_canonical p : canonical p = true -> canon_program p = p.
Proof.
  intros C. destruct (canon_program_spec p) as [C' Y]. apply canonical_unique; assumption.
Qed.
