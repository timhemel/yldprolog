(* C10 at the level of source texts: the front end (lexer + parser + end-of-input test + visitor) as a recogniser.

   SENTENCE.  A text s is a sentence of the documented grammar iff it has a maximal-munch tokenisation
   (Lang/Lexer.v: `lexes s items []`, unique by lex_complete) whose non-skipped tokens are the yield of some derivation
   tree of prolog.g4 (Lang/Cst.v) -- any tree, also the readings that ANTLR's precedence rules do not select. *)
From Coq Require Import String.
From Coq Require Import List NArith Arith Bool.
Import ListNotations.
From YP Require Import Base.Str Lang.Ast Lang.Lexer Lang.Cst Lang.Parser Lang.ParserSound Lang.Unquote Lang.Front
  Lang.ParserMono Lang.ParserComplete Lang.ParserCanon Lang.ParserFuel Lang.FrontCompile.

Definition sentence (s : str) : Prop :=
  exists items (p : cprogram), lexes s items [] /\ yield p = map norm (filter keep items).

(* FRONT_SPEC: the front end returns prog exactly when s is a sentence and prog is the visitor's image of the
   canonical derivation tree of s *)
Theorem front_spec s prog : front s = Some prog <->
  exists items cst k, lexes s items [] /\ canonical cst = true /\ yield cst = map norm (filter keep items) /\
                      v_program cst 0 = Some (prog, k).
Proof.
  unfold front. split.
  - intros H. destruct (lex s) as [ts|] eqn:El; [|discriminate].
    destruct (parse ts) as [cst|] eqn:Ep; [|discriminate].
    destruct (v_program cst 0) as [[p k]|] eqn:Ev; [|discriminate]. injection H as <-.
    apply lex_exact in El as [items [Hl [_ [_ ->]]]]. apply parse_spec in Ep as [C Y].
    exists items, cst, k. auto.
  - intros [items [cst [k [Hl [C [Y Hv]]]]]]. rewrite (lex_complete s items Hl).
    assert (Ep : parse (filter keep items) = Some cst) by (apply parse_spec; auto).
    rewrite Ep, Hv. reflexivity.
Qed.

(* REJECTS_NON_SENTENCES: a text that is not a complete sentence of the grammar is refused -- whatever the reason
   (a character outside the lexicon, an unterminated quoted atom, a comment without line break, unbalanced brackets,
   a missing full stop, stray or repeated separators, anything left over after the last clause) *)
Theorem front_rejects_non_sentences s : ~ sentence s -> front s = None.
Proof.
  intros Hn. unfold front. destruct (lex s) as [ts|] eqn:El; [|reflexivity].
  apply lex_exact in El as [items [Hl [_ [_ ->]]]].
  assert (Ep : parse (filter keep items) = None).
  { apply parse_none_spec. intros p Y. apply Hn. exists items, p. auto. }
  rewrite Ep. reflexivity.
Qed.

(* ... and a sentence is refused only by the visitor (head or goal that is not callable, name/arity, ...) *)
Theorem front_none_spec s : front s = None <->
  (~ sentence s) \/
  (exists items cst, lexes s items [] /\ canonical cst = true /\ yield cst = map norm (filter keep items) /\
                     v_program cst 0 = None).
Proof.
  split.
  - intros H. unfold front in H. destruct (lex s) as [ts|] eqn:El.
    + pose proof El as El'. apply lex_exact in El' as [items [Hl [_ [_ ->]]]].
      destruct (parse (filter keep items)) as [cst|] eqn:Ep.
      * right. apply parse_spec in Ep as [C Y]. exists items, cst.
        destruct (v_program cst 0) as [[p k]|]; [discriminate|]. auto.
      * left. intros [items' [p [Hl' Y]]].
        assert (E : filter keep items' = filter keep items).
        { pose proof (lex_complete s items' Hl') as E1. rewrite El in E1. injection E1 as E1. auto. }
        rewrite E in Y. apply (proj1 (parse_none_spec _) Ep p Y).
    + left. intros [items [p [Hl _]]]. rewrite (lex_complete s items Hl) in El. discriminate.
  - intros [Hn|[items [cst [Hl [C [Y Hv]]]]]]; [apply front_rejects_non_sentences; exact Hn|].
    unfold front. rewrite (lex_complete s items Hl).
    assert (Ep : parse (filter keep items) = Some cst) by (apply parse_spec; auto).
    rewrite Ep, Hv. reflexivity.
Qed.

(* the same for the whole compiler model (front end + compile_program + the compiler's own refusal) *)

Theorem compile_front_rejects_non_sentences s : ~ sentence s -> compile_front s = None.
Proof. intros H. unfold compile_front. rewrite (front_rejects_non_sentences s H). reflexivity. Qed.
