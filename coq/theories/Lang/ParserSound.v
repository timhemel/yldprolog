(* PARSE_YIELD: whatever the parser accepts is a derivation tree of prolog.g4 whose leaves are exactly
   the tokens it was given, in order -- no token is skipped, none is left over, none is invented. *)
From Coq Require Import List NArith Arith Bool.
Import ListNotations.
From YP Require Import Base.Str Lang.Lexer Lang.Cst Lang.Parser.

Definition y_tail (l : list cterm) : list tok := flat_map (fun t => fx R_COMMA :: y_term t) l.

Lemma sep_commas_cons t l : sep_commas (map y_term (t :: l)) = y_term t ++ y_tail l.
Proof.
  revert t; induction l as [|u l IH]; intros t; simpl.
  - rewrite app_nil_r; reflexivity.
  - simpl in IH. rewrite IH. reflexivity.
Qed.

(* o returns only trees whose yield is what it took from the input inp *)
Definition yield_ok {A} (y : A -> list tok) (inp : list tok) (o : option (A * list tok)) : Prop :=
  forall v r, o = Some (v, r) -> inp = y v ++ map norm r.

(* The input is kept in the form  read ++ map norm rest.  Each way the parser's bodies go on moves tokens from
   rest to read: a call that is itself yield_ok, `expect`, a test of the next token's kind followed by `tl`. *)
Section Rules.
  Context {A : Type} (y : A -> list tok).

  Lemma y_none inp : yield_ok y inp None.
  Proof. intros v r H. discriminate. Qed.

  Lemma y_ret pre v r : pre = y v -> yield_ok y (pre ++ map norm r) (Some (v, r)).
  Proof. intros -> v' r' H. injection H as <- <-. reflexivity. Qed.

  Lemma y_conv pre pre' rest o : pre = pre' -> yield_ok y (pre' ++ rest) o -> yield_ok y (pre ++ rest) o.
  Proof. intros ->. auto. Qed.

  Lemma y_bind {B} (y1 : B -> list tok) e ts pre (f : B -> list tok -> option (A * list tok)) :
    yield_ok y1 (map norm ts) e -> (forall x r, yield_ok y ((pre ++ y1 x) ++ map norm r) (f x r)) ->
    yield_ok y (pre ++ map norm ts) (do '(x, r) <- e; f x r).
  Proof.
    intros He Hf v r0 H. destruct e as [[x r]|]; [|discriminate].
    rewrite (He x r eq_refl), app_assoc. exact (Hf x r v r0 H).
  Qed.

  Lemma y_expect k ts pre (f : str -> list tok -> option (A * list tok)) :
    (forall x r, yield_ok y ((pre ++ [norm (k, x)]) ++ map norm r) (f x r)) ->
    yield_ok y (pre ++ map norm ts) (do '(x, r) <- expect k ts; f x r).
  Proof.
    intros Hf v r0 H. destruct ts as [|[k' x] r]; [discriminate|]. cbn [expect] in H.
    destruct (rname_eqb k k') eqn:E; [|discriminate]. apply rname_eqb_eq in E as <-.
    specialize (Hf x r). cbn [map]. rewrite <- app_assoc in Hf. exact (Hf v r0 H).
  Qed.

  (* a branch taken only when the next token has kind k, and that goes on from `tl` *)
  Lemma y_is_k k (c : bool) ts pre u v :
    (c = true -> is_k k ts = true) ->
    (forall x r, ts = (k, x) :: r -> yield_ok y ((pre ++ [norm (k, x)]) ++ map norm r) u) ->
    yield_ok y (pre ++ map norm ts) v -> yield_ok y (pre ++ map norm ts) (if c then u else v).
  Proof.
    intros Hc Hu Hv. destruct c; [|exact Hv]. specialize (Hc eq_refl).
    destruct ts as [|[k' x] r]; [discriminate|]. apply rname_eqb_eq in Hc as <-.
    specialize (Hu x r eq_refl). cbn [map]. rewrite <- app_assoc in Hu. exact Hu.
  Qed.

  Lemma y_if (c : bool) inp u v : yield_ok y inp u -> yield_ok y inp v -> yield_ok y inp (if c then u else v).
  Proof. destruct c; auto. Qed.
End Rules.

(* read = the yield of the tree returned: the yields are unfolded and the appends nested to the right *)
Ltac same_yield :=
  cbn [y_term y_atom y_simple y_pe y_clause y_cord norm fst has_text app]; unfold fx;
  rewrite ?sep_commas_cons; unfold y_tail; cbn [flat_map]; unfold fx;
  rewrite ?app_nil_r; repeat (rewrite <- app_assoc; cbn [app]); reflexivity.

(* One step along the body of a parser function, chosen by the shape of the option expression o in the goal
   `yield_ok y (read ++ map norm rest) o` (an input not yet of that form gets an empty `read` first):
     None                        y_none
     Some (v, r)                 y_ret: read is the yield of v
     do .. <- expect k ts; ..    y_expect
     do .. <- e; ..              y_bind, e being a call covered by a hypothesis
     if c then u else v          y_is_k if u goes on from `tl` (c is `is_k k ts` or `is_k k ts && b`), y_if otherwise
     match l with [] | _ :: _    both cases
     a call in tail position     y_conv: read is the yield of its accumulator, then the hypothesis about the call *)
Ltac yield_step :=
  first [ match goal with |- yield_ok _ (map norm ?ts) _ => change (map norm ts) with ([] ++ map norm ts) end
        | apply y_none
        | apply y_ret; same_yield
        | apply y_expect; intros ? ?
        | eapply y_bind; [solve [auto] | intros ? ?]
        | match goal with |- yield_ok _ _ (if _ then ?u else _) => match u with context [tl _] =>
            eapply y_is_k; [intros Hc; first [exact Hc | apply andb_true_iff in Hc; apply Hc] | intros ? ? ->; cbn [tl] | ] end end
        | apply y_if
        | match goal with |- yield_ok _ _ (match ?l with [] => _ | _ :: _ => _ end) => destruct l end
        | eapply y_conv; [ | solve [auto]]; same_yield ].

Definition Pterm (n : nat) : Prop :=
  (forall ts, yield_ok y_term (map norm ts) (p_term n ts)) /\
  (forall ts, yield_ok y_term (map norm ts) (p_prim n ts)) /\
  (forall acc ts, yield_ok y_term (y_term acc ++ map norm ts) (p_binops n acc ts)) /\
  (forall ts, yield_ok (fun l => sep_commas (map y_term l)) (map norm ts) (p_termlist n ts)) /\
  (forall ts, yield_ok y_tail (map norm ts) (p_tail n ts)).

Lemma term_yield : forall n, Pterm n.
Proof.
  induction n as [|n [IHt [IHp [IHb [IHl IHtl]]]]].
  - repeat split; intros; apply y_none.
  - repeat split.
    + intros ts. cbn [p_term]. repeat yield_step.
    + intros ts. destruct ts as [|[k x] r0]; [apply y_none|]. change (map norm ((k, x) :: r0)) with ([norm (k, x)] ++ map norm r0).
      destruct k; cbn [p_prim]; repeat yield_step.
    + intros acc ts. cbn [p_binops]. repeat yield_step.
    + intros ts. cbn [p_termlist]. repeat yield_step.
    + intros ts. cbn [p_tail]. repeat yield_step.
Qed.

Lemma p_term_yield n ts : yield_ok y_term (map norm ts) (p_term n ts).
Proof. apply (term_yield n). Qed.

Lemma simple_yield n ts : yield_ok y_simple (map norm ts) (p_simple n ts).
Proof.
  pose proof (p_term_yield n) as IHt. unfold p_simple.
  repeat yield_step.
Qed.

(* `(` in a predicate expression: what the term reading returns is returned, as a simple predicate *)
Lemma y_orelse {A B} (y : A -> list tok) (y1 : B -> list tok) inp e (g : B -> A) w :
  yield_ok y1 inp e -> (forall t, y (g t) = y1 t) -> yield_ok y inp w ->
  yield_ok y inp (match e with Some (t, r) => Some (g t, r) | None => w end).
Proof.
  intros He Hg Hw. destruct e as [[t r]|]; [|exact Hw].
  intros v r' H. injection H as <- <-. rewrite Hg. apply He. reflexivity.
Qed.

Definition Ppe (n : nat) : Prop :=
  (forall p ts, yield_ok y_pe (map norm ts) (p_pe n p ts)) /\
  (forall ts, yield_ok y_pe (map norm ts) (p_pe_prim n ts)) /\
  (forall p acc ts, yield_ok y_pe (y_pe acc ++ map norm ts) (p_pe_loop n p acc ts)).

Lemma pe_yield : forall n, Ppe n.
Proof.
  induction n as [|n [IHe [IHp IHl]]].
  - repeat split; intros; apply y_none.
  - pose proof (simple_yield n) as IHs. repeat split.
    + intros p ts. cbn [p_pe]. repeat yield_step.
    + intros ts. cbn [p_pe_prim]. change (map norm ts) with ([] ++ map norm ts).
      eapply y_is_k; [intros Hc; exact Hc | intros ? ? ->; cbn [tl]; repeat yield_step | ].
      eapply y_is_k; [intros Hc; exact Hc | intros ? ? ->; cbn [tl] | repeat yield_step].
      eapply y_orelse; [exact (p_term_yield n _) | reflexivity | repeat yield_step].
    + intros p acc ts. cbn [p_pe_loop]. repeat yield_step.
Qed.

Lemma cord_yield n ts c r : p_cord n ts = Some (c, r) -> map norm ts = y_cord c ++ map norm r.
Proof.
  pose proof (simple_yield n) as IHs. pose proof (proj1 (pe_yield n)) as IHe.
  revert c r. change (yield_ok y_cord (map norm ts) (p_cord n ts)). unfold p_cord. repeat yield_step.
Qed.

Lemma program_yield m n : forall ts l, p_program m n ts = Some l -> map norm ts = yield l.
Proof.
  induction m as [|m IH]; intros ts l; destruct ts as [|t ts]; cbn [p_program].
  - intros H; injection H as <-. reflexivity.
  - discriminate.
  - intros H; injection H as <-. reflexivity.
  - destruct (p_cord n (t :: ts)) as [[c r]|] eqn:E; [|discriminate].
    destruct (p_program m n r) as [l'|] eqn:E1; [|discriminate]. intros H; injection H as <-.
    apply cord_yield in E. apply IH in E1. rewrite E, E1. reflexivity.
Qed.

Theorem parse_yield ts cst : parse ts = Some cst -> yield cst = map norm ts.
Proof. unfold parse. intros H. symmetry. eapply program_yield; exact H. Qed.

(* the text of a token whose kind has no text of its own is determined by the kind: nothing is lost by norm *)
Lemma fixed_text r w : has_text r = false -> is_skip r = false -> rule_lang r w ->
  exists l, rule_def r = RLits [l] /\ w = l.
Proof.
  unfold rule_lang. destruct r; simpl; try discriminate; intros _ _ [<-|[]]; eauto.
Qed.
