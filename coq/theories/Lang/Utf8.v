(* The byte layer under compile_prolog_from_file and the command line (compiler.py):

     FileStream(path, encoding='utf8')  /  StdinStream(encoding='utf8')
       = read the BYTES of the file (binary mode: no line-ending conversion, no byte-order-mark handling),
         codecs.decode(bytes, 'utf8', 'strict'), hand the code points to the lexer

   so   compile_prolog_from_file(path) = compile_prolog_from_string(decode(bytes of path)).
   Modelled here: UTF-8 encoding and strict decoding (shortest form only, no surrogates, at most U+10FFFF), and
   the theorem that every text of Unicode scalar values written to a file as UTF-8 is read back as exactly that
   text -- every CR, CR LF, NEL, LS, PS, byte order mark and NUL included, inside and outside quoted atoms --
   and, the other way round, that the decoder accepts only encodings (utf8_decode_strict).
   Hence every statement about the literals of a source TEXT (Properties/C16.v) is a statement about the
   literals of the FILE that holds its UTF-8 bytes. *)
From Coq Require Import List NArith ZArith Bool Lia.
Import ListNotations.
From YP Require Import Base.Str.
Local Open Scope N_scope.

Definition is_scalar (c : N) : bool := (c <? 55296) || ((57344 <=? c) && (c <? 1114112)).

Definition enc1 (c : N) : list N :=
  if c <? 128 then [c]
  else if c <? 2048 then [192 + c / 64; 128 + c mod 64]
  else if c <? 65536 then [224 + c / 64 / 64; 128 + (c / 64) mod 64; 128 + c mod 64]
  else [240 + c / 64 / 64 / 64; 128 + (c / 64 / 64) mod 64; 128 + (c / 64) mod 64; 128 + c mod 64].

Definition utf8_encode (s : str) : list N := flat_map enc1 s.

Definition cont (b : N) : bool := (128 <=? b) && (b <? 192).

Definition ocons (c : N) (o : option str) : option str :=
  match o with Some r => Some (c :: r) | None => None end.

(* strict decoder: None = UnicodeDecodeError *)
Fixpoint utf8_decode (l : list N) : option str :=
  match l with
  | [] => Some []
  | b0 :: r =>
      if b0 <? 128 then ocons b0 (utf8_decode r)
      else if b0 <? 192 then None
      else if b0 <? 224 then
        match r with
        | b1 :: r1 =>
            let c := (b0 - 192) * 64 + (b1 - 128) in
            if cont b1 && (128 <=? c) then ocons c (utf8_decode r1) else None
        | _ => None
        end
      else if b0 <? 240 then
        match r with
        | b1 :: b2 :: r2 =>
            let c := (b0 - 224) * 4096 + (b1 - 128) * 64 + (b2 - 128) in
            if cont b1 && cont b2 && (2048 <=? c) && is_scalar c then ocons c (utf8_decode r2) else None
        | _ => None
        end
      else if b0 <? 248 then
        match r with
        | b1 :: b2 :: b3 :: r3 =>
            let c := (b0 - 240) * 262144 + (b1 - 128) * 4096 + (b2 - 128) * 64 + (b3 - 128) in
            if cont b1 && cont b2 && cont b3 && (65536 <=? c) && (c <? 1114112) then ocons c (utf8_decode r3) else None
        | _ => None
        end
      else None
  end.

(* A code point is written in base 64: the lead byte carries the top digit, every continuation byte one more. *)
Lemma div64 q r : r < 64 -> (q * 64 + r) / 64 = q.
Proof. intros H. rewrite N.div_add_l, (N.div_small r 64 H) by discriminate. apply N.add_0_r. Qed.

Lemma mod64 q r : r < 64 -> (q * 64 + r) mod 64 = r.
Proof. intros H. rewrite N.add_comm, N.mod_add by discriminate. apply N.mod_small, H. Qed.

Lemma split64 a : exists q r, a = q * 64 + r /\ r < 64.
Proof.
  exists (a / 64), (a mod 64). split.
  - rewrite N.mul_comm. apply N.div_mod. discriminate.
  - apply N.mod_lt. discriminate.
Qed.

Lemma offset k b : k <= b -> exists q, b = k + q.
Proof. intros H. exists (b - k). lia. Qed.

Lemma add_sub_l k x : k + x - k = x.
Proof. rewrite N.add_comm. apply N.add_sub. Qed.

Lemma cont_iff b : cont b = true <-> exists r, r < 64 /\ b = 128 + r.
Proof.
  unfold cont. rewrite andb_true_iff, N.leb_le, N.ltb_lt. split.
  - intros [L H]. destruct (offset 128 b L) as [r ->]. exists r. lia.
  - intros [r [R ->]]. lia.
Qed.

Lemma is_scalar_lt c : is_scalar c = true -> c < 1114112.
Proof.
  unfold is_scalar. intros H. apply orb_true_iff in H. destruct H as [H|H].
  - apply N.ltb_lt in H. lia.
  - apply andb_true_iff in H. destruct H as [_ H]. apply N.ltb_lt, H.
Qed.

Lemma ocons_some c o s : ocons c o = Some s -> exists r, o = Some r /\ s = c :: r.
Proof. destruct o as [r|]; cbn; [|discriminate]. intros H. injection H as <-. eauto. Qed.

(* the outcome of a range test, as an equation to rewrite with *)
Lemma ltb_lt x y : x < y -> (x <? y) = true.
Proof. apply N.ltb_lt. Qed.

Lemma ltb_ge x y : y <= x -> (x <? y) = false.
Proof. apply N.ltb_ge. Qed.

Lemma enc1_lt128 c : c < 128 -> enc1 c = [c].
Proof. intros H. unfold enc1. rewrite (ltb_lt c 128 H). reflexivity. Qed.

Lemma enc_2 q b1 c : q < 32 -> cont b1 = true -> c = q * 64 + (b1 - 128) -> 128 <= c -> enc1 c = [192 + q; b1].
Proof.
  intros Q C1 -> L. apply cont_iff in C1. destruct C1 as [r [R ->]].
  rewrite add_sub_l in *.
  unfold enc1. rewrite (ltb_ge _ 128), (ltb_lt _ 2048) by lia. rewrite (div64 q r R), (mod64 q r R). reflexivity.
Qed.

Lemma enc_3 q b1 b2 c : q < 16 -> cont b1 = true -> cont b2 = true ->
  c = q * 4096 + (b1 - 128) * 64 + (b2 - 128) -> 2048 <= c -> enc1 c = [224 + q; b1; b2].
Proof.
  intros Q C1 C2 -> L. apply cont_iff in C1. destruct C1 as [r1 [R1 ->]]. apply cont_iff in C2. destruct C2 as [r [R ->]].
  rewrite !add_sub_l in *. replace (q * 4096 + r1 * 64 + r) with ((q * 64 + r1) * 64 + r) in * by lia.
  unfold enc1. rewrite (ltb_ge _ 128), (ltb_ge _ 2048), (ltb_lt _ 65536) by lia.
  rewrite (div64 _ r R), (mod64 _ r R), (div64 q r1 R1), (mod64 q r1 R1). reflexivity.
Qed.

Lemma enc_4 q b1 b2 b3 c : q < 8 -> cont b1 = true -> cont b2 = true -> cont b3 = true ->
  c = q * 262144 + (b1 - 128) * 4096 + (b2 - 128) * 64 + (b3 - 128) -> 65536 <= c -> enc1 c = [240 + q; b1; b2; b3].
Proof.
  intros Q C1 C2 C3 -> L. apply cont_iff in C1. destruct C1 as [r2 [R2 ->]]. apply cont_iff in C2. destruct C2 as [r1 [R1 ->]].
  apply cont_iff in C3. destruct C3 as [r [R ->]].
  rewrite !add_sub_l in *.
  replace (q * 262144 + r2 * 4096 + r1 * 64 + r) with (((q * 64 + r2) * 64 + r1) * 64 + r) in * by lia.
  unfold enc1. rewrite (ltb_ge _ 128), (ltb_ge _ 2048), (ltb_ge _ 65536) by lia.
  rewrite (div64 _ r R), (mod64 _ r R), (div64 _ r1 R1), (mod64 _ r1 R1), (div64 q r2 R2), (mod64 q r2 R2). reflexivity.
Qed.

(* The decoder by the range of the lead byte.  The tail stays a variable until the range is
   settled: unfolding the decoder on a tail of known bytes would unfold its recursive calls on them as well. *)
Lemma dec_lead1 b r : b < 128 -> utf8_decode (b :: r) = ocons b (utf8_decode r).
Proof. intros H. cbn [utf8_decode]. rewrite (ltb_lt b 128 H). reflexivity. Qed.

Lemma dec_lead_none b r : 128 <= b < 192 \/ 248 <= b -> utf8_decode (b :: r) = None.
Proof.
  intros H. cbn [utf8_decode]. rewrite (ltb_ge b 128) by lia.
  destruct (N.ltb_spec b 192); [reflexivity|].
  rewrite (ltb_ge b 224), (ltb_ge b 240), (ltb_ge b 248) by lia. reflexivity.
Qed.

Lemma dec_lead2 q r : q < 32 -> utf8_decode (192 + q :: r) =
  match r with
  | b1 :: r1 => let c := q * 64 + (b1 - 128) in if cont b1 && (128 <=? c) then ocons c (utf8_decode r1) else None
  | _ => None
  end.
Proof.
  intros Q. cbn [utf8_decode].
  rewrite (ltb_ge (192 + q) 128), (ltb_ge (192 + q) 192), (ltb_lt (192 + q) 224) by lia.
  rewrite add_sub_l. reflexivity.
Qed.

Lemma dec_lead3 q r : q < 16 -> utf8_decode (224 + q :: r) =
  match r with
  | b1 :: b2 :: r2 =>
      let c := q * 4096 + (b1 - 128) * 64 + (b2 - 128) in
      if cont b1 && cont b2 && (2048 <=? c) && is_scalar c then ocons c (utf8_decode r2) else None
  | _ => None
  end.
Proof.
  intros Q. cbn [utf8_decode].
  rewrite (ltb_ge (224 + q) 128), (ltb_ge (224 + q) 192), (ltb_ge (224 + q) 224), (ltb_lt (224 + q) 240) by lia.
  rewrite add_sub_l. reflexivity.
Qed.

Lemma dec_lead4 q r : q < 8 -> utf8_decode (240 + q :: r) =
  match r with
  | b1 :: b2 :: b3 :: r3 =>
      let c := q * 262144 + (b1 - 128) * 4096 + (b2 - 128) * 64 + (b3 - 128) in
      if cont b1 && cont b2 && cont b3 && (65536 <=? c) && (c <? 1114112) then ocons c (utf8_decode r3) else None
  | _ => None
  end.
Proof.
  intros Q. cbn [utf8_decode].
  rewrite (ltb_ge (240 + q) 128), (ltb_ge (240 + q) 192), (ltb_ge (240 + q) 224), (ltb_ge (240 + q) 240),
    (ltb_lt (240 + q) 248) by lia.
  rewrite add_sub_l. reflexivity.
Qed.

Lemma cont_ok r : r < 64 -> cont (128 + r) = true.
Proof. intros R. apply cont_iff. eauto. Qed.

Lemma dec_enc1 a rest : is_scalar a = true -> utf8_decode (enc1 a ++ rest) = ocons a (utf8_decode rest).
Proof.
  intros S.
  destruct (N.lt_ge_cases a 128) as [H1|H1].
  { rewrite enc1_lt128 by exact H1. apply dec_lead1, H1. }
  destruct (split64 a) as [q2 [r [E R]]]. pose proof (cont_ok r R) as C.
  destruct (N.lt_ge_cases a 2048) as [H2|H2].
  { assert (Q : q2 < 32) by lia. assert (E' : a = q2 * 64 + (128 + r - 128)) by (rewrite add_sub_l; exact E).
    rewrite (enc_2 q2 _ a Q C E' H1). cbn [app]. rewrite (dec_lead2 q2 _ Q). cbv zeta.
    rewrite <- E', C, (proj2 (N.leb_le _ _) H1). reflexivity. }
  destruct (split64 q2) as [q3 [r1 [-> R1]]]. pose proof (cont_ok r1 R1) as C1.
  destruct (N.lt_ge_cases a 65536) as [H3|H3].
  { assert (Q : q3 < 16) by lia. assert (E' : a = q3 * 4096 + (128 + r1 - 128) * 64 + (128 + r - 128)) by (rewrite !add_sub_l; lia).
    rewrite (enc_3 q3 _ _ a Q C1 C E' H2). cbn [app]. rewrite (dec_lead3 q3 _ Q). cbv zeta.
    rewrite <- E', C1, C, (proj2 (N.leb_le _ _) H2), S. reflexivity. }
  destruct (split64 q3) as [q [r2 [-> R2]]]. pose proof (cont_ok r2 R2) as C2.
  pose proof (is_scalar_lt a S) as A. assert (Q : q < 8) by lia.
  assert (E' : a = q * 262144 + (128 + r2 - 128) * 4096 + (128 + r1 - 128) * 64 + (128 + r - 128))
    by (rewrite !add_sub_l; lia).
  rewrite (enc_4 q _ _ _ a Q C2 C1 C E' H3). cbn [app]. rewrite (dec_lead4 q _ Q). cbv zeta.
  rewrite <- E', C2, C1, C, (proj2 (N.leb_le _ _) H3), (ltb_lt _ _ A). reflexivity.
Qed.

(* ROUND TRIP: a text of Unicode scalar values, stored as UTF-8, is read back as itself *)
Theorem utf8_roundtrip s : forallb is_scalar s = true -> utf8_decode (utf8_encode s) = Some s.
Proof.
  induction s as [|a s IH]; intros H; [reflexivity|].
  cbn [forallb] in H. apply andb_true_iff in H. destruct H as [Ha Hs].
  cbn [utf8_encode flat_map]. rewrite dec_enc1 by exact Ha.
  fold (utf8_encode s). rewrite (IH Hs). reflexivity.
Qed.

Lemma utf8_encode_app s t : utf8_encode (s ++ t) = utf8_encode s ++ utf8_encode t.
Proof. unfold utf8_encode. apply flat_map_app. Qed.

Lemma high_byte k x : 128 <= k -> 128 <= k + x.
Proof. lia. Qed.

Lemma enc1_high_bytes a : 128 <= a -> Forall (N.le 128) (enc1 a).
Proof.
  intros H1. unfold enc1. rewrite (ltb_ge a 128 H1).
  destruct (a <? 2048); [|destruct (a <? 65536)].
  all: repeat (apply Forall_cons; [apply high_byte; discriminate|]); apply Forall_nil.
Qed.

(* no byte of an encoded non-ASCII character is an ASCII byte: CR (13), LF (10), quote (39) and backslash (92)
   bytes of the file are exactly the CR, LF, quote and backslash characters of the text *)
Theorem utf8_ascii_bytes_are_characters s b : In b (utf8_encode s) -> b < 128 -> In b s.
Proof.
  unfold utf8_encode. rewrite in_flat_map. intros [a [Ha Hb]] L.
  destruct (N.lt_ge_cases a 128) as [H|H].
  - rewrite (enc1_lt128 a H) in Hb. destruct Hb as [<-|[]]. exact Ha.
  - pose proof (enc1_high_bytes a H) as F. rewrite Forall_forall in F. specialize (F b Hb). lia.
Qed.

(* STRICTNESS: the decoder accepts nothing but encodings -- bytes that decode to a text are THE encoding of that text
   (shortest form, no surrogates, nothing above U+10FFFF), so a file and the text read from it determine each other *)
Lemma strict_step c bs rest s : ocons c (utf8_decode rest) = Some s -> enc1 c = bs ->
  (forall t, utf8_decode rest = Some t -> rest = utf8_encode t) -> bs ++ rest = utf8_encode s.
Proof.
  intros H E IH. apply ocons_some in H. destruct H as [t [Hd ->]].
  rewrite (IH t Hd), <- E. reflexivity.
Qed.

Lemma if_some {A} (b : bool) (x : option A) y : (if b then x else None) = Some y -> b = true /\ x = Some y.
Proof. destruct b; [auto | discriminate]. Qed.

Theorem utf8_decode_strict l s : utf8_decode l = Some s -> l = utf8_encode s.
Proof.
  (* a step of the decoder consumes one to four bytes: induction on a bound of the length *)
  assert (G : forall n l, (length l <= n)%nat -> forall s, utf8_decode l = Some s -> l = utf8_encode s).
  2: exact (G (length l) l (le_n _) s).
  clear. induction n as [|n IH]; intros l Hn s H.
  { destruct l; [|cbn in Hn; lia]. cbn in H. injection H as <-. reflexivity. }
  destruct l as [|b0 r]; [cbn in H; injection H as <-; reflexivity|]. cbn [length] in Hn.
  destruct (N.lt_ge_cases b0 128) as [L0|L0].
  { rewrite dec_lead1 in H by exact L0.
    apply (strict_step b0 [b0] r s H); [apply enc1_lt128, L0 | apply IH; lia]. }
  destruct (N.lt_ge_cases b0 192) as [L1|L1]; [rewrite dec_lead_none in H by lia; discriminate|].
  destruct (N.lt_ge_cases b0 224) as [L2|L2].
  { destruct (offset 192 b0 L1) as [q ->]. assert (Q : q < 32) by lia. rewrite (dec_lead2 q r Q) in H.
    destruct r as [|b1 r1]; [discriminate|]. cbn [length] in Hn. cbv zeta in H.
    apply if_some in H. destruct H as [C H]. rewrite andb_true_iff in C. destruct C as [C1 C2]. apply N.leb_le in C2.
    apply (strict_step _ [192 + q; b1] r1 s H); [exact (enc_2 q b1 _ Q C1 eq_refl C2) | apply IH; lia]. }
  destruct (N.lt_ge_cases b0 240) as [L3|L3].
  { destruct (offset 224 b0 L2) as [q ->]. assert (Q : q < 16) by lia. rewrite (dec_lead3 q r Q) in H.
    destruct r as [|b1 [|b2 r2]]; try discriminate. cbn [length] in Hn. cbv zeta in H.
    apply if_some in H. destruct H as [C H]. rewrite !andb_true_iff in C. destruct C as [[[C1 C2] C3] _]. apply N.leb_le in C3.
    apply (strict_step _ [224 + q; b1; b2] r2 s H); [exact (enc_3 q b1 b2 _ Q C1 C2 eq_refl C3) | apply IH; lia]. }
  destruct (N.lt_ge_cases b0 248) as [L4|L4]; [|rewrite dec_lead_none in H by lia; discriminate].
  destruct (offset 240 b0 L3) as [q ->]. assert (Q : q < 8) by lia. rewrite (dec_lead4 q r Q) in H.
  destruct r as [|b1 [|b2 [|b3 r3]]]; try discriminate. cbn [length] in Hn. cbv zeta in H.
  apply if_some in H. destruct H as [C H]. rewrite !andb_true_iff in C. destruct C as [[[[C1 C2] C3] C4] _]. apply N.leb_le in C4.
  apply (strict_step _ [240 + q; b1; b2; b3] r3 s H); [exact (enc_4 q b1 b2 b3 _ Q C1 C2 C3 eq_refl C4) | apply IH; lia].
Qed.

(* a cheap fingerprint of a byte string, for the differential check: (length, polynomial hash) *)
Fixpoint poly_hash (l : list N) (h : N) : N :=
  match l with [] => h | b :: r => poly_hash r ((h * 257 + b + 1) mod 1000000007) end.

Definition utf8_fingerprint (s : str) : obs :=
  let b := utf8_encode s in
  OL [OZ (Z.of_N (N.of_nat (length b))); OZ (Z.of_N (poly_hash b 0));
      obool (match utf8_decode b with Some s' => str_eqb s' s | None => false end)].
