(* The visitor YPPrologVisitor (yp_prolog_visitor.py): parse tree -> AST of Lang/Ast.v.

   * unquoteString as written: the characters strictly between the first and the last one, every
     backslash dropped (so \' gives ', and a backslash can never be part of an atom).
   * terms: atoms, numerals (digits kept as written), variables, compound terms (also for the
     prefix and infix operators and for BINOP '(' t ',' t ')'), parentheses vanish, `[...]` gives
     ListTerm, `[t1,...,tn|V]` is folded to ListPairTerm(t1, ... ListPairTerm(tn, V)).
   * every VARIABLE token whose text is `_` becomes AnonymousVariableTerm(counter) named x<counter+1>
     and increments the visitor's counter; the counter lives as long as the visitor = one compilation.
     Sub-terms are visited in source order.
   * what is refused.  visitTermpredicate raises CompilerError unless the visited term is an Atom or a
     Functor (`callable_shape`).  visitClause raises unless the head name matches
     [A-Za-z_][A-Za-z0-9_]* ; a head that is true/fail/! makes visitProgram raise (AttributeError).
     Two kinds of term objects are built by the visitor without complaint and make the COMPILER raise:
     - the value None for `name/arity`: compile_function_body reads `.variables` of the whole clause (head and
       body, dead code included), which raises AttributeError on None wherever it occurs in the clause.  The
       model has no AST for it: v_term returns None for the term (the counter still advances), a clause
       containing one has no AST, front fails;
     - a Functor whose name is a NumeralTerm (`1(a)`): its `.variables` work, and only compile_expression /
       compile_predicate raise (`.name.value`) when they are actually CALLED on it -- which does not happen for
       goals that compile_body drops as dead code (the continuation of `fail`: `p :- fail, 1(a).` compiles).
       The model therefore keeps such a functor in the AST under the name `\` ++ digits (a backslash can never
       occur in the name of an atom of a source text, unquoteString removes them all; the only other names with a
       backslash are the operators \= and \==), and the compiler model
       (Lang/FrontCompile.compile_front) refuses exactly when that name reaches the intermediate code.
   * directives are visited -- they can raise, and their `_` advance the counter -- and dropped. *)
From Coq Require Import List NArith Arith Bool.
Import ListNotations.
From YP Require Import Base.Str Lang.Ast Lang.Lexer Lang.Cst Lang.Parser.

(* i = 1; while i < len(s)-1: if s[i] == '\\': i += 1  else: r += s[i]; i += 1 *)
Fixpoint unq_loop (s : str) : str :=
  match s with
  | [] => []
  | [_] => []
  | c :: r => if N.eqb c 92 then unq_loop r else c :: unq_loop r
  end.
Definition unquote (s : str) : str := unq_loop (tl s).

Definition anon_name (k : nat) : str := 120%N :: dec_of_nat (S k).      (* f'x{self.num+1}' *)
Definition is_anon (v : str) : bool := str_eqb v [95%N].

Definition atom_name (a : catom) : option str :=
  match a with
  | A_ATOM t => Some t
  | A_STRING t => Some (unquote t)
  | A_NUMERAL t => Some (92%N :: t)       (* Functor(NumeralTerm(t), ..): see above *)
  end.

Definition v_var (v : str) (k : nat) : sterm * nat :=
  if is_anon v then (SVar (anon_name k), S k) else (SVar v, k).

Definition opt2 {A B C} (f : A -> B -> C) (a : option A) (b : option B) : option C :=
  match a, b with Some x, Some y => Some (f x y) | _, _ => None end.

(* functools.reduce(lambda x,y: ListPairTerm(y,x), reversed(terms), var) *)
Definition fold_pairs (items : list sterm) (tail : sterm) : sterm := fold_right SPair tail items.

Fixpoint v_term (t : cterm) (k : nat) : option sterm * nat :=
  let v_terms := fix go (l : list cterm) (k : nat) : option (list sterm) * nat :=
    match l with
    | [] => (Some [], k)
    | x :: r =>
        let '(x', k1) := v_term x k in
        let '(r', k2) := go r k1 in
        (opt2 cons x' r', k2)
    end in
  match t with
  | T_atom (A_ATOM x) => (Some (SAtom x), k)
  | T_atom (A_NUMERAL x) => (Some (SNum x), k)
  | T_atom (A_STRING x) => (Some (SAtom (unquote x)), k)
  | T_functor a args =>
      let '(args', k1) := v_terms args k in
      (opt2 SFun (atom_name a) args', k1)
  | T_arity _ _ => (None, k)
  | T_var v => let '(x, k1) := v_var v k in (Some x, k1)
  | T_unop op t =>
      let '(t', k1) := v_term t k in
      (option_map (fun x => SFun op [x]) t', k1)
  | T_binop l op r | T_binop_prefix op l r =>
      let '(l', k1) := v_term l k in
      let '(r', k2) := v_term r k1 in
      (opt2 (fun x y => SFun op [x; y]) l' r', k2)
  | T_paren t => v_term t k
  | T_list items =>
      let '(l, k1) := v_terms items k in
      (option_map SList l, k1)
  | T_listpair1 h v =>
      let '(h', k1) := v_term h k in
      let '(x, k2) := v_var v k1 in
      (option_map (fun a => fold_pairs [a] x) h', k2)
  | T_listpair2 h rest v =>
      let '(h', k1) := v_term h k in
      let '(l, k2) := v_terms rest k1 in
      let '(x, k3) := v_var v k2 in
      (opt2 (fun a b => fold_pairs (a :: b) x) h' l, k3)
  end.

Fixpoint v_terms (l : list cterm) (k : nat) : option (list sterm) * nat :=
  match l with
  | [] => (Some [], k)
  | x :: r =>
      let '(x', k1) := v_term x k in
      let '(r', k2) := v_terms r k1 in
      (opt2 cons x' r', k2)
  end.

Lemma v_terms_eq l : forall k,
  (fix go (l : list cterm) (k : nat) : option (list sterm) * nat :=
     match l with
     | [] => (Some [], k)
     | x :: r => let '(x', k1) := v_term x k in let '(r', k2) := go r k1 in (opt2 cons x' r', k2)
     end) l k = v_terms l k.
Proof.
  induction l as [|x r IH]; intros k; [reflexivity|]. cbn [v_terms]. destruct (v_term x k) as [x' k1].
  rewrite IH. reflexivity.
Qed.

Lemma v_term_functor a args k :
  v_term (T_functor a args) k = let '(args', k1) := v_terms args k in (opt2 SFun (atom_name a) args', k1).
Proof. cbn [v_term]. rewrite v_terms_eq. reflexivity. Qed.
Lemma v_term_list items k :
  v_term (T_list items) k = let '(l, k1) := v_terms items k in (option_map SList l, k1).
Proof. cbn [v_term]. rewrite v_terms_eq. reflexivity. Qed.
Lemma v_term_listpair2 h rest v k :
  v_term (T_listpair2 h rest v) k =
    let '(h', k1) := v_term h k in
    let '(l, k2) := v_terms rest k1 in
    let '(x, k3) := v_var v k2 in
    (opt2 (fun a b => fold_pairs (a :: b) x) h' l, k3).
Proof. cbn [v_term]. destruct (v_term h k) as [h' k1]. rewrite v_terms_eq. reflexivity. Qed.

(* isinstance(t, Atom) or isinstance(t, Functor) for t = visitTerm(ctx) *)
Fixpoint callable_shape (t : cterm) : bool :=
  match t with
  | T_atom (A_ATOM _) | T_atom (A_STRING _) => true
  | T_functor _ _ | T_unop _ _ | T_binop _ _ _ | T_binop_prefix _ _ _ => true
  | T_paren t => callable_shape t
  | _ => false
  end.

(* a goal or head: name and arguments *)
Definition v_callable (t : cterm) (k : nat) : option (str * list sterm * nat) :=
  if callable_shape t then
    match v_term t k with
    | (Some (SAtom f), k1) => Some (f, [], k1)
    | (Some (SFun f args), k1) => Some (f, args, k1)
    | _ => None
    end
  else None.

Definition v_goal (sp : simplepred) (k : nat) : option (body * nat) :=
  match sp with
  | SP_true => Some (BTrue, k)
  | SP_fail => Some (BFail, k)
  | SP_cut => Some (BCut, k)
  | SP_term t => do '(f, args, k1) <- v_callable t k; Some (BCall f args, k1)
  end.

Fixpoint v_pe (p : pexpr) (k : nat) : option (body * nat) :=
  match p with
  | PE_simple sp => v_goal sp k
  | PE_not a => do '(a', k1) <- v_pe a k; Some (BNot a', k1)
  | PE_and a b => do '(a', k1) <- v_pe a k; do '(b', k2) <- v_pe b k1; Some (BAnd a' b', k2)
  | PE_if a b => do '(a', k1) <- v_pe a k; do '(b', k2) <- v_pe b k1; Some (BIf a' b', k2)
  | PE_or a b => do '(a', k1) <- v_pe a k; do '(b', k2) <- v_pe b k1; Some (BOr a' b', k2)
  | PE_paren a => v_pe a k
  end.

(* re.fullmatch(r'[A-Za-z_][A-Za-z0-9_]*', name) *)
Definition valid_pred_name (f : str) : bool :=
  match f with
  | c :: r => (is_lc c || is_uc c) && forallb is_character r
  | [] => false
  end.

Definition v_head (sp : simplepred) (k : nat) : option (str * list sterm * nat) :=
  match sp with
  | SP_term t =>
      do '(f, args, k1) <- v_callable t k;
      if valid_pred_name f then Some (f, args, k1) else None
  | _ => None          (* true. fail. !.  are clauses of the grammar that visitProgram cannot file *)
  end.

Definition v_clause (c : cclause) (k : nat) : option (clause * nat) :=
  match c with
  | C_fact h =>
      do '(f, args, k1) <- v_head h k;
      Some ({| c_name := f; c_args := args; c_body := BTrue |}, k1)
  | C_rule h b =>
      do '(f, args, k1) <- v_head h k;
      do '(b', k2) <- v_pe b k1;
      Some ({| c_name := f; c_args := args; c_body := b' |}, k2)
  end.

Definition v_directive (sp : simplepred) (k : nat) : option nat :=
  match sp with
  | SP_term t => if callable_shape t then Some (snd (v_term t k)) else None
  | _ => Some k
  end.

Fixpoint v_program (p : cprogram) (k : nat) : option (program * nat) :=
  match p with
  | [] => Some ([], k)
  | CD_directive sp :: r => do 'k1 <- v_directive sp k; v_program r k1
  | CD_clause c :: r =>
      do '(cl, k1) <- v_clause c k;
      do '(l, k2) <- v_program r k1;
      Some (cl :: l, k2)
  end.

(* the program handed to the compiler has exactly one clause per `clause` node of the
   parse tree, in source order, each the image of its node (directives contribute nothing). *)
Definition clause_image (cc : cclause) (c : clause) : Prop := exists k k', v_clause cc k = Some (c, k').

Theorem v_program_clauses cst : forall k prog k', v_program cst k = Some (prog, k') ->
  Forall2 clause_image (clauses_of cst) prog.
Proof.
  induction cst as [|c cst IH]; intros k prog k' H; simpl in H.
  - injection H as <- _. constructor.
  - destruct c as [cc|sp].
    + destruct (v_clause cc k) as [[cl k1]|] eqn:E; [|discriminate].
      destruct (v_program cst k1) as [[l k2]|] eqn:E1; [|discriminate].
      injection H as <- _. simpl. constructor; [exists k, k1; exact E | eapply IH; eauto].
    + destruct (v_directive sp k) as [k1|]; [|discriminate]. simpl. eapply IH; eauto.
Qed.

Corollary v_program_count cst k prog k' : v_program cst k = Some (prog, k') ->
  length prog = length (clauses_of cst).
Proof.
  intros H. apply v_program_clauses in H. induction H; simpl; congruence.
Qed.

(* the head of an AST clause is the head of its node: name and arguments come from the visited head term *)
Lemma clause_image_head cc c : clause_image cc c ->
  exists t k k1, (cc = C_fact (SP_term t) \/ exists b, cc = C_rule (SP_term t) b) /\
    v_callable t k = Some (c_name c, c_args c, k1) /\ valid_pred_name (c_name c) = true.
Proof.
  intros [k [k' H]]. destruct cc as [h|h b]; simpl in H.
  - destruct h as [| | |t]; try discriminate. simpl in H.
    destruct (v_callable t k) as [[[f args] k1]|] eqn:E; [|discriminate].
    destruct (valid_pred_name f) eqn:Ev; [|discriminate]. injection H as <- _.
    exists t, k, k1. simpl. auto.
  - destruct h as [| | |t]; try discriminate. simpl in H.
    destruct (v_callable t k) as [[[f args] k1]|] eqn:E; [|discriminate].
    destruct (valid_pred_name f) eqn:Ev; [|discriminate].
    destruct (v_pe b k1) as [[b' k2]|]; [|discriminate]. injection H as <- _.
    exists t, k, k1. simpl. split; [right; eauto | auto].
Qed.
