(* C18 - Compilation is a deterministic function of the source text.
   Only statements; every proof is `exact <lemma>` to a lemma proved in Cli/DetCompile.v, except
   the evaluated example at the end.

   REMARK, not a theorem: the model of the compiler, Comp/CompileText.v
       compile_text : (N -> bool) -> str -> cresult
   is a closed Gallina function of the source text (and of the Unicode table consulted by repr), so
   "the model returns the same text every time" holds by construction and is not claimed as a result.
   That the IMPLEMENTATION returns byte-identical text in another process, under another string-hash
   seed and after other compilations (including failed ones), with fresh or reused options objects,
   AND that this text is compile_text of the source, is what the correspondence check of C18 observes
   on every run (harness/props/c18.py); it cannot be proved about CPython here.

   What is proved: the places where the implementation could depend on something else than the
   source - the order of a de-duplicated variable list, the iteration order of the predicate
   dictionary, and the two counters - are made explicit parameters of the model pipeline
   (compile_text_g ord gord (a,k)); compile_text is the instance (identity, identity, (0,0)); the
   declaration order of the real model is the canonical one (a function of the clause syntax); and
   the pipeline is NOT invariant in any of the three (refutations with concrete sources, evaluated
   through lexer, parser, visitor, compiler and emitter), so all of them matter for the bytes. *)
From Coq Require Import String.
From Coq Require Import List NArith Bool Arith Permutation.
Import ListNotations.
From YP Require Import Base.Str Lang.Ast Comp.IR Comp.CompileBody Comp.CompileClause Comp.CompileText
  Comp.EmitLines Comp.CompileTextSound Cli.Determinism Cli.DetCompile.

(* filter_free_variables as it is now (list(dict.fromkeys(v for v in variables if v not in bound))),
   i.e. the function CompileClause.filter_free that the model compiler calls: the result has no
   duplicates, contains exactly the variables of `vars` that are not bound, ordered by first
   occurrence in `vars` (the textual order). *)
Theorem C18_filter_free_canonical : forall bound vars,
  let res := filter_free bound vars in
  NoDup res
  /\ (forall v, In v res <-> In v vars /\ ~ In v bound)
  /\ (forall i j x y, nth_error res i = Some x -> nth_error res j = Some y -> i < j ->
        exists ix iy, first_index x vars = Some ix /\ first_index y vars = Some iy /\ ix < iy).
Proof. exact filter_free_canonical. Qed.
Print Assumptions C18_filter_free_canonical.

(* ... and these properties leave no freedom: two lists that have them are equal *)
Theorem C18_canonical_unique : forall bound vars l1 l2,
  canonical bound vars l1 -> canonical bound vars l2 -> l1 = l2.
Proof. exact canonical_unique. Qed.
Print Assumptions C18_canonical_unique.

(* DECL_ORDER_CANONICAL.  The code of a clause (compile_function_body) is: the aliases `V_X = argN`,
   then `V_v = variable()` for the canonical list of the head's variables that are not aliased, then
   the same for the canonical list of the body's variables not yet bound, then loops that contain no
   assignment at their top level.  Nothing but the clause's syntax determines these lines. *)
Theorem C18_decl_order_canonical : forall c cnt code cnt', compile_clause c cnt = Some (code, cnt') ->
  let pos := head_args_by_pos (c_args c) in
  let aliased := some_list pos in
  exists fv_head fv_body loops,
    code = head_aliases 0 pos ++ map declare fv_head ++ map declare fv_body ++ loops
    /\ canonical aliased (flat_map sterm_vars (c_args c)) fv_head
    /\ canonical (aliased ++ fv_head) (body_vars (c_body c)) fv_body
    /\ Forall not_assign loops.
Proof. exact decl_order_canonical. Qed.
Print Assumptions C18_decl_order_canonical.

(* the pipeline with the order function and the initial counters as parameters is, at (identity,
   (0,0)), the model compiler that the check compares with the implementation *)
Theorem C18_pipeline_is_compile_text : forall printable s,
  fst (compile_text_g printable keep gkeep (0, 0) s) = compile_text printable s.
Proof. exact compile_text_g_id. Qed.
Print Assumptions C18_pipeline_is_compile_text.

(* the OLD behaviour (list(set(...)), defect D18): the set's iteration order is some permutation
   chosen by the hash seed.  Two permutations, one source text, two different emitted texts:
   "the output does not depend on the iteration order" is refuted for that code. *)
Theorem C18_set_order_refuted :
  exists (ord1 ord2 : list str -> list str) (s : str) (t1 t2 : str),
    (forall l, Permutation (ord1 l) l) /\ (forall l, Permutation (ord2 l) l)
    /\ fst (compile_text_g no_unicode ord1 gkeep (0, 0) s) = CText t1
    /\ fst (compile_text_g no_unicode ord2 gkeep (0, 0) s) = CText t2
    /\ t1 <> t2.
Proof. exact set_order_refuted. Qed.
Print Assumptions C18_set_order_refuted.

(* the other container whose iteration order reaches the text: the dictionary (name, arity) -> clauses
   of visitProgram, iterated by compile_program.  The model (group_program) iterates in insertion
   order, as Python dicts do; if the order were anything else (a set of keys), two orders would give
   two different texts for `p(a). q(b).` *)
Theorem C18_group_order_refuted :
  exists (g1 g2 : list (key * list clause) -> list (key * list clause)) (s : str) (t1 t2 : str),
    (forall l, Permutation (g1 l) l) /\ (forall l, Permutation (g2 l) l)
    /\ fst (compile_text_g no_unicode keep g1 (0, 0) s) = CText t1
    /\ fst (compile_text_g no_unicode keep g2 (0, 0) s) = CText t2
    /\ t1 <> t2.
Proof. exact group_order_refuted. Qed.
Print Assumptions C18_group_order_refuted.

(* "after any other compilations in the same process": a process that creates its visitor and
   compiler (counters 0) in every call, as _compile_prolog_from_stream does, returns for each source
   compile_text of that source - whatever was compiled, or failed to compile, before and after.
   (By construction of `session`; the content is in the next theorem.) *)
Theorem C18_counters_per_call : forall printable before after src,
  session printable keep gkeep (before ++ src :: after)
  = map (compile_text printable) before ++ compile_text printable src :: map (compile_text printable) after.
Proof. exact counters_per_call. Qed.
Print Assumptions C18_counters_per_call.

(* what that excludes: if either counter survived a call (module-level, class-level, stored in the
   options object), compiling the same text twice in one process would give two different texts -
   shown for the anonymous-variable counter alone (`p(_).`) and for the label counter alone
   (`p :- ( a -> b ; c ).`); the per-call process gives the same text twice. *)
Theorem C18_shared_counters_refuted :
  (exists s t1 t2, session_shared no_unicode keep gkeep (0, 0) [s; s] = [CText t1; CText t2] /\ t1 <> t2
                   /\ session no_unicode keep gkeep [s; s] = [CText t1; CText t1])
  /\ (exists s t1 t2, session_shared no_unicode keep gkeep (0, 0) [s; s] = [CText t1; CText t2] /\ t1 <> t2
                   /\ session no_unicode keep gkeep [s; s] = [CText t1; CText t1]).
Proof. exact shared_counters_refuted. Qed.
Print Assumptions C18_shared_counters_refuted.

(* non-vacuity: the clause  p(X, [H|T]) :- q(Fa, Fb, _), r(Fb, Fa, H, _).  goes through the whole model
   compiler; X is aliased to arg1, the head declares H T, the body Fa Fb x1 x2, in this order *)
Local Open Scope string_scope.
Local Open Scope list_scope.
Example C18_nonvacuous :
  exists text, compile_text no_unicode (d "p(X, [H|T]) :- q(Fa, Fb, _), r(Fb, Fa, H, _).") = CText text
  /\ firstn 9 (skipn 7 (split_nl text)) =
     [d "    V_X = arg1"; d "    V_H = variable()"; d "    V_T = variable()"; d "    V_Fa = variable()";
      d "    V_Fb = variable()"; d "    V_x1 = variable()"; d "    V_x2 = variable()";
      d "    for l1 in unify(arg2,listpair(V_H,V_T)):"; d "      for l2 in query('q',[V_Fa,V_Fb,V_x1]):"].
Proof. apply text_such_that. vm_compute. reflexivity. Qed.
