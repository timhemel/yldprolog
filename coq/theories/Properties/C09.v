(* C09 - call/N, once/1, findall/3, = and \= agree with their standard definitions.
   Statements, each proved by `exact <lemma>` of the layer files, and evaluated examples.  `builtin call` is the engine's table of builtin
   predicates over an arbitrary resolution function `call` (YP.query one level down); it is the SAME
   function in the model of the compiled code (Machine.query) and in the reference (solveA). *)
From Coq Require Import String.
From Coq Require Import List Arith ZArith.
Import ListNotations.
From YP Require Import Base.Str Term.Term Term.Fast Unify.Unify Unify.Fast Lang.Ast Comp.IR Comp.CompileBody Comp.CompileClause
  Sem.Res Sem.RefSem Sem.IRSem Sem.ControlCorrect Sem.Machine Sem.ClauseSem Sem.ProgramCorrect Sem.SpecLemmas Sem.FindallShare Sem.ScopeSpec.
Local Open Scope string_scope.
Local Open Scope list_scope.

(* programs that use the builtins are covered by the program theorem: a goal whose name/arity has no
   clause resolves to the builtin table in both semantics *)
Theorem C09_compiled_program_computes_reference : forall n p ir,
  compile_program p = Some ir -> good_program p ->
  forall name args s, query n ir name args s = solveA n p name args s.
Proof. exact machine_computes_clause_semantics. Qed.
Print Assumptions C09_compiled_program_computes_reference.

(* the builtins depend on the program only through the answers of the goals they call *)
Theorem C09_builtin_extensional : forall call call',
  (forall f a s, call f a s = call' f a s) -> forall name args s, builtin call name args s = builtin call' name args s.
Proof. exact builtin_ext. Qed.
Print Assumptions C09_builtin_extensional.

(* call(G,A1..An): G is dereferenced through any chain of bound variables (den_fast = deep get_value);
   compound goal: its answers are those of name(G)(args(G) ++ A1..An); atom goal: of name(G)(A1..An) *)
Theorem C09_call_spec_compound : forall call g extra s f gargs, den_fast (sto s) g = TFun f gargs ->
  builtin call (s_ "call") (g :: extra) s = Some (call f (gargs ++ extra) s).
Proof. exact call_spec_fun. Qed.
Print Assumptions C09_call_spec_compound.

Theorem C09_call_spec_atom : forall call g extra s a, den_fast (sto s) g = TAtom a ->
  builtin call (s_ "call") (g :: extra) s = Some (call a extra s).
Proof. exact call_spec_atom. Qed.
Print Assumptions C09_call_spec_atom.

(* once(G): the first answer of G only; no answer and NO error when G has none *)
Theorem C09_once_spec : forall call g s,
  builtin call (s_ "once") [g] s =
  Some (match call_goal call g [] s with (x :: _, _) => ([x], false) | ([], e) => ([], e) end).
Proof. exact once_spec. Qed.
Print Assumptions C09_once_spec.

(* findall(T,G,L): when G's enumeration ends without error with answer states xs, the answers are those
   of unifying L with the list of the collected instances of T - one per answer, in order - computed from
   the store of the call: no binding made by G survives *)
Theorem C09_findall_spec : forall call t g l s xs,
  call_goal call g [] s = (xs, false) ->
  builtin call (s_ "findall") [t; g; l] s =
  Some (let '(es, b) := collect 0 (nxt s) t xs in unify_st {| sto := sto s; nxt := b |} l (mk_list es)).
Proof. exact findall_spec. Qed.
Print Assumptions C09_findall_spec.

Theorem C09_findall_one_instance_per_answer : forall lo t xs base, length (fst (collect lo base t xs)) = length xs.
Proof. exact collect_length. Qed.
Print Assumptions C09_findall_one_instance_per_answer.

(* the collected instances are COPIES of the instances of T under each answer, in order: instance j is the dereferenced
   template with every variable c renamed to base_j + c (one injective renaming per instance), base_1 = the variable
   counter of the call, base_(j+1) = base_j + the counter at answer j *)
Theorem C09_findall_instances : forall t xs base,
  fst (collect 0 base t xs) = map (fun bx => shift_by (fst bx) (den_fast (sto (snd bx)) t)) (combine (copy_bases base xs) xs) /\
  snd (collect 0 base t xs) = fold_left (fun b x => b + nxt x) xs base.
Proof. exact collect_copies. Qed.
Print Assumptions C09_findall_instances.

(* every variable of a collected instance is new (>= the counter of the call): an instance shares no variable with the
   caller, the goal, the template or the bag *)
Theorem C09_findall_copies_are_fresh : forall t xs base e v,
  In e (fst (collect 0 base t xs)) -> occurs v e = true -> base <= v.
Proof. exact collect_copies_fresh. Qed.
Print Assumptions C09_findall_copies_are_fresh.

(* and two different instances share no variable *)
Theorem C09_findall_copies_are_disjoint : forall t xs base i j ei ej v,
  (forall x, In x xs -> forall w, occurs w (den_fast (sto x) t) = true -> w < nxt x) ->
  nth_error (fst (collect 0 base t xs)) i = Some ei -> nth_error (fst (collect 0 base t xs)) j = Some ej ->
  occurs v ei = true -> occurs v ej = true -> i = j.
Proof. exact collect_copies_disjoint. Qed.
Print Assumptions C09_findall_copies_are_disjoint.

Theorem C09_findall_at_most_once : forall call t g l s r,
  builtin call (s_ "findall") [t; g; l] s = Some r -> length (fst r) <= 1.
Proof. exact findall_at_most_once. Qed.
Print Assumptions C09_findall_at_most_once.

(* non-vacuity / witness: an unbound variable of the caller inside an instance is a NEW variable inside the list (the
   engine copies since the repair D27, as standard Prolog).  On the compiled-code model and on the clause-level reference:
     t(V) :- findall(X, X = V, [b]).         ?- t(V).     one answer, V stays unbound (sharing would give V = b)
     u(V,L) :- findall(X, X = V, L), V = a.   ?- u(V,L).   V = a and L = [_G], _G a variable other than V (sharing: L = [a]) *)
Theorem C09_findall_copies_instances :
  exists ir, compile_program share_prog = Some ir /\
  map (fun x => den (sto x) (TVar 0)) (fst (query 10 ir (d "t") [TVar 0] {| sto := []; nxt := 1 |})) = [TVar 0] /\
  map (fun x => den (sto x) (TVar 0)) (fst (solveA 10 share_prog (d "t") [TVar 0] {| sto := []; nxt := 1 |})) = [TVar 0] /\
  map (fun x => match den (sto x) (TVar 1) with
                | TFun _ [e; _] => (den (sto x) (TVar 0), is_var_other_than 0 e)
                | _ => (TVar 0, false) end)
      (fst (query 10 ir (d "u") [TVar 0; TVar 1] {| sto := []; nxt := 2 |})) = [(TAtom (d "a"), true)].
Proof. exact findall_copies_instances. Qed.
Print Assumptions C09_findall_copies_instances.

(* X = Y has the answers of unification (C02) *)
Theorem C09_eq_spec : forall call a b s, builtin call (s_ "=") [a; b] s = Some (unify_st s a b).
Proof. exact eq_spec. Qed.
Print Assumptions C09_eq_spec.

(* ... and its bindings live in those answers only: whatever a goal A binds (A may be X = T, the first occurrence of X or
   not), when the goals G after it in the same scope fail for every answer of A, the construct around the scope goes on from
   the state in which it was ENTERED: the else branch of an if-then-else, *)
Theorem C09_condition_failure_discards_bindings : forall (S : Type) (I : str -> list sterm -> S -> list S * bool) A G T E s xs,
  sem I A s = (xs, FNorm) -> (forall x, In x xs -> sem I G x = ([], FNorm)) ->
  sem I (BOr (BIf (BAnd A G) T) E) s = sem I E s.
Proof. exact condition_failure_discards_bindings. Qed.
Print Assumptions C09_condition_failure_discards_bindings.

(* ... the goals after the if-then-else, *)
Theorem C09_after_failed_condition : forall (S : Type) (I : str -> list sterm -> S -> list S * bool) A G T E K s xs,
  sem I A s = (xs, FNorm) -> (forall x, In x xs -> sem I G x = ([], FNorm)) ->
  sem I (BAnd (BOr (BIf (BAnd A G) T) E) K) s = sem I (BAnd E K) s.
Proof. exact after_failed_condition. Qed.
Print Assumptions C09_after_failed_condition.

(* ... the goals after a negation (which never passes a binding on, whatever its goal does), *)
Theorem C09_negation_discards_bindings : forall (S : Type) (I : str -> list sterm -> S -> list S * bool) G s x,
  In x (fst (sem I (BNot G) s)) -> x = s.
Proof. exact neg_binds_nothing. Qed.
Print Assumptions C09_negation_discards_bindings.

(* ... and the other branch of a disjunction. *)
Theorem C09_branch_failure_discards_bindings : forall (S : Type) (I : str -> list sterm -> S -> list S * bool) A G B s xs,
  sem I A s = (xs, FNorm) -> (forall x, In x xs -> sem I G x = ([], FNorm)) ->
  sem I (BOr (BAnd A G) B) s = sem I B s.
Proof. exact branch_failure_discards_bindings. Qed.
Print Assumptions C09_branch_failure_discards_bindings.

(* X \= Y succeeds once, with the unchanged state, exactly when X and Y do not unify *)
Theorem C09_neq_spec : forall call a b s,
  builtin call (s_ "\=") [a; b] s =
  Some (match unify_fast ufuel (sto s) a b with UOk _ => ([], false) | UFail => ([s], false) | _ => ([], true) end).
Proof. exact neq_spec. Qed.
Print Assumptions C09_neq_spec.

(* non-vacuity:  t(L) :- G = q(X), findall(X, call(G), L).   q(a). q(b).   gives L = [a,b] *)
Definition findall_prog : program :=
  [ {| c_name := d "t"; c_args := [SVar (d "L")];
       c_body := BAnd (BCall (d "=") [SVar (d "G"); SFun (d "q") [SVar (d "X")]])
                      (BCall (d "findall") [SVar (d "X"); SFun (d "call") [SVar (d "G")]; SVar (d "L")]) |};
    {| c_name := d "q"; c_args := [SAtom (d "a")]; c_body := BTrue |};
    {| c_name := d "q"; c_args := [SAtom (d "b")]; c_body := BTrue |} ].
Example C09_nonvacuous :
  good_program findall_prog /\
  exists ir, compile_program findall_prog = Some ir /\
  map (fun x => den (sto x) (TVar 0)) (fst (query 10 ir (d "t") [TVar 0] {| sto := []; nxt := 1 |}))
  = [mk_list [TAtom (d "a"); TAtom (d "b")]].
Proof.
  split.
  - repeat constructor.
  - apply some_such_that. vm_compute. reflexivity.
Qed.

(* non-vacuity of the scope theorems on the compiled-code model:
   t(R) :- ( X = a, ok(X) -> R = then(X) ; R = else(X) ).   ok(b).      ?- t(R).   R = else(_): the binding X = a is gone *)
Definition scope_prog : program :=
  [ {| c_name := d "t"; c_args := [SVar (d "R")];
       c_body := BOr (BIf (BAnd (BCall (d "=") [SVar (d "X"); SAtom (d "a")]) (BCall (d "ok") [SVar (d "X")]))
                          (BCall (d "=") [SVar (d "R"); SFun (d "then") [SVar (d "X")]]))
                     (BCall (d "=") [SVar (d "R"); SFun (d "else") [SVar (d "X")]]) |};
    {| c_name := d "ok"; c_args := [SAtom (d "b")]; c_body := BTrue |} ].
Example C09_nonvacuous_scope :
  exists ir, compile_program scope_prog = Some ir /\
  exists k, map (fun x => den (sto x) (TVar 0)) (fst (query 10 ir (d "t") [TVar 0] {| sto := []; nxt := 1 |})) = [TFun (d "else") [TVar k]].
Proof. apply some_such_that. vm_compute. eexists. reflexivity. Qed.

(* findall unifies the bag only AFTER the enumeration of G is complete.  What is collected - the list of
   instances and the variable counter, or the fact that G ended in an error - is a function of the call, the template,
   the goal and the state of the call (findall_collected), fixed before the bag l is looked at; the bag is then unified
   with that list in the store of the call.  So G runs in the state of the call whatever the bag is (unbound, closed or
   partial list, sharing variables with G or not), and no binding flows from the bag into the enumeration of G. *)
Theorem C09_findall_bag_after_enumeration : forall call t g s,
  exists r : option (list term * nat),
    r = findall_collected call t g s /\
    forall l, builtin call (s_ "findall") [t; g; l] s =
              Some (match r with
                    | None => ([], true)
                    | Some (es, b) => unify_st {| sto := sto s; nxt := b |} l (mk_list es)
                    end).
Proof. exact findall_bag_after_enumeration. Qed.
Print Assumptions C09_findall_bag_after_enumeration.

(* non-vacuity: a goal whose SECOND answer exists only while V is unbound-or-b, called with a partial list as bag that
   shares V with the goal through the first instance:
     r(V,X) :- X = V.      r(V,X) :- V = b, X = c.      t(V,T) :- findall(X, r(V,X), [a|T]).
   On its own r(V,X) has the answers X = V and V = b, X = c, so the instances are [_G, c] (the first one a copy of the
   unbound V) and [a|T] = [_G, c] gives T = [c] and leaves V unbound.  (Matching the bag while r is still running
   would bind V to a after the first answer and lose the second: T = [].) *)
Definition bag_prog : program :=
  [ {| c_name := d "r"; c_args := [SVar (d "V"); SVar (d "X")]; c_body := BCall (d "=") [SVar (d "X"); SVar (d "V")] |};
    {| c_name := d "r"; c_args := [SVar (d "V"); SVar (d "X")];
       c_body := BAnd (BCall (d "=") [SVar (d "V"); SAtom (d "b")]) (BCall (d "=") [SVar (d "X"); SAtom (d "c")]) |};
    {| c_name := d "t"; c_args := [SVar (d "V"); SVar (d "T")];
       c_body := BCall (d "findall") [SVar (d "X"); SFun (d "r") [SVar (d "V"); SVar (d "X")]; SPair (SAtom (d "a")) (SVar (d "T"))] |} ].
Example C09_bag_nonvacuous :
  good_program bag_prog /\
  exists ir, compile_program bag_prog = Some ir /\
  map (fun x => (den (sto x) (TVar 0), den (sto x) (TVar 1))) (fst (query 10 ir (d "t") [TVar 0; TVar 1] {| sto := []; nxt := 2 |}))
  = [(TVar 0, mk_list [TAtom (d "c")])].
Proof.
  split.
  - repeat constructor.
  - apply some_such_that. vm_compute. reflexivity.
Qed.

(* findall(T,G,L) is "collect, then match": findall(T,G,V), L = V for a new variable V (unbound, occurring
   neither in L nor in the collected list).  The first step succeeds exactly once and binds only V; matching L against
   V afterwards ends exactly as the direct call does (success / failure / error) with the SAME new bindings nw; the two
   final stores differ only by the binding of the auxiliary V. *)
Theorem C09_findall_is_collect_then_match : forall call t g l s v es b,
  wf (sto s) -> lookup v (sto s) = None ->
  occurs v (den (sto s) l) = false ->
  findall_collected call t g s = Some (es, b) ->
  occurs v (den (sto s) (mk_list es)) = false ->
  let m := den (sto s) (mk_list es) in
  let s1 := {| sto := (v, m) :: sto s; nxt := b |} in
  builtin call (s_ "findall") [t; g; TVar v] s = Some ([s1], false) /\
  match unify ufuel [] (den (sto s) l) m with
  | UOk nw => builtin call (s_ "findall") [t; g; l] s = Some ([{| sto := nw ++ sto s; nxt := b |}], false) /\
              unify_st s1 l (TVar v) = ([{| sto := nw ++ (v, m) :: sto s; nxt := b |}], false)
  | UFail => builtin call (s_ "findall") [t; g; l] s = Some ([], false) /\ unify_st s1 l (TVar v) = ([], false)
  | _ => builtin call (s_ "findall") [t; g; l] s = Some ([], true) /\ unify_st s1 l (TVar v) = ([], true)
  end.
Proof. exact findall_as_fresh_bag_then_unify. Qed.
Print Assumptions C09_findall_is_collect_then_match.

(* non-vacuity: the hypotheses hold for the call of bag_prog above - template X = cell 2, goal r(V,X) with V = cell 0,
   bag [a|T] with T = cell 1, auxiliary variable cell 3, in the empty store with 4 cells allocated; the collected list is
   [_4, c] (the first instance is a copy of the unbound V: cell 0 of the first answer moved to 4 + 0) and the match binds
   that copy to a and T to [c] *)
Example C09_collect_then_match_nonvacuous :
  let call := query 9 (match compile_program bag_prog with Some ir => ir | None => [] end) in
  let s := {| sto := []; nxt := 4 |} in
  let g := TFun (d "r") [TVar 0; TVar 2] in
  let l := cons_term (TAtom (d "a")) (TVar 1) in
  findall_collected call (TVar 2) g s = Some ([TVar 4; TAtom (d "c")], 12) /\
  wf (sto s) /\ lookup 3 (sto s) = None /\ occurs 3 (den (sto s) l) = false /\
  occurs 3 (den (sto s) (mk_list [TVar 4; TAtom (d "c")])) = false /\
  unify ufuel [] (den (sto s) l) (den (sto s) (mk_list [TVar 4; TAtom (d "c")])) =
    UOk [(1, mk_list [TAtom (d "c")]); (4, TAtom (d "a"))].
Proof. vm_compute. repeat split; constructor. Qed.
