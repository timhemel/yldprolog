(* C13 - a stored fact is an independent copy of the asserted term.
   Statements, each proved by the theorem of the Engine files it names (copy_term: DbFactsThms.v; histories on a
   shared heap: DbHeapThms.v, DbHeapRet.v; compiled code: DbProgInv.v, DbProgVisits.v), and evaluated examples.  den s = the engine's deep get_value under the bindings s; cells are numbered by an
   allocation counter (Variable() returns cell n and the counter becomes n+1). *)
From Coq Require Import String.
From Coq Require Import List Arith ZArith.
Import ListNotations.
From YP Require Import Base.Str Term.Term Term.Fast Unify.Unify Unify.Fast Engine.Frame Engine.Db Engine.DbCursor Engine.DbFacts Engine.DbFactsThms Engine.DbHeap Engine.DbHeapThms Engine.DbHeapRet Engine.DbProg Engine.DbProgInv Engine.DbProgVisits.

(* "A fact stored by assert holds the value its argument had at the moment of the assertion, at every
   depth of the term": the stored arguments are den s values (deep dereference: any chain, any nesting)
   with the variables that are still unbound renamed by an injective mapping m, the same for the whole
   fact (sharing inside the fact is kept), into cells n..n'-1 that did not exist before ("belong to
   the fact") *)
Theorem C13_stored_value_at_assert_time : forall s n values stored n',
  answer_init s n values = (stored, n') ->
  exists m, stored = map (mapp m) (map (den s) values) /\
            minj m /\ mrange m n n' /\ n <= n' /\
            (forall x, In x values -> covered (den s x) m) /\
            (forall w, occurs_l w stored = true -> n <= w < n').
Proof. exact stored_value_at_assert_time. Qed.
Print Assumptions C13_stored_value_at_assert_time.

(* "later binding, unbinding or backtracking of variables that occurred in it never changes what the
   fact matches": the term a use unifies with is computed from the stored arguments alone; two heaps
   in which the fact's own cells are unbound give the same copy *)
Theorem C13_stored_independent_of_later_heap : forall s1 s2 n stored,
  (forall t, In t stored -> free_in s1 t) -> (forall t, In t stored -> free_in s2 t) ->
  copy_args s1 stored n = copy_args s2 stored n.
Proof. exact stored_independent_of_later_heap. Qed.
Print Assumptions C13_stored_independent_of_later_heap.

Theorem C13_answer_match_independent : forall fuel s n goal stored,
  (forall t, In t stored -> free_in s t) ->
  answer_match fuel s n goal stored = (unify_arrays fuel s goal (fst (copy_args [] stored n)), snd (copy_args [] stored n)).
Proof. exact answer_match_independent. Qed.
Print Assumptions C13_answer_match_independent.

(* "fresh at every use, so two simultaneous uses of the same fact ... never constrain each other":
   the copies of two uses share no cell with each other nor with the fact *)
Theorem C13_two_uses_disjoint : forall s1 s2 stored n1 cs1 n1' n2 cs2 n2',
  copy_args s1 stored n1 = (cs1, n1') -> n1' <= n2 -> copy_args s2 stored n2 = (cs2, n2') ->
  (forall w, occurs_l w stored = true -> w < n1) ->
  forall w, (occurs_l w cs1 = true -> occurs_l w cs2 = false /\ occurs_l w stored = false) /\
            (occurs_l w cs2 = true -> occurs_l w stored = false).
Proof. exact two_uses_disjoint. Qed.
Print Assumptions C13_two_uses_disjoint.

(* "Unbound variables inside a stored fact belong to the fact": an invariant over ALL histories of the
   heap machine DbHeap.v (suspended unifications = bindings made before / after the assertion, through
   chains, inside structures; asserta/assertz under those bindings, also of a goal held in a variable;
   goals on the facts that stay suspended; resumption and closing in LIFO order = backtracking; reads).
   op_ok p: the program's terms mention only the program's own variables (cells < p; the API gives no
   access to the Variable objects inside an Answer).  In every reachable state, for every variable w
   inside a stored fact: w is unbound, no binding of the heap mentions w, no suspended goal mentions w,
   and w is not a program variable. *)
Theorem C13_fact_vars_never_bound : forall fuel p ops h outs,
  Forall (op_ok p) ops -> hrun fuel (hinit p) ops = Some (h, outs) ->
  forall k f t w, In f (hdb h k) -> In t (fargs f) -> occurs w t = true ->
    lookup w (hs h) = None /\
    (forall v u, In (v, u) (hs h) -> v <> w /\ occurs w u = false) /\
    (forall pat rest mk, In (FQuery pat rest mk) (hstk h) -> forall a, In a pat -> occurs w a = false) /\
    p <= w.
Proof. exact fact_vars_never_bound. Qed.
Print Assumptions C13_fact_vars_never_bound.

(* the invariant itself, from any state that satisfies it (F = the cells owned by facts) *)
Theorem C13_heap_invariant : forall fuel ops p F h h' outs, inv p F h -> Forall (op_ok p) ops ->
  hrun fuel h ops = Some (h', outs) -> exists F', inv p F' h' /\ (forall w, F w = true -> F' w = true).
Proof. exact hrun_inv. Qed.
Print Assumptions C13_heap_invariant.

(* "... and are fresh at every use, so two simultaneous uses of the same fact, or a use and the clause
   that asserted it, never constrain each other" + "later binding, unbinding or backtracking of
   variables that occurred in it never changes what the fact matches": in every reachable state, whatever
   the heap is, a use of a stored fact unifies the goal with copy_args [] (fargs f) n - a function of the
   stored arguments and the allocation counter only - and every cell of that copy is new (not allocated
   before), unbound, and occurs in no stored fact *)
Theorem C13_uses_see_stored_value : forall fuel p ops h outs,
  Forall (op_ok p) ops -> hrun fuel (hinit p) ops = Some (h, outs) ->
  forall k f goal, In f (hdb h k) ->
    answer_match fuel (hs h) (hn h) goal (fargs f) =
      (unify_arrays fuel (hs h) goal (fst (copy_args [] (fargs f) (hn h))), snd (copy_args [] (fargs f) (hn h))) /\
    (forall t w, In t (fst (copy_args [] (fargs f) (hn h))) -> occurs w t = true ->
       hn h <= w /\ lookup w (hs h) = None /\ forall g u, In g (hdb h k) -> In u (fargs g) -> occurs w u = false).
Proof. exact uses_see_stored_value. Qed.
Print Assumptions C13_uses_see_stored_value.

(* non-vacuity of the history theorems: X = f(Y), assertz(p(X, Z)), Y = a, then two simultaneous uses
   p(f(b), c) and p(U, d) both succeed (the stored Y and Z are nobody's variables), backtracking over all
   of it leaves the fact p(f(_), _) *)
Example C13_history_nonvacuous :
  let a := TAtom (d "a") in let b := TAtom (d "b") in let c := TAtom (d "c") in let dd := TAtom (d "d") in
  let f x := TFun (d "f") [x] in
  let ops := [HUnify (TVar 0) (f (TVar 1)); HAssert false (TFun (d "p") [TVar 0; TVar 2]); HUnify (TVar 1) a;
              HCall (d "p") [f b; c]; HCall (d "p") [TVar 3; dd]; HObs [TVar 0; TVar 3]; HPop; HPop; HPop; HPop;
              HRead (d "p") 2] in
  Forall (op_ok 4) ops /\
  exists h outs, hrun 50 (hinit 4) ops = Some (h, outs) /\
    outs = [HOk; HOk; HOk; HAns [f b; c]; HAns [f (TVar 8); dd]; HSeen [f a; f (TVar 8)]; HOk; HOk; HOk; HOk;
            HAll [[f (TVar 12); TVar 13]]].
Proof.
  cbv zeta. split.
  - repeat match goal with
    | |- Forall _ [] => apply Forall_nil
    | |- Forall _ (_ :: _) => apply Forall_cons
    | |- _ /\ _ => split
    | |- True => exact I
    | |- op_ok _ _ => simpl
    | |- tprog _ _ => intros w Hw; do 4 (destruct w as [|w]; [reflexivity|]); simpl in Hw; discriminate
    end.
  - eexists. eexists. split; vm_compute; reflexivity.
Qed.

(* non-vacuity: X = f(Y), Y = a (a chain inside a structure), Z unbound: assertz(p(X, Z, Z)) stores
   p(f(a), _G, _G) with one new cell *)
Example C13_nonvacuous :
  let s := [(1, TAtom (d "a")); (0, TFun (d "f") [TVar 1])] in
  wf s /\ answer_init s 3 [TVar 0; TVar 2; TVar 2] = ([TFun (d "f") [TAtom (d "a")]; TVar 3; TVar 3], 4).
Proof. split; [repeat constructor|vm_compute; reflexivity]. Qed.

(* "fresh at every use" ACROSS TIME (Engine/DbHeapRet.v): histories that also contain findall/3 (the use of the
   fact runs to its end inside, the answers stay in the bag) and in which the caller keeps every answer it ever
   obtained (kept outs: the arguments of every goal at each of its answers, every row of every read).
   rrun = the heap machine with RBase (a step of DbHeap), RFindall, RKept (look at the retained answers).

   In the state reached by ANY such history, the copy that the NEXT use of a stored fact unifies with is made of cells
   that do not exist yet; so it shares no variable with any answer handed out before (neither as it was, nor in its
   value under the bindings of now), with any binding of the heap (findall results live there), or with the value of
   any term of the program.  A use that ended, and whose answers are still held by somebody, can therefore never be
   constrained by a later use, and a later use never finds its variables already bound. *)
Theorem C13_sequential_uses_fresh : forall fuel p ops h outs,
  Forall (rop_ok p) ops -> rrun fuel (hinit p) ops = Some (h, outs) ->
  forall k f goal, In f (hdb h k) ->
    answer_match fuel (hs h) (hn h) goal (fargs f) =
      (unify_arrays fuel (hs h) goal (fst (copy_args [] (fargs f) (hn h))), snd (copy_args [] (fargs f) (hn h))) /\
    (forall c w, In c (fst (copy_args [] (fargs f) (hn h))) -> occurs w c = true ->
      hn h <= w /\
      (forall a t, In a (kept outs) -> In t a -> occurs w t = false /\ occurs w (den (hs h) t) = false) /\
      (forall v u, In (v, u) (hs h) -> v <> w /\ occurs w u = false) /\
      (forall t, tprog p t -> occurs w (den (hs h) t) = false)).
Proof. exact sequential_uses_fresh. Qed.
Print Assumptions C13_sequential_uses_fresh.

(* "unbound variables inside a stored fact belong to the fact": the fact's own cells never escape - no answer ever
   handed out (then or under the bindings of now) and no value of a term of the program mentions one *)
Theorem C13_fact_vars_never_escape : forall fuel p ops h outs,
  Forall (rop_ok p) ops -> rrun fuel (hinit p) ops = Some (h, outs) ->
  forall k f u w, In f (hdb h k) -> In u (fargs f) -> occurs w u = true ->
    (forall a t, In a (kept outs) -> In t a -> occurs w t = false /\ occurs w (den (hs h) t) = false) /\
    (forall t, tprog p t -> occurs w (den (hs h) t) = false).
Proof. exact fact_vars_never_escape. Qed.
Print Assumptions C13_fact_vars_never_escape.

(* the invariant behind both, from any state that satisfies it: K = answers retained so far *)
Theorem C13_retained_answers_invariant : forall fuel ops p F h h' outs K,
  inv p F h -> Forall (lin (Pc (hn h) F)) K -> Forall (rop_ok p) ops -> rrun fuel h ops = Some (h', outs) ->
  exists F', inv p F' h' /\ (forall w, F w = true -> F' w = true) /\ Forall (lin (Pc (hn h') F')) (K ++ kept outs).
Proof. exact rrun_inv. Qed.
Print Assumptions C13_retained_answers_invariant.

(* non-vacuity: assertz(p(f(_))); findall(X, p(X), L) - the use ends inside, L = [f(_G5)] keeps its answer; a goal
   p(Y) whose use ends (redo), its answer f(_G6) retained by the caller; then p(Z), Z = f(a): the third use gets the
   new cell _G7; L is still [f(_G5)] and the retained answers are still f(_G6), f(_G7 := a) *)
Example C13_sequential_nonvacuous :
  let a := TAtom (d "a") in let f x := TFun (d "f") [x] in
  let ops := [RBase (HAssert false (TFun (d "p") [f (TVar 4)])); RFindall (TVar 0) (d "p") [TVar 0] (TVar 1);
              RBase (HCall (d "p") [TVar 2]); RBase HRedo; RBase (HCall (d "p") [TVar 3]);
              RBase (HUnify (TVar 3) (f a)); RKept; RBase (HObs [TVar 1; TVar 3])] in
  Forall (rop_ok 5) ops /\
  exists h outs, rrun 50 (hinit 5) ops = Some (h, outs) /\
    outs = [HOk; HOk; HAns [f (TVar 8)]; HEnd; HAns [f (TVar 9)]; HOk; HOk;
            HSeen [TFun (d ".") [f (TVar 7); TAtom (d "[]")]; f a]] /\
    kept outs = [[f (TVar 8)]; [f (TVar 9)]] /\
    map (map (den (hs h))) (kept outs) = [[f (TVar 8)]; [f a]].
Proof.
  cbv zeta. split.
  - repeat match goal with
    | |- Forall _ [] => apply Forall_nil
    | |- Forall _ (_ :: _) => apply Forall_cons
    | |- _ /\ _ => split
    | |- True => exact I
    | |- rop_ok _ _ => simpl
    | |- op_ok _ _ => simpl
    | |- tprog _ _ => intros w Hw; do 5 (destruct w as [|w]; [reflexivity|]); simpl in Hw; discriminate
    end.
  - eexists. eexists. split; [vm_compute; reflexivity|]. split; [reflexivity|]. split; vm_compute; reflexivity.
Qed.

(* The same invariant OVER ALL COMPILED-CODE HISTORIES (DbProg.solve: goals on dynamic facts and on compiled
   predicates, =, asserta/assertz, retract, retractall, goals suspended inside each other to any depth).
   prog_ok: every clause mentions only its own variables 0 .. cnv-1.  visits uf prog n c c': the run of solve
   started in configuration c reaches the activation c' (DbProgVisits.v: the activations of the depth-first
   search in execution order; a configuration = goals still to run, bindings, global state, and - ghost - the
   stack of suspended goals with their arguments and the rest of their snapshots).  live_fact c' f: f is
   stored, or is still held in the snapshot of a suspended goal (it may have been retracted meanwhile).
   cfg_inv F c: the invariant for the set F of fact-owned cells; cfg_inv_init: it holds when a query starts. *)

(* the invariant is preserved along every run (F only grows, by cells that are new when they are added) *)
Theorem C13_compiled_invariant : forall uf prog, prog_ok prog -> forall n c c', visits uf prog n c c' ->
  forall F, cfg_inv F c -> exists F', grow F (gn (cg c)) F' (gn (cg c')) /\ cfg_inv F' c'.
Proof. exact visits_inv. Qed.
Print Assumptions C13_compiled_invariant.

(* ... and by a complete run of a body (the state in which the next query starts) *)
Theorem C13_compiled_invariant_big_step : forall uf prog, prog_ok prog -> forall n gs s g g' a tr fl F,
  cinv F gs s g -> solve uf prog n gs s g = Some (g', a, tr, fl) ->
  exists F', grow F (gn g) F' (gn g') /\ ginv F' g'.
Proof. exact solve_inv. Qed.
Print Assumptions C13_compiled_invariant_big_step.

(* "Unbound variables inside a stored fact belong to the fact": in every configuration a compiled run reaches,
   every variable w inside a live fact is unbound, occurs in no binding, in no goal still to run, in no
   suspended goal, and is an allocated cell (no later Variable() is w) *)
Theorem C13_compiled_fact_vars_never_bound : forall uf prog, prog_ok prog -> forall n c c' F,
  cfg_inv F c -> visits uf prog n c c' ->
  forall f t w, live_fact c' f -> In t (fargs f) -> occurs w t = true ->
    Term.lookup w (cst c') = None /\
    (forall v u, In (v, u) (cst c') -> v <> w /\ occurs w u = false) /\
    (forall gl a, In gl (cgs c') -> In a (goal_terms gl) -> occurs w a = false) /\
    (forall fr a, In fr (cstk c') -> In a (fst fr) -> occurs w a = false) /\
    w < gn (cg c').
Proof. exact prog_fact_vars_never_bound. Qed.
Print Assumptions C13_compiled_fact_vars_never_bound.

(* "... and are fresh at every use": in every configuration a compiled run reaches, a use of a live fact unifies
   the goal with copy_args [] (fargs f) n - a function of the stored arguments and the allocation counter alone -
   whose cells are new, unbound and occur in no live fact *)
Theorem C13_compiled_uses_see_stored_value : forall uf prog, prog_ok prog -> forall n c c' F,
  cfg_inv F c -> visits uf prog n c c' ->
  forall f goal, live_fact c' f ->
    answer_match_fast uf (cst c') (gn (cg c')) goal (fargs f) =
      (unify_arrays uf (cst c') goal (fst (copy_args [] (fargs f) (gn (cg c')))), snd (copy_args [] (fargs f) (gn (cg c')))) /\
    (forall t w, In t (fst (copy_args [] (fargs f) (gn (cg c')))) -> occurs w t = true ->
       gn (cg c') <= w /\ Term.lookup w (cst c') = None /\
       forall f' u, live_fact c' f' -> In u (fargs f') -> occurs w u = false).
Proof. exact prog_uses_see_stored_value. Qed.
Print Assumptions C13_compiled_uses_see_stored_value.

Theorem C13_compiled_invariant_at_query_start : forall nv work gs,
  Forall (goal_in (below nv)) gs -> cfg_inv (fun _ => false) (cfg_init nv work gs).
Proof. exact cfg_inv_init. Qed.
Print Assumptions C13_compiled_invariant_at_query_start.

(* non-vacuity: X0 = f(X1), assertz(p(X0, X2)), X1 = a, p(X3, d): the run reaches the activation inside the goal
   p(X3, d) - the fact p(f(_4), _5) is live, the goal is suspended with X3 = f(_6): the fact's cells 4, 5 are
   nobody's *)
Example C13_compiled_nonvacuous :
  let a := TAtom (d "a") in let dd := TAtom (d "d") in let f x := TFun (d "f") [x] in
  let gs := [GUnify (TVar 0) (f (TVar 1)); GAssert false (TFun (d "p") [TVar 0; TVar 2]); GUnify (TVar 1) a;
             GCall (d "p") [TVar 3; dd]] in
  cfg_inv (fun _ => false) (cfg_init 4 100 gs) /\
  exists s' g' stk', visits 20 [] 4 (cfg_init 4 100 gs) ([], s', g', stk') /\
    map fargs (gdb g' (d "p", 2)) = [[f (TVar 4); TVar 5]] /\ den s' (TVar 3) = f (TVar 6) /\ den s' (TVar 0) = f a /\
    stk' = [([TVar 3; dd], [])].
Proof.
  cbv zeta. split.
  - apply cfg_inv_init. repeat constructor; simpl; auto 10 with tin_db.
  - eexists. eexists. eexists. split.
    + eapply v_call; [eapply c_unify; [reflexivity|vm_compute; reflexivity]|].
      eapply v_call; [eapply c_assert; [reflexivity|vm_compute; reflexivity|vm_compute; reflexivity]|].
      eapply v_call; [eapply c_unify; [reflexivity|vm_compute; reflexivity]|].
      eapply v_call; [eapply c_call_facts; [reflexivity|]|apply v_here].
      vm_compute. eapply cq_here. vm_compute. reflexivity.
    + vm_compute. repeat split.
Qed.

(* adequacy of `visits`: the relation covers the run - every solution (answer store) of a run of solve is a
   configuration that the run visits (so the theorems above hold in particular at every solution) *)
Theorem C13_compiled_visits_covers_solutions : forall uf prog n gs s g g' a tr fl stk s',
  solve uf prog n gs s g = Some (g', a, tr, fl) -> In s' a ->
  exists g'' stk', visits uf prog n (gs, s, g, stk) ([], s', g'', stk').
Proof. exact visits_answers. Qed.
Print Assumptions C13_compiled_visits_covers_solutions.
