(* C20 - Python predicates are interchangeable with compiled ones.
   The statements of the property, each proved by `exact <lemma>` to a lemma of the layer files (Sem/Native*.v,
   Engine/Native*Mono.v, Sem/Consumers.v), and non-vacuity examples proved by evaluation.

   world                    the engine: functions of the loaded script (w_ir), Python predicates registered under a key
                            name_k (w_fix: arity inferred or explicit) or name_n (w_var: variadic), dynamic facts (w_dyn)
   nfun                     a registered predicate as its answer function: arguments, state |-> answers (state, yielded
                            value) in order + "then raises"
   nquery n w name args s   YP.query: dynamic facts first, then the function found under name_<len args>, else name_n;
                            n = nesting depth of calls.  Answers are states; the yielded values are dropped (`drop`) where
                            a query is consumed, as the emitted code and the builtins do
   native_rows rows vals    for row in rows: for _ in unify_arrays(args, row): yield vals[row]    (rows over fresh variables)
   raising f j              f, raising instead of delivering its answer number j *)
From Coq Require Import String.
From Coq Require Import List Arith ZArith.
Import ListNotations.
From YP Require Import Base.Str Term.Term Unify.Unify Lang.Ast Comp.IR Comp.CompileBody Comp.CompileClause Sem.Res Sem.RefSem Sem.IRSem Sem.ExecMono
  Sem.Machine Sem.RunSem Sem.ClauseSem Sem.ProgramCorrect Sem.Native Sem.NativeThms Sem.NativeFacts Sem.NativeSource Sem.NativeExc Engine.RunBoundedM Engine.NativeMono
  Unify.Bounded Sem.Fresh Sem.RenameSim Sem.NativeRename Sem.NativeChain Sem.NativeChainExc Engine.BoundedMachine Engine.NativeChainMono.

(* ---- sem_extensional: the answers of a body / of emitted code / of a whole engine depend on a predicate only through
        its answer function (no functional extensionality axiom) *)

Theorem C20_sem_extensional_body : forall (S : Type) (I I' : str -> list sterm -> S -> list S * bool),
  (forall f a s, I f a s = I' f a s) -> forall b s, sem I b s = sem I' b s.
Proof. exact sem_ext. Qed.
Print Assumptions C20_sem_extensional_body.

Theorem C20_sem_extensional_code : forall (S : Type) (assign : str -> expr -> S -> S) (J1 J2 : expr -> S -> list S * bool),
  (forall it s, J1 it s = J2 it s) -> forall c s f, exec_list J1 assign c s f = exec_list J2 assign c s f.
Proof. exact exec_list_ext. Qed.
Print Assumptions C20_sem_extensional_code.

(* by induction on the call depth: engines whose registered predicates agree pointwise (for a consumer that ignores the
   yielded values) answer every query alike *)
Theorem C20_sem_extensional_program : forall w1 w2, same_answers w1 w2 ->
  forall n name args s, nquery n w1 name args s = nquery n w2 name args s.
Proof. exact sem_extensional_program. Qed.
Print Assumptions C20_sem_extensional_program.

(* ---- yield_value_irrelevant: at the predicate ... *)
Theorem C20_yield_value_irrelevant_leaf : forall rows vals args s,
  drop (native_rows rows vals args s) = match_rows rows args s.
Proof. exact drop_native_rows. Qed.
Print Assumptions C20_yield_value_irrelevant_leaf.

(* ... and for every query of every engine: changing only the values that a registered predicate yields changes nothing *)
Theorem C20_yield_value_irrelevant : forall ir fixl varl dynl name k rows vals1 vals2 n qname args s,
  nquery n (mk_world ir ((name, k, native_rows rows vals1) :: fixl) varl dynl) qname args s =
  nquery n (mk_world ir ((name, k, native_rows rows vals2) :: fixl) varl dynl) qname args s.
Proof. exact yield_value_irrelevant_world. Qed.
Print Assumptions C20_yield_value_irrelevant.

(* ---- native_equals_compiled_facts: the generator function compiled from name(row_1). ... name(row_n). (ground rows)
        and the Python predicate over the same rows deliver the same answers for all arguments and states, whatever the
        calls mean and whatever the predicate yields *)
Theorem C20_native_equals_compiled_facts : forall call name rows vals cnt code cnt' args s,
  compile_clauses (map (fact_clause name) rows) cnt = Some (code, cnt') ->
  Forall (fun row => ground_row row = true /\ length row = length args) rows ->
  drop (native_rows (map row_of rows) vals args s) =
  (let '(ys, k) := run_function (iter call) assign code (bind_args 0 args, s) in
   (map snd ys, match k with CErr => true | _ => false end)).
Proof. exact native_equals_compiled_facts. Qed.
Print Assumptions C20_native_equals_compiled_facts.

(* such facts always compile *)
Theorem C20_facts_compile : forall name rows cnt, exists code, compile_clauses (map (fact_clause name) rows) cnt = Some (code, cnt).
Proof. exact compile_facts. Qed.
Print Assumptions C20_facts_compile.

(* ---- "replacing any subset of a program's fact predicates by such functions changes no answer of any query, in any
        context": engines related by any number of swaps (Python predicate under a fixed key <-> compiled facts) answer
        every query alike, at every call depth, next to any dynamic facts and other predicates *)
Theorem C20_subset_interchangeable : forall w w', swaps w w' ->
  forall n name args s, nquery n w name args s = nquery n w' name args s.
Proof. exact subset_interchangeable. Qed.
Print Assumptions C20_subset_interchangeable.

(* ---- the same for SOURCE programs and the model compiler.  rules: the program without the replaced predicates; specs: the
        replaced predicates (name, arity, ground rows, yielded values), registered under name_<arity> (arity inferred or
        explicit); P = rules ++ their facts is compiled as a whole.  Every query has the same answers against
        "compiled rules + Python predicates" and against "compiled P", at every depth, next to any dynamic facts dynl *)
Theorem C20_program_with_python_predicates : forall rules specs dynl ir irf,
  compile_program rules = Some ir -> compile_program (rules ++ py_clauses specs)%list = Some irf ->
  good_program rules -> Forall spec_ok specs -> NoDup (map fst specs) ->
  (forall c, In c rules -> lookup_fix specs (c_name c) (length (c_args c)) = None) ->
  forall n name args s,
    nquery n (mk_world ir (py_table specs) [] dynl) name args s = nquery n (mk_world irf [] [] dynl) name args s.
Proof. exact program_with_python_predicates. Qed.
Print Assumptions C20_program_with_python_predicates.

(* ... and with all three registration styles: vspecs are predicates registered with arity=-1 (key name_n); P is any program
   whose clauses per key are: the facts of a replaced predicate / the clauses of rules *)
Theorem C20_program_with_python_predicates_all_styles : forall rules P ir irf specs vspecs dynl,
  compile_program rules = Some ir -> compile_program P = Some irf -> good_program rules -> good_program P ->
  (forall name k,
    match lookup_fix specs name k with
    | Some (rows, vals) => rows <> [] /\ Forall (fun row => ground_row row = true /\ length row = k) rows /\
                           clauses_for P name k = map (fact_clause name) rows
    | None =>
        match lookup_var vspecs name with
        | Some (kv, rows, vals) =>
            (forall c a s0, builtin c name a s0 = None) /\ str_eqb name (s_ "call") = false /\
            clauses_for rules name k = [] /\ rows <> [] /\
            Forall (fun row => ground_row row = true /\ length row = kv) rows /\
            clauses_for P name k = (if Nat.eqb k kv then map (fact_clause name) rows else [])
        | None => clauses_for P name k = clauses_for rules name k
        end
    end) ->
  forall n name args s,
    nquery n (mk_world ir (py_table specs) (pyv_table vspecs) dynl) name args s = nquery n (mk_world irf [] [] dynl) name args s.
Proof. exact source_interchangeable_all_styles. Qed.
Print Assumptions C20_program_with_python_predicates_all_styles.

(* ... hence, with C01 (ProgramCorrect.machine_computes_clause_semantics): rules compiled alone + Python predicates compute, for
   every query, exactly the clause-level reference semantics of the WHOLE Prolog program rules ++ facts *)
Theorem C20_python_predicates_compute_clause_semantics : forall rules specs ir irf,
  compile_program rules = Some ir -> compile_program (rules ++ py_clauses specs)%list = Some irf ->
  good_program rules -> Forall spec_ok specs -> NoDup (map fst specs) ->
  (forall c, In c rules -> lookup_fix specs (c_name c) (length (c_args c)) = None) ->
  (forall f, In f irf -> Resolve.reserved (fn_name f) = false) ->
  forall n name args s,
    nquery n (mk_world ir (py_table specs) [] []) name args s = solveA n (rules ++ py_clauses specs) name args s.
Proof. exact python_predicates_compute_clause_semantics. Qed.
Print Assumptions C20_python_predicates_compute_clause_semantics.

(* ---- for ARBITRARY rows (variables, repeated variables: not only ground ones): a Python predicate over the rows answers
        every call exactly as the same rows stored as dynamic facts (assert_fact) - engines that differ only in this answer
        every query alike *)
Theorem C20_python_predicate_equals_dynamic_facts : forall w w' name k rows vals,
  python_vs_dynamic w w' name k rows vals ->
  forall n qname args s, nquery n w qname args s = nquery n w' qname args s.
Proof. exact python_equals_dynamic_facts_nquery. Qed.
Print Assumptions C20_python_predicate_equals_dynamic_facts.

(* ---- "next to dynamic facts": the stored facts of name/arity answer first, then the function found for the call *)
Theorem C20_dynamic_facts_first : forall call w name args s,
  Resolve.reserved name = false ->
  nstep call w name args s =
  (let d := match_rows (w_dyn w name (length args)) args s in
   if snd d then (fst d, true)
   else (fst d ++ fst (call_function call w name args s), snd (call_function call w name args s))).
Proof. exact dynamic_facts_first. Qed.
Print Assumptions C20_dynamic_facts_first.

(* ---- args_in_call_order: for a fixed key, and for a variadic key that nothing hides *)
Theorem C20_args_in_call_order : forall call w g sargs r s f,
  w_fix w g (length sargs) = Some f -> Resolve.reserved g = false -> w_dyn w g (length sargs) = [] ->
  iter (nstep call w) (query_expr g sargs) (r, s) =
  (map (fun x => (r, x)) (map fst (fst (f (map (instA r) sargs) s))), snd (f (map (instA r) sargs) s)).
Proof. exact args_in_call_order. Qed.
Print Assumptions C20_args_in_call_order.

Theorem C20_args_in_call_order_variadic : forall call w g sargs r s f,
  w_var w g = Some f -> w_fix w g (length sargs) = None -> find_func (w_ir w) g (length sargs) = None ->
  (forall c a s0, builtin c g a s0 = None) -> str_eqb g (s_ "call") = false ->
  Resolve.reserved g = false -> w_dyn w g (length sargs) = [] ->
  iter (nstep call w) (query_expr g sargs) (r, s) =
  (map (fun x => (r, x)) (map fst (fst (f (map (instA r) sargs) s))), snd (f (map (instA r) sargs) s)).
Proof. exact args_in_call_order_variadic. Qed.
Print Assumptions C20_args_in_call_order_variadic.

(* ---- exception_passthrough: a predicate that raises instead of its j-th answer delivers the j answers before ... *)
Theorem C20_exception_at_the_predicate : forall (f : nfun) j args s, j < length (fst (f args s)) ->
  drop (raising f j args s) = (firstn j (fst (drop (f args s))), true).
Proof. exact raising_leaf. Qed.
Print Assumptions C20_exception_at_the_predicate.

(* ... and EVERY query of EVERY engine, in every context and at every depth, either is not affected at all (the exception
   point is never reached) or delivers a prefix of its answers and then ends with the exception: nothing catches,
   replaces or delays it, no answer before it is lost *)
Theorem C20_exception_passthrough : forall w pname k j n name args s,
  let r' := nquery n (with_raising_fix w pname k j) name args s in
  let r := nquery n w name args s in
  (snd r' = false /\ r' = r) \/ (snd r' = true /\ prefixl (fst r') (fst r)).
Proof. exact exception_passthrough_fix. Qed.
Print Assumptions C20_exception_passthrough.

Theorem C20_exception_passthrough_variadic : forall w pname j n name args s,
  let r' := nquery n (with_raising_var w pname j) name args s in
  let r := nquery n w name args s in
  (snd r' = false /\ r' = r) \/ (snd r' = true /\ prefixl (fst r') (fst r)).
Proof. exact exception_passthrough_var. Qed.
Print Assumptions C20_exception_passthrough_variadic.

(* ---- "... reaches the consumer unchanged".  nqueryE is the same engine with the exception object carried along instead of
        a bool (Sem/NativeExc.v: XDepth/XUnify/XGoal/XCode are the engine's own, XPy tag is the object a Python predicate
        raised); forgetting which exception it was gives nquery exactly, so all theorems above speak about this engine *)
Theorem C20_engine_with_exceptions_refines : forall w n name args s,
  er (nqueryE n w name args s) = nquery n (erase_world w) name args s.
Proof. exact erase_nqueryE. Qed.
Print Assumptions C20_engine_with_exceptions_refines.

(* whatever property the engine's own exceptions and the exceptions raised by the registered predicates have, the exception
   that ends a query has it: the emitted code, the builtins and YP.query never create, wrap or replace one *)
Theorem C20_exception_provenance : forall (Q : exn -> Prop), Q XDepth -> Q XUnify -> Q XGoal -> Q XCode ->
  forall w : worldE,
  (forall name k f args s e, e_fix w name k = Some f -> snd (f args s) = Some e -> Q e) ->
  (forall name f args s e, e_var w name = Some f -> snd (f args s) = Some e -> Q e) ->
  forall n name args s e, snd (nqueryE n w name args s) = Some e -> Q e.
Proof. exact exception_provenance. Qed.
Print Assumptions C20_exception_provenance.

(* in particular: if the registered predicates raise nothing but the object XPy tag, a query that does not end by one of the
   engine's own exceptions ends by exactly that object *)
Theorem C20_exception_unchanged : forall w tag,
  (forall name k f args s e, e_fix w name k = Some f -> snd (f args s) = Some e -> e = XPy tag) ->
  (forall name f args s e, e_var w name = Some f -> snd (f args s) = Some e -> e = XPy tag) ->
  forall n name args s e, snd (nqueryE n w name args s) = Some e -> engine_exn e \/ e = XPy tag.
Proof. exact exception_unchanged. Qed.
Print Assumptions C20_exception_unchanged.

(* ---- the engine without Python predicates and dynamic facts is the engine of Sem/Machine.v, whose compiled programs
        compute the clause-level semantics (C01: machine_computes_clause_semantics) *)
Theorem C20_plain_is_machine : forall ir, (forall f, In f ir -> Resolve.reserved (fn_name f) = false) ->
  forall n name args s, nquery n (plain ir) name args s = query n ir name args s.
Proof. exact plain_is_machine. Qed.
Print Assumptions C20_plain_is_machine.

(* ---- non-vacuity: rules t1(X,Y) :- q(X), e(X,Y).  t2(X) :- q(X), \+ e(X,c).  t3(X) :- once(q(X)).  t4(L) :- findall(X,q(X),L).
        with q/1 = {a,b,c} and e/2 = {(a,b),(b,c)} as Python predicates (yielding mixed values) and as compiled facts *)
Local Open Scope string_scope.
Definition A (x : string) := SAtom (d x).
Definition X := SVar (d "X"). Definition Y := SVar (d "Y"). Definition L := SVar (d "L").
Definition ex_rules : program :=
  [ {| c_name := d "t1"; c_args := [X; Y]; c_body := BAnd (BCall (d "q") [X]) (BCall (d "e") [X; Y]) |};
    {| c_name := d "t2"; c_args := [X]; c_body := BAnd (BCall (d "q") [X]) (BNot (BCall (d "e") [X; A "c"])) |};
    {| c_name := d "t3"; c_args := [X]; c_body := BCall (d "once") [SFun (d "q") [X]] |};
    {| c_name := d "t4"; c_args := [L]; c_body := BCall (d "findall") [X; SFun (d "q") [X]; L] |} ].
Definition q_rows := [[A "a"]; [A "b"]; [A "c"]].
Definition e_rows := [[A "a"; A "b"]; [A "b"; A "c"]].
Definition ex_full : program := (ex_rules ++ map (fact_clause (d "q")) q_rows ++ map (fact_clause (d "e")) e_rows)%list.
Definition w_py (ir : ir_program) : world :=
  mk_world ir [(d "q", 1, native_rows (map row_of q_rows) [false; true; false]);
               (d "e", 2, native_rows (map row_of e_rows) [true; true])] [] [].

Example C20_nonvacuous :
  match compile_program ex_rules, compile_program ex_full with
  | Some ir, Some irf =>
      let ta := TAtom (d "a") in let tb := TAtom (d "b") in let tc := TAtom (d "c") in
      let ans := fun nq (r : list st * bool) => (map (answer_of nq) (fst r), snd r) in
      ans 2 (nquery 6 (w_py ir) (d "t1") [TVar 0; TVar 1] (st0 2)) = ([[ta; tb]; [tb; tc]], false) /\
      nquery 6 (w_py ir) (d "t1") [TVar 0; TVar 1] (st0 2) = nquery 6 (plain irf) (d "t1") [TVar 0; TVar 1] (st0 2) /\
      nquery 6 (w_py ir) (d "t2") [TVar 0] (st0 1) = nquery 6 (plain irf) (d "t2") [TVar 0] (st0 1) /\
      ans 1 (nquery 6 (w_py ir) (d "t2") [TVar 0] (st0 1)) = ([[ta]; [tc]], false) /\
      nquery 6 (w_py ir) (d "t4") [TVar 0] (st0 1) = nquery 6 (plain irf) (d "t4") [TVar 0] (st0 1) /\
      (* q raises instead of its answer number 1: t1 delivers its first answer, then the exception *)
      ans 2 (nquery 6 (with_raising_fix (w_py ir) (d "q") 1 1) (d "t1") [TVar 0; TVar 1] (st0 2)) = ([[ta; tb]], true) /\
      (* under once/1 the exception point is never reached *)
      ans 1 (nquery 6 (with_raising_fix (w_py ir) (d "q") 1 1) (d "t3") [TVar 0] (st0 1)) = ([[ta]], false) /\
      (* findall/3 delivers nothing and ends with the exception *)
      ans 1 (nquery 6 (with_raising_fix (w_py ir) (d "q") 1 1) (d "t4") [TVar 0] (st0 1)) = ([], true)
  | _, _ => False
  end.
Proof. vm_compute. repeat split. Qed.

(* the same with the exception object: q raises the object XPy 7 instead of its answer number 1; t1 delivers its first
   answer and then ends with exactly XPy 7, three generator frames up *)
Definition liftE (f : nfun) : nfunE := fun args s => (fst (f args s), if snd (f args s) then Some XUnify else None).
Definition wE_py (ir : ir_program) : worldE :=
  {| e_ir := ir;
     e_fix := fun n k => if key_eq (n, k) (d "q", 1) then Some (raisingE (liftE (native_rows (map row_of q_rows) [false; true; false])) 1 7)
                         else if key_eq (n, k) (d "e", 2) then Some (liftE (native_rows (map row_of e_rows) [true; true])) else None;
     e_var := fun _ => None; e_dyn := fun _ _ => [] |}.

Example C20_exception_nonvacuous :
  match compile_program ex_rules with
  | Some ir =>
      let ta := TAtom (d "a") in let tb := TAtom (d "b") in
      let r := nqueryE 6 (wE_py ir) (d "t1") [TVar 0; TVar 1] (st0 2) in
      (map (answer_of 2) (fst r), snd r) = ([[ta; tb]], Some (XPy 7)) /\
      snd (nqueryE 6 (wE_py ir) (d "t4") [TVar 0] (st0 1)) = Some (XPy 7) /\
      snd (nqueryE 6 (wE_py ir) (d "t3") [TVar 0] (st0 1)) = None /\
      snd (nqueryE 1 (wE_py ir) (d "t1") [TVar 0; TVar 1] (st0 2)) = Some XDepth
  | None => False
  end.
Proof. vm_compute. repeat split. Qed.

(* ==== rows WITH VARIABLES: equal up to an injective renaming of the cells created during the query (Sem/NativeRename.v;
        relation rel_st / rel_val / ans_rel / call_rel / same_answer of Sem/RenameSim.v).
   row_of_src row   the row of the Python predicate for the source row: its variables, numbered by first occurrence, become
                    fresh cells at every use
   noalias row      no argument of the row is a plain variable that occurs once among the top-level arguments (the compiler
                    does not create a cell for such a variable but names the goal argument: see the refuted statement) *)

(* the row loop - stored facts, a Python predicate - from related states with related arguments gives related answers *)
Theorem C20_rows_related : forall rows, Forall frow_ok rows -> forall p sA sR argsA argsR,
  rel_st p sA sR -> Forall2 (rel_val p sA sR) argsA argsR ->
  Forall2 (ans_rel p sA sR) (fst (match_rows rows argsA sA)) (fst (match_rows rows argsR sR)) /\
  snd (match_rows rows argsA sA) = snd (match_rows rows argsR sR).
Proof. exact match_rows_rel. Qed.
Print Assumptions C20_rows_related.

(* native_equals_compiled_facts for rows with variables: the generator function compiled from name(row_1). ... name(row_n).
   and the Python predicate over the same rows, called from related states with related arguments, whatever the calls mean:
   same number of answers, same order, same end, k-th answers related by a renaming of the cells the call created *)
Theorem C20_native_equals_compiled_facts_rel : forall call name rows vals cnt code cnt' p sA sR argsA argsR,
  compile_clauses (map (fact_clause name) rows) cnt = Some (code, cnt') ->
  Forall (fun row => noalias row /\ length row = length argsA) rows ->
  rel_st p sA sR -> Forall2 (rel_val p sA sR) argsA argsR ->
  let rN := drop (native_rows (map row_of_src rows) vals argsA sA) in
  let rC := (let '(ys, k) := run_function (iter call) assign code (bind_args 0 argsR, sR) in
             (map snd ys, match k with CErr => true | _ => false end)) in
  Forall2 (ans_rel p sA sR) (fst rN) (fst rC) /\ snd rN = snd rC.
Proof. exact native_equals_compiled_facts_rel. Qed.
Print Assumptions C20_native_equals_compiled_facts_rel.

(* ... from the same state with the same arguments: answers equal up to an injective renaming that fixes the cells of
   the caller (RenameSim.same_answer) *)
Theorem C20_native_equals_compiled_facts_renaming : forall call name rows vals cnt code cnt' args s,
  compile_clauses (map (fact_clause name) rows) cnt = Some (code, cnt') ->
  Forall (fun row => noalias row /\ length row = length args) rows ->
  wf (sto s) -> inv s -> Forall (bounded (nxt s)) args ->
  let rN := drop (native_rows (map row_of_src rows) vals args s) in
  let rC := (let '(ys, k) := run_function (iter call) assign code (bind_args 0 args, s) in
             (map snd ys, match k with CErr => true | _ => false end)) in
  Forall2 (same_answer s) (fst rN) (fst rC) /\ snd rN = snd rC.
Proof. exact native_equals_compiled_facts_renaming. Qed.
Print Assumptions C20_native_equals_compiled_facts_renaming.

(* ground rows are the special case (the exact statement above) *)
Theorem C20_ground_rows_special_case : forall row, ground_row row = true -> noalias row /\ row_of_src row = row_of row.
Proof. exact (fun row G => conj (ground_noalias row G) (row_of_src_ground row G)). Qed.
Print Assumptions C20_ground_rows_special_case.

(* REFUTED for rows with an aliased argument, already for p(X). called as p(V), V unbound: the compiled code binds nothing
   (V_X = arg1), the Python predicate's unify(arg, X') binds V to the row's fresh variable X'.  Neither answer is the other's
   image under a renaming that fixes the caller's cells (the answers are variants of each other: V unbound vs V bound to an
   unbound fresh variable - the same after canonical renaming of unbound variables, which is what the check compares). *)
Theorem C20_native_equals_compiled_facts_same_answer_refuted :
  compile_clauses (map (fact_clause (s_ "p")) cx_rows) 0 = Some (cx_code, 0) /\
  wf (sto cx_s) /\ inv cx_s /\ Forall (bounded (nxt cx_s)) [TVar 0] /\
  drop (native_rows (map row_of_src cx_rows) [] [TVar 0] cx_s) = ([cx_native], false) /\
  (let '(ys, k) := run_function (iter cx_call) assign cx_code (bind_args 0 [TVar 0], cx_s) in
   (map snd ys, match k with CErr => true | _ => false end)) = ([cx_compiled], false) /\
  ~ same_answer cx_s cx_native cx_compiled /\ ~ same_answer cx_s cx_compiled cx_native.
Proof. exact native_equals_compiled_facts_same_answer_refuted. Qed.
Print Assumptions C20_native_equals_compiled_facts_same_answer_refuted.

(* subset_interchangeable for rows with variables, through programs: rules compiled alone + Python predicates over the rows
   of specs vs the compiled program rules ++ facts are in the relation call_rel at every depth - related calls (related
   states, related arguments) have related answers - in any context (conjunction, cut, if-then-else, negation, call/N,
   once/1, findall/3), next to any dynamic facts *)
Theorem C20_subset_interchangeable_rel : forall rules specs dynl ir irf,
  compile_program rules = Some ir -> compile_program (rules ++ py_clauses specs)%list = Some irf ->
  good_program rules -> Forall spec_ok_src specs -> NoDup (map fst specs) -> dyn_ok dynl ->
  (forall c, In c rules -> lookup_fix specs (c_name c) (length (c_args c)) = None) ->
  forall n, call_rel (nquery n (mk_world ir (py_table_src specs) [] dynl)) (nquery n (mk_world irf [] [] dynl)).
Proof. exact program_with_python_predicates_rel. Qed.
Print Assumptions C20_subset_interchangeable_rel.

(* ... every query from every well-formed state: same number of answers, same order, same end, the k-th answers equal up
   to an injective renaming of the cells created during the query *)
Theorem C20_subset_interchangeable_renaming : forall rules specs dynl ir irf,
  compile_program rules = Some ir -> compile_program (rules ++ py_clauses specs)%list = Some irf ->
  good_program rules -> Forall spec_ok_src specs -> NoDup (map fst specs) -> dyn_ok dynl ->
  (forall c, In c rules -> lookup_fix specs (c_name c) (length (c_args c)) = None) ->
  forall n name args s, wf (sto s) -> inv s -> Forall (bounded (nxt s)) args ->
    Forall2 (same_answer s) (fst (nquery n (mk_world ir (py_table_src specs) [] dynl) name args s))
                            (fst (nquery n (mk_world irf [] [] dynl) name args s)) /\
    snd (nquery n (mk_world ir (py_table_src specs) [] dynl) name args s) =
    snd (nquery n (mk_world irf [] [] dynl) name args s).
Proof. exact program_with_python_predicates_renaming. Qed.
Print Assumptions C20_subset_interchangeable_renaming.

(* non-vacuity: t(A,B,C) :- v(A), w(B,C).  l(L) :- findall(X, v(X), L).  with v/1 = {f(X); g(X,Y,X)} and
   w/2 = {(Z,Z); (h(U), k(U,a))}: the hypotheses hold, and the two engines' answers really differ in their cells *)
Definition V_ (x : string) := SVar (d x).
Definition rn_rules : program :=
  [ {| c_name := d "t"; c_args := [V_ "A"; V_ "B"; V_ "C"]; c_body := BAnd (BCall (d "v") [V_ "A"]) (BCall (d "w") [V_ "B"; V_ "C"]) |};
    {| c_name := d "l"; c_args := [V_ "L"]; c_body := BCall (d "findall") [V_ "X"; SFun (d "v") [V_ "X"]; V_ "L"] |} ].
Definition v_rows := [[SFun (d "f") [V_ "X"]]; [SFun (d "g") [V_ "X"; V_ "Y"; V_ "X"]]].
Definition w_rows := [[V_ "Z"; V_ "Z"]; [SFun (d "h") [V_ "U"]; SFun (d "k") [V_ "U"; A "a"]]].
Definition rn_specs : list pyspec := [ (d "v", 1, (v_rows, [false; true])); (d "w", 2, (w_rows, [true; true])) ].

Example C20_renaming_nonvacuous :
  Forall spec_ok_src rn_specs /\ NoDup (map fst rn_specs) /\
  (forall c, In c rn_rules -> lookup_fix rn_specs (c_name c) (length (c_args c)) = None) /\
  match compile_program rn_rules, compile_program (rn_rules ++ py_clauses rn_specs)%list with
  | Some ir, Some irf =>
      let ans := fun nq (r : list st * bool) => (map (answer_of nq) (fst r), snd r) in
      let f x := TFun (d "f") [x] in let g x y := TFun (d "g") [x; y; x] in
      let h x := TFun (d "h") [x] in let k x := TFun (d "k") [x; TAtom (d "a")] in
      ans 3 (nquery 6 (mk_world ir (py_table_src rn_specs) [] []) (d "t") [TVar 0; TVar 1; TVar 2] (st0 3)) =
        ([[f (TVar 3); TVar 4; TVar 4]; [f (TVar 3); h (TVar 4); k (TVar 4)];
          [g (TVar 3) (TVar 4); TVar 5; TVar 5]; [g (TVar 3) (TVar 4); h (TVar 5); k (TVar 5)]], false) /\
      ans 3 (nquery 6 (mk_world irf [] [] []) (d "t") [TVar 0; TVar 1; TVar 2] (st0 3)) =
        ([[f (TVar 3); TVar 4; TVar 4]; [f (TVar 3); h (TVar 5); k (TVar 5)];
          [g (TVar 4) (TVar 5); TVar 6; TVar 6]; [g (TVar 4) (TVar 5); h (TVar 7); k (TVar 7)]], false) /\
      ans 1 (nquery 6 (mk_world ir (py_table_src rn_specs) [] []) (d "l") [TVar 0] (st0 1)) =
        ([[mk_list [f (TVar 4); g (TVar 7) (TVar 8)]]], false) /\
      ans 1 (nquery 6 (mk_world irf [] [] []) (d "l") [TVar 0] (st0 1)) =
        ([[mk_list [f (TVar 4); g (TVar 8) (TVar 9)]]], false)
  | _, _ => False
  end.
Proof.
  split; [repeat constructor; discriminate|]. split; [repeat constructor; cbn; intuition discriminate|].
  split; [intros c [<-|[<-|[]]]; reflexivity|]. vm_compute. repeat split.
Qed.

(* ==== ONE PREDICATE DEFINED FROM MIXED SOURCES (Sem/NativeChain.v, Engine/NativeChainMono.v)
   cdef                     a definition under a key: CNat f (a registered Python predicate) | CIr f (the generator function of a
                            loaded script)
   cworld                   the engine whose eval_context holds a CHAIN (list of definitions, as built by chain_functions) per key
   run_chain call ds        itertools.chain over the members' generators, every member from the state of the call; the yielded
                            values are passed through unseen; an exception in a member ends the chain
   cquery n w               YP.query over such an engine
   op / build               register_function (the key := [f]), load_script_from_string(script, overwrite) (every key the
                            script defines := [g] / old chain ++ [g]), assert_fact; build = the engine after a sequence of them
   op_twin                  the same operation, or register_function(python predicate over ground rows, yielding anything)
                            against load_script(its facts, overwrite=True) *)

Local Open Scope list_scope.

(* the engine of the theorems above is the special case "one member per chain" *)
Theorem C20_chain_engine_refines : forall w n name args s, cquery n (embed w) name args s = nquery n w name args s.
Proof. exact cquery_refines_nquery. Qed.
Print Assumptions C20_chain_engine_refines.

(* a chain answers with the concatenation of its members' answers - WHATEVER they yield (True is not a cut here) - up to the
   first exception *)
Theorem C20_chain_is_concatenation : forall call ds1 ds2 args s,
  run_chain call (ds1 ++ ds2) args s =
  (if snd (run_chain call ds1 args s) then (fst (run_chain call ds1 args s), true)
   else (fst (run_chain call ds1 args s) ++ fst (run_chain call ds2 args s), snd (run_chain call ds2 args s))).
Proof. exact run_chain_app. Qed.
Print Assumptions C20_chain_is_concatenation.

Theorem C20_chain_of_two : forall call d1 d2 args s,
  run_chain call [d1; d2] args s =
  (if snd (run_def call d1 args s) then (fst (run_def call d1 args s), true)
   else (fst (run_def call d1 args s) ++ fst (run_def call d2 args s), snd (run_def call d2 args s))).
Proof. exact run_chain_two. Qed.
Print Assumptions C20_chain_of_two.

(* engines whose chains agree member by member for a value-ignoring consumer answer every query alike *)
Theorem C20_chain_members_interchangeable : forall w1 w2, members_agree w1 w2 ->
  forall n name args s, cquery n w1 name args s = cquery n w2 name args s.
Proof. exact chain_members_interchangeable. Qed.
Print Assumptions C20_chain_members_interchangeable.

(* a Python predicate over ground rows, whatever it yields, and the function compiled from its facts are such members *)
Theorem C20_chain_member_python_vs_compiled : forall name k rows vals f cnt cnt',
  Forall (fun row => ground_row row = true /\ length row = k) rows ->
  compile_clauses (map (fact_clause name) rows) cnt = Some (fn_body f, cnt') ->
  def_equiv k (CNat (native_rows (map row_of rows) vals)) (CIr f).
Proof. exact def_equiv_facts. Qed.
Print Assumptions C20_chain_member_python_vs_compiled.

(* engines BUILT by the same sequence of register_function / load_script (overwrite or not) / assert_fact, in any order,
   with Python predicates on one side and their facts loaded with overwrite=True on the other (any subset, any yielded
   values), answer every query alike at every depth *)
Theorem C20_mixed_sources_interchangeable : forall ops1 ops2, Forall2 op_twin ops1 ops2 ->
  forall n name args s, cquery n (build cempty ops1) name args s = cquery n (build cempty ops2) name args s.
Proof. exact mixed_sources_interchangeable. Qed.
Print Assumptions C20_mixed_sources_interchangeable.

(* the same for SOURCE scripts, each compiled on its own by the model compiler (what the check runs): sop_twin = the same
   operation, register_function(python predicate over the rows) with other yielded values, or - for n >= 1 ground rows -
   register_function(name, python predicate over the rows) against load_script(compile("name(row_1). .. name(row_n)."), overwrite=True) *)
Theorem C20_mixed_sources_interchangeable_source : forall l1 l2 o1 o2, Forall2 sop_twin l1 l2 ->
  sops_ops l1 = Some o1 -> sops_ops l2 = Some o2 ->
  forall n name args s, cquery n (build cempty o1) name args s = cquery n (build cempty o2) name args s.
Proof. exact source_mixed_sources_interchangeable. Qed.
Print Assumptions C20_mixed_sources_interchangeable_source.

(* register_function(p, python predicate over the rows); load_script(clauses cs2 of p, overwrite=False)  answers like the
   ONE definition  p(row_1). .. p(row_n). cs2 : the rows are the first clauses of the predicate *)
Theorem C20_python_then_script_is_one_definition : forall call name rows vals cs2 f2 f12 cnt2 cnt2' cnt12 cnt12' args s,
  Forall (fun row => ground_row row = true /\ length row = length args) rows ->
  Forall good_clause cs2 ->
  compile_clauses cs2 cnt2 = Some (fn_body f2, cnt2') ->
  compile_clauses (map (fact_clause name) rows ++ cs2) cnt12 = Some (fn_body f12, cnt12') ->
  run_chain call [CNat (native_rows (map row_of rows) vals); CIr f2] args s = run_def call (CIr f12) args s.
Proof. exact python_then_script_is_one_definition. Qed.
Print Assumptions C20_python_then_script_is_one_definition.

Theorem C20_chained_python_predicate_is_first_clauses : forall w w' name k rows vals cs2,
  chained_vs_single w w' name k rows vals cs2 ->
  forall n qname args s, cquery n w qname args s = cquery n w' qname args s.
Proof. exact chained_python_predicate_is_first_clauses. Qed.
Print Assumptions C20_chained_python_predicate_is_first_clauses.

(* monotone in the call depth and in the Python predicates that are members of chains *)
Theorem C20_chain_engine_monotone : forall w1 w2 n m, cworld_le w1 w2 -> n <= m -> call_le (cquery n w1) (cquery m w2).
Proof. exact cquery_mono. Qed.
Print Assumptions C20_chain_engine_monotone.

(* the member number i of the chain under pname/k raises instead of its answer number j: any query, in any context, is only
   cut short - the answers are a prefix and the query ends with the exception - or does not change at all *)
Theorem C20_exception_passthrough_chain_member : forall w pname k i j n name args s,
  let r' := cquery n (with_raising_member w pname k i j) name args s in
  let r := cquery n w name args s in
  (snd r' = false /\ r' = r) \/ (snd r' = true /\ prefixl (fst r') (fst r)).
Proof. exact exception_passthrough_member. Qed.
Print Assumptions C20_exception_passthrough_chain_member.

Theorem C20_exception_at_the_chain : forall call ds1 f ds2 j args s,
  snd (run_chain call ds1 args s) = false -> j < length (fst (f args s)) ->
  run_chain call (ds1 ++ CNat (raising f j) :: ds2) args s =
  (fst (run_chain call ds1 args s) ++ firstn j (fst (drop (f args s))), true).
Proof. exact raising_member_at_the_chain. Qed.
Print Assumptions C20_exception_at_the_chain.

(* the chain engine with the exception OBJECT carried along (Sem/NativeChainExc.v; what the check evaluates): it erases to cquery,
   also when built by a sequence of operations; and whatever property the engine's own exceptions and those raised by the Python
   predicates that are chain members (or variadic) have, the exception that ends any query has it - chain_functions /
   itertools.chain create, wrap or replace nothing *)
Theorem C20_chain_engine_with_exceptions_refines : forall w n name args s,
  er (cqueryE n w name args s) = cquery n (erase_cworld w) name args s.
Proof. exact erase_cqueryE. Qed.
Print Assumptions C20_chain_engine_with_exceptions_refines.

Theorem C20_chain_engine_with_exceptions_built : forall ops n name args s,
  er (cqueryE n (buildE cemptyE ops) name args s) = cquery n (build cempty (map erase_op ops)) name args s.
Proof. exact erase_built_cqueryE. Qed.
Print Assumptions C20_chain_engine_with_exceptions_built.

Theorem C20_chain_exception_provenance : forall Q : exn -> Prop, Q XDepth -> Q XUnify -> Q XGoal -> Q XCode ->
  forall w : cworldE,
  (forall name k ds f args s e, ce_fix w name k = Some ds -> In (ENat f) ds -> snd (f args s) = Some e -> Q e) ->
  (forall name f args s e, ce_var w name = Some f -> snd (f args s) = Some e -> Q e) ->
  forall n name args s e, snd (cqueryE n w name args s) = Some e -> Q e.
Proof. exact chain_exception_provenance. Qed.
Print Assumptions C20_chain_exception_provenance.

Theorem C20_chain_exception_unchanged : forall w tag,
  (forall name k ds f args s e, ce_fix w name k = Some ds -> In (ENat f) ds -> snd (f args s) = Some e -> e = XPy tag) ->
  (forall name f args s e, ce_var w name = Some f -> snd (f args s) = Some e -> e = XPy tag) ->
  forall n name args s e, snd (cqueryE n w name args s) = Some e -> engine_exn e \/ e = XPy tag.
Proof. exact chain_exception_unchanged. Qed.
Print Assumptions C20_chain_exception_unchanged.

(* non-vacuity: rules  c1(X) :- m(X).  c2(X) :- m(X), !.  c5(L) :- findall(X, m(X), L).  loaded first; then
   register_function(m, python predicate over {a, b} yielding True); then load_script(m(c). m(X) :- c2(X)., overwrite=False) *)
Definition ch_rules : program :=
  [ {| c_name := d "c1"; c_args := [X]; c_body := BCall (d "m") [X] |};
    {| c_name := d "c2"; c_args := [X]; c_body := BAnd (BCall (d "m") [X]) BCut |};
    {| c_name := d "c5"; c_args := [L]; c_body := BCall (d "findall") [X; SFun (d "m") [X]; L] |} ].
Definition ch_rows := [[A "a"]; [A "b"]].
Definition ch_later : program := [ fact_clause (d "m") [A "c"] ].
Definition ch_code (p : list clause) : list stmt := match compile_clauses p 0 with Some (code, _) => code | None => [] end.
Definition ch_f (p : list clause) : func := {| fn_name := d "m"; fn_arity := 1; fn_body := ch_code p |}.
Definition ch_ir : ir_program := match compile_program ch_rules with Some ir => ir | None => [] end.
Definition ch_m := native_rows (map row_of ch_rows) [true; true].
Definition ch_py : list op := [OLoad ch_ir true; OReg (d "m") 1 ch_m; OLoad [ch_f ch_later] false].
Definition ch_tw : list op := [OLoad ch_ir true; OLoad [ch_f (map (fact_clause (d "m")) ch_rows)] true; OLoad [ch_f ch_later] false].

Example C20_chain_nonvacuous :
  Forall2 op_twin ch_py ch_tw /\
  c_fix (build cempty ch_py) (d "m") 1 = Some [CNat ch_m; CIr (ch_f ch_later)] /\
  (let ta := TAtom (d "a") in let tb := TAtom (d "b") in let tc := TAtom (d "c") in
   let ans := fun nq (r : list st * bool) => (map (answer_of nq) (fst r), snd r) in
   ans 1 (cquery 6 (build cempty ch_py) (d "m") [TVar 0] (st0 1)) = ([[ta]; [tb]; [tc]], false) /\
   ans 1 (cquery 6 (build cempty ch_tw) (d "c1") [TVar 0] (st0 1)) = ([[ta]; [tb]; [tc]], false) /\
   ans 1 (cquery 6 (build cempty ch_py) (d "c2") [TVar 0] (st0 1)) = ([[ta]], false) /\
   ans 1 (cquery 6 (build cempty ch_py) (d "c5") [TVar 0] (st0 1)) = ([[mk_list [ta; tb; tc]]], false) /\
   (* the Python predicate (member 0 of the chain) raises instead of its answer number 1: a, then the exception; m(c) is not tried *)
   ans 1 (cquery 6 (with_raising_member (build cempty ch_py) (d "m") 1 0 1) (d "c1") [TVar 0] (st0 1)) = ([[ta]], true) /\
   ans 1 (cquery 6 (with_raising_member (build cempty ch_py) (d "m") 1 0 1) (d "c2") [TVar 0] (st0 1)) = ([[ta]], false) /\
   (* with the exception object: the Python predicate raises XPy 7 instead of its answer number 1; three frames up it is XPy 7 *)
   (let r := cqueryE 6 (buildE cemptyE [ELoad ch_ir true; EReg (d "m") 1 (raisingE (liftE ch_m) 1 7); ELoad [ch_f ch_later] false])
               (d "c1") [TVar 0] (st0 1) in (map (answer_of 1) (fst r), snd r) = ([[ta]], Some (XPy 7)))).
Proof.
  split.
  { constructor; [apply twin_same|]. constructor; [|constructor; [apply twin_same|constructor]].
    eapply (twin_facts (d "m") 1 ch_rows [true; true] _ 0); [discriminate|repeat constructor| |reflexivity|reflexivity].
    vm_compute. reflexivity. }
  split; [reflexivity|]. vm_compute. repeat split.
Qed.

(* ==== BEHIND EVERY CONSUMER API (Sem/Consumers.v)
   The answers of a registered Python predicate queried at the top level reach the consumer with the yielded values; predicates
   that agree after dropping them are indistinguishable behind plain iteration, YP.evaluate_bounded, list(query) (number of
   answers, end) and next(query) + close(). *)
From YP Require Import Sem.Consumers.

Theorem C20_consumers_yield_value_irrelevant : forall (A : Type) (read : st -> A) (r1 r2 : nres),
  drop r1 = drop r2 ->
  plain_iteration st A read r1 = plain_iteration st A read r2 /\
  evaluate_bounded st A (fun _ => read) r1 = evaluate_bounded st A (fun _ => read) r2 /\
  length (fst (list_query st r1)) = length (fst (list_query st r2)) /\ snd (list_query st r1) = snd (list_query st r2) /\
  next_then_close st A read r1 = next_then_close st A read r2.
Proof. exact native_consumers_yield_value_irrelevant. Qed.
Print Assumptions C20_consumers_yield_value_irrelevant.

(* non-vacuity: q/1 over {a, b, c} yielding True, True, True and yielding False, True, False *)
Example C20_consumers_nonvacuous :
  let r1 := native_rows (map row_of q_rows) [true; true; true] [TVar 0] (st0 1) in
  let r2 := native_rows (map row_of q_rows) [false; true; false] [TVar 0] (st0 1) in
  drop r1 = drop r2 /\ r1 <> r2 /\
  evaluate_bounded st (list term) (fun _ x => answer_of 1 x) r1 = [[TAtom (d "a")]; [TAtom (d "b")]; [TAtom (d "c")]] /\
  evaluate_bounded_stopping st (list term) (fun _ x => answer_of 1 x) r1 = [[TAtom (d "a")]].
Proof. vm_compute. repeat split. intros H. discriminate H. Qed.

From Coq Require Import Bool.
(* non-vacuity with a RE-ENTRANT Python predicate: t1(X,Y) :- q(X), e(X,Y) written in Python - the registered function queries the
   engine it is registered in (the world below it: w_py with q/1 and e/2 as Python predicates) inside its own loop and yields once
   per inner answer.  (No inner query raises here; the general case would have to stop at the first inner exception.) *)
Definition t1_py (w : world) : nfun := fun args s =>
  match args with
  | [x; y] =>
      let r1 := nquery 5 w (d "q") [x] s in
      let rs := map (fun s1 => nquery 5 w (d "e") [x; y] s1) (fst r1) in
      (flat_map (fun r => map (fun s2 => (s2, true)) (fst r)) rs, snd r1 || existsb snd rs)
  | _ => ([], false)
  end.
Definition w_re (ir : ir_program) : world :=
  let w := w_py ir in
  {| w_ir := w_ir w; w_fix := fun n k => if key_eq (n, k) (d "t1", 2) then Some (t1_py w) else w_fix w n k;
     w_var := w_var w; w_dyn := w_dyn w |}.

Example C20_reentrant_nonvacuous :
  match compile_program ex_rules, compile_program ex_full with
  | Some ir, Some irf =>
      let ta := TAtom (d "a") in let tb := TAtom (d "b") in let tc := TAtom (d "c") in
      (* every query of the engine with the re-entrant t1/2 as of the all-compiled engine *)
      nquery 7 (w_re ir) (d "t1") [TVar 0; TVar 1] (st0 2) = nquery 7 (plain irf) (d "t1") [TVar 0; TVar 1] (st0 2) /\
      (* behind evaluate_bounded: both answers although each arrives flagged True; the stopping consumer would lose the second *)
      evaluate_bounded st (list term) (fun _ x => answer_of 2 x) (t1_py (w_py ir) [TVar 0; TVar 1] (st0 2)) = [[ta; tb]; [tb; tc]] /\
      evaluate_bounded_stopping st (list term) (fun _ x => answer_of 2 x) (t1_py (w_py ir) [TVar 0; TVar 1] (st0 2)) = [[ta; tb]]
  | _, _ => False
  end.
Proof. vm_compute. repeat split. Qed.
