(* C10 - text outside the grammar is rejected, never partially compiled.
   Only statements; every proof is `exact <lemma>` to a lemma proved in Lang/ or Cli/, except the evaluated
   example C10_nonvacuous.

   front : str -> option program  is the model of lexer + parser + end-of-input test + visitor
   (Lang/Front.v).  None = the compiler raises; Some p = the AST handed to the code generator. *)
From Coq Require Import String.
From Coq Require Import List NArith Arith.
Import ListNotations.
From YP Require Import Base.Str Lang.Ast Lang.Lexer Lang.Cst Lang.Parser Lang.ParserSound Lang.Unquote Lang.Front
  Lang.ParserMono Lang.ParserComplete Lang.ParserCanon Lang.ParserFuel Lang.FrontSpec
  Comp.IR Comp.NumeralName Comp.CompileClause Lang.FrontCompile Lang.QuotedOpaque.
From YP Require Import Comp.CompileText Cli.Comment Cli.Cli Cli.CliCompile Cli.CliSentence.

(* The scan of every token rule computes exactly the longest prefix in the rule's language
   (rdef_lang is the specification of the four kinds of rule, rule_def the table of prolog.g4). *)
Theorem C10_rule_scan_exact : forall rd s n, longest rd s = Some n ->
  is_match rd s n /\ forall m, is_match rd s m -> m <= n.
Proof. exact longest_some. Qed.
Print Assumptions C10_rule_scan_exact.

Theorem C10_rule_scan_none : forall rd s, longest rd s = None -> forall m, ~ is_match rd s m.
Proof. exact longest_none. Qed.
Print Assumptions C10_rule_scan_none.

(* Maximal munch with the rule-order tie-break: the token chosen at a position is a match of its
   rule, no rule matches a longer prefix, and no rule listed earlier matches one of the same length. *)
Theorem C10_lex_maximal_munch : forall s r n, lex_one s = Some (r, n) ->
  is_match (rule_def r) s n /\
  forall r' m, is_match (rule_def r') s m -> m < n \/ (m = n /\ ridx r <= ridx r').
Proof. exact lex_one_some. Qed.
Print Assumptions C10_lex_maximal_munch.

(* If the lexer returns tokens, the texts of all items (skipped white space and comments included)
   concatenate to the input, every item text is in the language of its rule, every item is the maximal
   munch at its position (`lexes`), and the parser gets exactly the non-skipped items, in order. *)
Theorem C10_lex_exact : forall s toks, lex s = Some toks ->
  exists items, lexes s items [] /\
    concat (map snd items) = s /\
    Forall (fun it => rule_lang (fst it) (snd it)) items /\
    toks = filter keep items.
Proof. exact lex_exact. Qed.
Print Assumptions C10_lex_exact.

(* The lexer refuses a text only at a position, reached by maximal munch, where no prefix of the
   remaining text belongs to any rule ("characters outside the lexicon", an unterminated quoted atom,
   a comment without line break). *)
Theorem C10_lex_error_spec : forall s, lex s = None ->
  exists items rest, lexes s items rest /\ rest <> [] /\
    forall r w rest', rest = w ++ rest' -> ~ rule_lang r w.
Proof. exact lex_error_spec. Qed.
Print Assumptions C10_lex_error_spec.

(* The lexer is the only maximal-munch tokenisation: whatever satisfies the specification is what it returns. *)
Theorem C10_lex_complete : forall s items, lexes s items [] -> lex s = Some (filter keep items).
Proof. exact lex_complete. Qed.
Print Assumptions C10_lex_complete.

(* A parse tree is a derivation tree of prolog.g4 (one constructor per alternative, Lang/Cst.v); its
   leaves are all the tokens, in order: nothing skipped, nothing left over after the last clause. *)
Theorem C10_parse_yield : forall ts cst, parse ts = Some cst -> yield cst = map norm ts.
Proof. exact parse_yield. Qed.
Print Assumptions C10_parse_yield.

(* One AST clause per clause node, in order, each the visitor's image of its node. *)
Theorem C10_ast_clause_count : forall cst k prog k', v_program cst k = Some (prog, k') ->
  Forall2 clause_image (clauses_of cst) prog.
Proof. exact v_program_clauses. Qed.
Print Assumptions C10_ast_clause_count.

(* Accepted => the whole text is a sentence of the grammar and every clause of it is in the AST. *)
Theorem C10_front_whole_input : forall s prog, front s = Some prog ->
  exists items cst k,
    lexes s items [] /\ concat (map snd items) = s /\
    Forall (fun it => rule_lang (fst it) (snd it)) items /\
    yield cst = map norm (filter keep items) /\
    v_program cst 0 = Some (prog, k) /\
    Forall2 clause_image (clauses_of cst) prog /\
    length prog = length (clauses_of cst).
Proof. exact front_whole_input. Qed.
Print Assumptions C10_front_whole_input.

(* PARSE_COMPLETE.  The recogniser accepts EVERY sentence of prolog.g4: for any derivation tree p of the grammar
   (Lang/Cst.v: one constructor per alternative, so also the readings that precedence does not select), `parse`
   -- with the depth fuel 5 * #tokens + 10 it supplies itself -- accepts the yield of p and returns the canonical
   tree of that sentence. *)
Theorem C10_parse_complete : forall p, parse (yield p) = Some (canon_program p).
Proof. exact parse_complete. Qed.
Print Assumptions C10_parse_complete.

(* the same for all sufficiently large depth fuels (`ev f x` = f n = Some x for all n from some n0 on) *)
Theorem C10_parse_complete_fuel : forall p,
  ev (fun n => p_program (length (yield p)) n (yield p)) (canon_program p).
Proof. exact parse_complete_fuel. Qed.
Print Assumptions C10_parse_complete_fuel.

(* PARSE_SPEC: the complete specification of the parser as a recogniser of the grammar's language.
   It returns c exactly when c is the canonical derivation tree whose leaves are the given tokens ... *)
Theorem C10_parse_spec : forall ts c, parse ts = Some c <-> (canonical c = true /\ yield c = map norm ts).
Proof. exact parse_spec. Qed.
Print Assumptions C10_parse_spec.

(* ... and it rejects exactly when NO derivation tree of the grammar has these leaves *)
Theorem C10_parse_none_spec : forall ts, parse ts = None <-> (forall p : cprogram, yield p <> map norm ts).
Proof. exact parse_none_spec. Qed.
Print Assumptions C10_parse_none_spec.

(* UNAMBIGUOUS: the tree returned is the only canonical derivation tree of the token sequence *)
Theorem C10_parse_unambiguous : forall ts c, parse ts = Some c ->
  forall c', canonical c' = true -> yield c' = map norm ts -> c' = c.
Proof. exact parse_unique. Qed.
Print Assumptions C10_parse_unambiguous.

(* At the level of texts.  `sentence s`: s has a maximal-munch tokenisation whose tokens are the leaves of some
   derivation tree.  A text that is not a sentence is refused; a sentence is refused only by the visitor. *)
Theorem C10_front_rejects_non_sentences : forall s, ~ sentence s -> front s = None.
Proof. exact front_rejects_non_sentences. Qed.
Print Assumptions C10_front_rejects_non_sentences.

Theorem C10_front_spec : forall s prog, front s = Some prog <->
  exists items cst k, lexes s items [] /\ canonical cst = true /\ yield cst = map norm (filter keep items) /\
                      v_program cst 0 = Some (prog, k).
Proof. exact front_spec. Qed.
Print Assumptions C10_front_spec.

Theorem C10_front_none_spec : forall s, front s = None <->
  (~ sentence s) \/
  (exists items cst, lexes s items [] /\ canonical cst = true /\ yield cst = map norm (filter keep items) /\
                     v_program cst 0 = None).
Proof. exact front_none_spec. Qed.
Print Assumptions C10_front_none_spec.

(* every derivation tree has a canonical one (the shape ANTLR's precedence rules select) with the same yield *)
Theorem C10_canonical_tree_exists : forall p, canonical (canon_program p) = true /\ yield (canon_program p) = yield p.
Proof. exact canon_program_spec. Qed.
Print Assumptions C10_canonical_tree_exists.

(* on canonical trees the parser is exact: parsing the yield of c returns c itself ... *)
Theorem C10_parse_canonical_exact : forall c, canonical c = true -> forall m, length c <= m ->
  ev (fun n => p_program m n (yield c)) c.
Proof. exact program_complete. Qed.
Print Assumptions C10_parse_canonical_exact.

(* ... hence UNAMBIGUOUS: a token sequence is the yield of at most one canonical derivation tree *)
Theorem C10_canonical_unique : forall p1 p2,
  canonical p1 = true -> canonical p2 = true -> yield p1 = yield p2 -> p1 = p2.
Proof. exact canonical_unique. Qed.
Print Assumptions C10_canonical_unique.

(* the depth fuel only bounds recursion: a term that parses with some fuel parses identically with more *)
Theorem C10_term_fuel_monotone : forall n m ts x, n <= m -> p_term n ts = Some x -> p_term m ts = Some x.
Proof. exact p_term_mono. Qed.
Print Assumptions C10_term_fuel_monotone.

(* the compiler keeps everything the front end hands over: one function per head key (first-occurrence order, no
   key twice), its body the code of exactly the clauses with that key in source order *)
Theorem C10_compile_whole_program : forall p, exists ir ks,
  compile_program p = Some ir /\ keys_ok ks p /\
  Forall2 (fun k f => fn_key f = k /\ exists pieces, fn_body f = concat pieces /\
                      Forall2 clause_code (filter (has_key k) p) pieces) ks ir.
Proof. exact compile_whole_program. Qed.
Print Assumptions C10_compile_whole_program.

(* accepted => complete sentence of the grammar AND every clause of it reaches the compiled program *)
Theorem C10_front_compile_whole : forall s prog, front s = Some prog ->
  (exists items cst k,
     lexes s items [] /\ concat (map snd items) = s /\ yield cst = map norm (filter keep items) /\
     v_program cst 0 = Some (prog, k) /\ Forall2 clause_image (clauses_of cst) prog) /\
  exists ir ks,
    compile_program prog = Some ir /\ keys_ok ks prog /\
    Forall2 (fun k f => fn_key f = k /\ exists pieces, fn_body f = concat pieces /\
                        Forall2 clause_code (filter (has_key k) prog) pieces) ks ir.
Proof. exact front_compile_whole. Qed.
Print Assumptions C10_front_compile_whole.

(* The whole of _compile_prolog_from_stream up to the intermediate code (compile_front = front, compile_program, and the
   compiler's own refusal of a numeral-named compound term that it reaches): code is produced only for complete
   sentences of the grammar, and then for the whole sentence -- every clause node is one AST clause, every AST clause
   has its code in the one function of its head key. *)
Theorem C10_compile_front_rejects_non_sentences : forall s, ~ sentence s -> compile_front s = None.
Proof. exact compile_front_rejects_non_sentences. Qed.
Print Assumptions C10_compile_front_rejects_non_sentences.

Theorem C10_compile_front_whole : forall s prog ir, compile_front s = Some (prog, ir) ->
  front s = Some prog /\ compile_program prog = Some ir /\ ir_bad ir = false /\
  (exists items cst k,
     lexes s items [] /\ concat (map snd items) = s /\ yield cst = map norm (filter keep items) /\
     v_program cst 0 = Some (prog, k) /\ Forall2 clause_image (clauses_of cst) prog) /\
  exists ks, keys_ok ks prog /\
    Forall2 (fun k f => fn_key f = k /\ exists pieces, fn_body f = concat pieces /\
                        Forall2 clause_code (filter (has_key k) prog) pieces) ks ir.
Proof. exact compile_front_whole. Qed.
Print Assumptions C10_compile_front_whole.

(* A quoted atom is opaque: between its quotes everything is atom text (a % at the start of a line, line breaks,
   full stops, clause text); for every body without a quote that does not end in a backslash and EVERY continuation `rest`,
   the token stream is the STRING token followed by the token stream of `rest`, and the text is unlexable exactly when
   `rest` is.  So what follows the closing quote - a stray separator, a bracket, a foreign character - is always seen. *)
Theorem C10_quoted_atom_opaque : forall b rest, plain_body b ->
  lex (quoted b ++ rest) = option_map (cons (R_STRING, quoted b)) (lex rest).
Proof. exact lex_quoted_opaque. Qed.
Print Assumptions C10_quoted_atom_opaque.

Theorem C10_quoted_body_irrelevant : forall b1 b2 rest, plain_body b1 -> plain_body b2 ->
  match lex (quoted b1 ++ rest), lex (quoted b2 ++ rest) with
  | Some (t1 :: ts1), Some (t2 :: ts2) => t1 = (R_STRING, quoted b1) /\ t2 = (R_STRING, quoted b2) /\ ts1 = ts2
  | None, None => True
  | _, _ => False
  end.
Proof. exact lex_quoted_body_irrelevant. Qed.
Print Assumptions C10_quoted_body_irrelevant.

(* non-vacuity of the two: a two-line body whose second line starts with % and holds clause text; the doubled comma
   after the closing quote reaches the parser as two COMMA tokens *)
Example C10_quoted_nonvacuous :
  let b := d "see" ++ [10%N] ++ d "% chapter 2. p(a) :- q, r" in
  plain_body b /\
  lex (quoted b ++ d ", , x") = Some [(R_STRING, quoted b); (R_COMMA, d ","); (R_COMMA, d ","); (R_ATOM, d "x")].
Proof. exact quoted_opaque_example. Qed.

(* non-vacuity: a two-clause text with a comment is accepted with both clauses; the inputs of finding D9 of DESIGN.md
   (stray `)`, doubled comma, unterminated quoted atom), which the implementation once compiled silently, are refused *)
Example C10_nonvacuous :
  (exists c1 c2, front (d "p(a). % c\10;q(X) :- p(X), \92;+ r.") = Some [c1; c2] /\ c_name c1 = d "p" /\ c_name c2 = d "q") /\
  front (d "foo(a). ) garbage") = None /\
  front (d "a(X) :- b(X),, c(X).") = None /\
  front (d "foo(a). 'unterminated") = None /\
  front (d "foo(a). bar(b)") = None /\
  (* an ambiguous derivation tree (a = b = c read to the right, \+ over a conjunction, a bracketed term read as a
     bracketed predicate expression) is not canonical; its canonical tree is what `parse` returns for its yield *)
  (let t := [CD_clause (C_rule (SP_term (T_atom (A_ATOM (d "p"))))
               (PE_not (PE_and (PE_paren (PE_simple (SP_term (T_binop (T_var (d "A")) (d "=") (T_binop (T_var (d "B")) (d "=") (T_var (d "C")))))))
                               (PE_simple SP_cut))))] in
   canonical t = false /\ canonical (canon_program t) = true /\ parse (yield t) = Some (canon_program t) /\
   canon_program t <> t).
Proof.
  split.
  - eexists; eexists. vm_compute. repeat split; reflexivity.
  - split; [vm_compute; reflexivity|]. split; [vm_compute; reflexivity|].
    split; [vm_compute; reflexivity|]. split; [vm_compute; reflexivity|].
    intros t. vm_compute.
    split; [reflexivity|]. split; [reflexivity|]. split; [reflexivity|discriminate].
Qed.

(* The command line judges every source text ALONE (model command line Cli/Cli.v over the model compiler
   compile_text): a run that exits with status 0 has read only sentences of the grammar - each file, standard input -, so
   a source that ends inside a comment, a quoted atom or a clause is refused even when the beginning of the next source
   would complete it; one source that is not a sentence makes the run fail, whatever the other sources are. *)
Theorem C10_cli_sources_are_sentences : forall printable failure trace f outfile srcs fs stdin,
  status (r_end (yldpc_lib printable failure trace f outfile srcs fs stdin)) = 0%N ->
  all_exist fs srcs /\
  Forall (fun r => exists t, r = RText t /\ sentence t) (contents (fs_seen fs outfile) stdin srcs).
Proof. exact cli_sources_sentences. Qed.
Print Assumptions C10_cli_sources_are_sentences.

Theorem C10_cli_non_sentence_fails : forall printable failure trace f outfile srcs fs stdin t,
  In (RText t) (contents (fs_seen fs outfile) stdin srcs) -> ~ sentence t ->
  status (r_end (yldpc_lib printable failure trace f outfile srcs fs stdin)) <> 0%N.
Proof. exact cli_non_sentence_fails. Qed.
Print Assumptions C10_cli_non_sentence_fails.

(* non-vacuity: one sentence cut inside a quoted atom into two sources - the joined text compiles, each piece alone is
   refused, the run over both has status 1 and writes nothing *)
Example C10_cli_pieces_refused :
  let printable := fun _ : N => false in
  let failure := fun _ : str => CErr 1 0 (d "syntax error") in
  let trace := fun (dfn : bool) (s t : str) => @nil (chan * str) in
  let a := d "k(1).\10;p('ab" in
  let b := d "cd').\10;" in
  let fs := fun s => if str_eqb s (d "x.pl") then Some (RText a) else
                     if str_eqb s (d "y.pl") then Some (RText b) else None in
  let r := yldpc_lib printable failure trace (Flags false false false false) (d "-") [d "x.pl"; d "y.pl"] fs (RText []) in
  (exists text, compile_text printable (a ++ b)%list = CText text)
  /\ compile_text printable a = CRejectFront /\ compile_text printable b = CRejectFront
  /\ status (r_end r) = 1%N /\ output r = [].
Proof. exact cli_pieces_refused. Qed.
