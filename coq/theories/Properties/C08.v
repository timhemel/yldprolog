(* C08 - call resolution: facts first, exact arity, load order, late binding.
   Only statements; every proof is `exact <lemma>` to a lemma proved in Engine/; at the end three
   evaluated examples for non-vacuity.

   Vocabulary (Engine/Resolve.v).  An engine is (fact store, context); the context is keyed by
   the strings mkkey name (AFix n) = '<name>_<n>' and mkkey name AVar = '<name>_n' and holds the
   chain of definitions filed under the key (chain order = load order).  A generator is a
   function  engine -> Done fin | Yield answer generator  : it is resumed under the engine as
   it is at that moment.  query_gen (S f) name args nx s  is YP.query(name, args) started with
   the bindings s (f = call depth still available).  `drain e g` runs a generator to its end
   while the engine stays e: (answers in order, how it ended: Norm / Cut / Raise / Oof = out of
   call depth).  `run_sched [e1; e2; ...] g` resumes it under e1, then e2, ... (the engine may have
   been changed between two answers). *)
From Coq Require Import String.
From Coq Require Import List Arith NArith Bool.
Import ListNotations.
From YP Require Import Base.Str Engine.Resolve Engine.ResolveProofs Engine.Keys Engine.ResolveLate
  Engine.RunResolve Engine.ResolveHist.

(* ---- "A call name/N resolves to the dynamic facts of name/N in order followed by the answers of
   the definitions registered for exactly N arguments (a variadic registration is used only when
   there is none)".  A chain member that cannot take N arguments makes the call raise after
   the facts (TypeError of the Python call). *)
Theorem C08_lookup_spec : forall f name args nx s e,
  reserved name = false ->
  let n := length args in
  let facts := fact_answers (db_get (e_db e) (name, n)) args s in
  let ds := match ctx_get (e_ctx e) (mkkey name (AFix n)) with
            | Some ds => ds
            | None => match ctx_get (e_ctx e) (mkkey name AVar) with Some ds => ds | None => [] end
            end in
  drain e (query_gen (S f) name args nx s e) =
  if forallb (params_ok n) ds
  then let r := drain e (chain_gen (query_gen f) ds args nx s e) in
       (map (prune nx) (facts ++ fst r), snd r)
  else (map (prune nx) facts, Raise).
Proof. exact lookup_spec. Qed.
Print Assumptions C08_lookup_spec.

(* ---- "the dynamic facts of name/N in order": assert_fact puts the new fact at the end (or the
   front) of name/N and touches nothing else; a call with distinct unbound variables answers every
   stored fact, in the stored order *)
Theorem C08_assert_fact_get : forall m name vals app k,
  db_get (assert_fact m name vals app) k =
  if dbkey_eqb k (name, length vals)
  then (if app then db_get m (name, length vals) ++ [vals] else vals :: db_get m (name, length vals))
  else db_get m k.
Proof. exact assert_fact_get. Qed.
Print Assumptions C08_assert_fact_get.

Theorem C08_fact_answers_in_order : forall fs args s,
  Forall (fun f => length f = length args) fs -> NoDup args ->
  (forall v, In v args -> slookup s v = None) ->
  map (fun s' => map (slookup s') args) (fact_answers fs args s) = map (map Some) fs.
Proof. exact fact_answers_fresh. Qed.
Print Assumptions C08_fact_answers_in_order.

(* ---- "an unknown predicate simply fails" (no exception) *)
Theorem C08_unknown_predicate_fails : forall f name args nx s e,
  db_get (e_db e) (name, length args) = [] ->
  ctx_get (e_ctx e) (mkkey name (AFix (length args))) = None ->
  ctx_get (e_ctx e) (mkkey name AVar) = None ->
  drain e (query_gen (S f) name args nx s e) = ([], Norm).
Proof. exact unknown_fails. Qed.
Print Assumptions C08_unknown_predicate_fails.

Theorem C08_exact_over_variadic : forall c name n ds,
  ctx_get c (mkkey name (AFix n)) = Some ds -> resolve c name n = Some ds.
Proof. exact exact_over_variadic. Qed.
Print Assumptions C08_exact_over_variadic.

Theorem C08_variadic_only_without_exact : forall c name n,
  ctx_get c (mkkey name (AFix n)) = None -> resolve c name n = ctx_get c (mkkey name AVar).
Proof. exact variadic_only_without_exact. Qed.
Print Assumptions C08_variadic_only_without_exact.

(* ---- the string-level keys: (name, arity) can be read back from '<name>_<arity>' / '<name>_n'
   (split at the last underscore); foo/1 is 'foo_1', foo_1/0 is 'foo_1_0', never the same key *)
Theorem C08_key_determines_name_and_arity : forall n1 a1 n2 a2,
  mkkey n1 a1 = mkkey n2 a2 -> n1 = n2 /\ a1 = a2.
Proof. exact mkkey_inj. Qed.
Print Assumptions C08_key_determines_name_and_arity.

(* ---- "never to a definition of another arity": whatever is assigned to the key of another
   name/arity (by register_function or a load) does not change what name/N resolves to *)
Theorem C08_other_arity_never : forall c name n name2 a2 v,
  (name2, a2) <> (name, AFix n) -> (name2, a2) <> (name, AVar) ->
  resolve (ctx_set c (mkkey name2 a2) v) name n = resolve c name n.
Proof. exact resolve_set_other. Qed.
Print Assumptions C08_other_arity_never.

(* ---- "(Names of the engine's own API functions are reserved and never callable as
   predicates.)": exactly the 15 names of the default context are refused; a call of such a name
   gives its facts and nothing else whatever the context holds; and no predicate key collides
   with an API entry of the context *)
Theorem C08_reserved_exact : forall name, reserved name = true <-> In name api_names.
Proof. exact reserved_iff. Qed.
Print Assumptions C08_reserved_exact.

Theorem C08_reserved_only_facts : forall f name args nx s e,
  reserved name = true ->
  drain e (query_gen (S f) name args nx s e) =
  (map (prune nx) (fact_answers (db_get (e_db e) (name, length args)) args s), Norm).
Proof. exact reserved_only_facts. Qed.
Print Assumptions C08_reserved_only_facts.

Theorem C08_predicate_keys_never_api_names : forall name a, ~ In (mkkey name a) api_names.
Proof. exact mkkey_not_api. Qed.
Print Assumptions C08_predicate_keys_never_api_names.

(* ---- loading.  A script is Python: its statements bind keys to NEW function objects (`def`,
   lambda), to constants (not callable), to None, delete keys of the copy, assign a key to itself,
   or raise.  last_eff ss k = the last thing the script does to key k (None: nothing; Some None:
   deleted in the copy; Some (Some v): bound to v); last_def ss k = the (last) object it binds k to.
   ctx_val c k = what k is bound to (None / an object / a chain closure); ctx_get c k = the objects
   a call finds there. *)

(* complete description of a load that returns, for every key k and every kind of statement.
   (`!=` of the merge loop = same_value: a function made by the script differs from everything;
   None equals "not bound"; a constant equals the same constant bound directly.) *)
Theorem C08_load_val : forall c sc ow c' k,
  load c sc ow = Some c' ->
  ctx_val c' k =
  match last_eff (s_stmts sc) k with
  | Some (Some v) =>
      if same_value (ctx_val c k) v then ctx_val c k
      else if ow then Some v
      else Some (VChain (old_members c k ++ members v))
  | _ => ctx_val c k
  end.
Proof. exact load_val. Qed.
Print Assumptions C08_load_val.

Theorem C08_load_get : forall c sc ow c' k,
  load c sc ow = Some c' ->
  ctx_get c' k =
  match last_eff (s_stmts sc) k with
  | Some (Some v) =>
      if same_value (ctx_val c k) v then ctx_get c k
      else if ow then Some (members v)
      else Some (old_members c k ++ members v)
  | _ => ctx_get c k
  end.
Proof. exact load_get. Qed.
Print Assumptions C08_load_get.

(* the case of the property text: the script DEFINES k (a function d): replaced / appended *)
Theorem C08_load_get_def : forall c sc ow c' k d,
  load c sc ow = Some c' -> last_def (s_stmts sc) k = Some d -> d_const d = None ->
  ctx_get c' k = if ow then Some [d] else Some (old_members c k ++ [d]).
Proof. exact load_get_def. Qed.
Print Assumptions C08_load_get_def.

(* "Loading a script with overwrite replaces exactly the definitions it contains" *)
Theorem C08_load_overwrite_exact : forall c sc c' k d,
  load c sc true = Some c' -> last_def (s_stmts sc) k = Some d -> d_const d = None -> ctx_get c' k = Some [d].
Proof. exact load_overwrite_exact. Qed.
Print Assumptions C08_load_overwrite_exact.

(* "loading without overwrite appends its definitions after the existing ones for the same
   name/arity in load order" - for any number of loads (scripts of definitions) *)
Theorem C08_load_chain_order : forall scs c c' k,
  forallb plain_script scs = true ->
  load_all c scs = Some c' ->
  chain_of c' k = chain_of c k ++
    flat_map (fun sc => match last_def (s_stmts sc) k with Some d => [d] | None => [] end) scs.
Proof. exact load_chain_order. Qed.
Print Assumptions C08_load_chain_order.

(* "definitions it does not mention are unaffected" (bound_keys = every key a statement names) *)
Theorem C08_load_frame : forall c sc ow c' k,
  load c sc ow = Some c' -> ~ In k (bound_keys (s_stmts sc)) -> ctx_val c' k = ctx_val c k.
Proof. exact load_frame. Qed.
Print Assumptions C08_load_frame.

(* ... nor are keys the script deletes (`del k` acts on the copy only) *)
Theorem C08_load_del_unaffected : forall c sc ow c' k,
  load c sc ow = Some c' -> last_eff (s_stmts sc) k = Some None -> ctx_val c' k = ctx_val c k.
Proof. exact load_del_unaffected. Qed.
Print Assumptions C08_load_del_unaffected.

(* "a load that raises leaves the engine unchanged": text that does not compile, or any
   statement raising while the script runs - whatever it bound before - gives no new context *)
Theorem C08_load_fail_atomic : forall c sc ow,
  s_broken sc = true \/ In SFail (s_stmts sc) -> load c sc ow = None.
Proof. exact load_fail_atomic. Qed.
Print Assumptions C08_load_fail_atomic.

(* exactly when a load returns: the text compiles and every statement runs (exec_ok: no raising
   statement; `del k` / `k = k` only of keys bound at that point) - nothing else can make it raise,
   in particular not WHAT the script binds (the merge does not look at the values) *)
Theorem C08_load_ok_iff : forall c sc ow,
  (exists c', load c sc ow = Some c') <-> (s_broken sc = false /\ exec_ok (s_stmts sc) (bound_in c) = true).
Proof. exact load_ok_iff. Qed.
Print Assumptions C08_load_ok_iff.

(* the load OPERATION in any state of a history, any script: it raises and the state is the same
   state, or it returns and every key is as C08_load_val says - never something in between *)
Theorem C08_load_op_atomic : forall fuel sc ow st,
  (load (e_ctx (st_eng st)) sc ow = None /\ do_op fuel (OLoad sc ow) st = (otag "raised" [], st)) \/
  (exists c', load (e_ctx (st_eng st)) sc ow = Some c' /\
     do_op fuel (OLoad sc ow) st = (otag "ok" [], mkState (mkEngine (e_db (st_eng st)) c') (st_susp st)) /\
     forall k, ctx_val c' k =
       match last_eff (s_stmts sc) k with
       | Some (Some v) =>
           if same_value (ctx_val (e_ctx (st_eng st)) k) v then ctx_val (e_ctx (st_eng st)) k
           else if ow then Some v
           else Some (VChain (old_members (e_ctx (st_eng st)) k ++ members v))
       | _ => ctx_val (e_ctx (st_eng st)) k
       end).
Proof. exact load_op_atomic. Qed.
Print Assumptions C08_load_op_atomic.

Theorem C08_raised_load_resolves_as_before : forall fuel sc ow st,
  fst (do_op fuel (OLoad sc ow) st) = otag "raised" [] -> snd (do_op fuel (OLoad sc ow) st) = st.
Proof. exact raised_load_resolves_as_before. Qed.
Print Assumptions C08_raised_load_resolves_as_before.

(* what the code does with `name_N = None` (the model says exactly that; the property text is
   silent): under overwrite the key stays bound, to None - nothing to call and the variadic
   registration is not consulted; for a key that is not bound nothing is bound *)
Theorem C08_load_none_hides_variadic : forall c sc c' name n,
  load c sc true = Some c' -> last_eff (s_stmts sc) (mkkey name (AFix n)) = Some (Some VNone) ->
  ctx_get c (mkkey name (AFix n)) <> None -> ctx_get c (mkkey name (AFix n)) <> Some [] ->
  resolve c' name n = Some [].
Proof. exact load_none_hides_variadic. Qed.
Print Assumptions C08_load_none_hides_variadic.

Theorem C08_load_none_unbound : forall c sc ow c' k,
  load c sc ow = Some c' -> last_eff (s_stmts sc) k = Some (Some VNone) -> ctx_val c k = None ->
  ctx_val c' k = None.
Proof. exact load_none_unbound. Qed.
Print Assumptions C08_load_none_unbound.

(* a module constant under a predicate key, alone or inside a chain (what a combining load makes
   of `name_N = 4`): every call that resolves to it raises, after the facts and before any
   definition answers - it never silently answers something else *)
Theorem C08_noncallable_member_raises : forall f name args nx s e ds d z,
  reserved name = false ->
  resolve (e_ctx e) name (length args) = Some ds -> In d ds -> d_const d = Some z ->
  drain e (query_gen (S f) name args nx s e) =
  (map (prune nx) (fact_answers (db_get (e_db e) (name, length args)) args s), Raise).
Proof. exact noncallable_member_raises. Qed.
Print Assumptions C08_noncallable_member_raises.

(* register_function assigns exactly one key (no chaining) *)
Theorem C08_register_get : forall c name st d k,
  ctx_get (register c name st d) k =
  if str_eqb k (mkkey name (reg_arity st d)) then Some [d] else ctx_get c k.
Proof. exact register_get. Qed.
Print Assumptions C08_register_get.

(* ---- all of the above for EVERY history.  spec_step (Engine/ResolveHist.v) is the property text
   as a state machine on total maps key -> definition list and name/arity -> fact list: register
   assigns one key, a raising load changes nothing, an overwrite load replaces the keys it
   mentions, a combining load appends to them, unmentioned keys are unaffected, assert_fact
   appends/prepends one fact, clear empties both, queries change nothing.  After any history
   from the empty engine the engine's dictionaries ARE these maps (and no key holds an empty
   chain), and a call uses the spec's definitions for exactly its arity, else the variadic ones.
   plain_op: what is registered / loaded are functions and raising statements (the vocabulary of
   the property text; scripts binding constants / None / deleting keys: C08_load_val above). *)
Theorem C08_history_refines_spec : forall fuel ops,
  forallb plain_op ops = true ->
  abs_ok (st_eng (exec_ops fuel ops (mkState empty_engine []))) (spec_run ops spec_init).
Proof. exact history_refines_spec. Qed.
Print Assumptions C08_history_refines_spec.

Theorem C08_defs_of_spec : forall e sp name n,
  abs_ok e sp -> defs_of (e_ctx e) name n = spec_defs (fst sp) name n.
Proof. exact defs_of_spec. Qed.
Print Assumptions C08_defs_of_spec.

(* ---- "each keeping its own cuts": a member of a chain that returns by cut (or ends normally)
   is followed by the next member; an exception ends the call *)
Theorem C08_chain_cut_local : forall call d r args nx s e l fi,
  drain e (def_gen call d args nx s e) = (l, fi) -> fi = Norm \/ fi = Cut ->
  drain e (chain_gen call (d :: r) args nx s e) =
  (l ++ fst (drain e (chain_gen call r args nx s e)), snd (drain e (chain_gen call r args nx s e))).
Proof. exact chain_cut_local. Qed.
Print Assumptions C08_chain_cut_local.

Theorem C08_chain_concat : forall call ds args nx s e,
  Forall (fun d => snd (drain e (def_gen call d args nx s e)) = Norm \/
                   snd (drain e (def_gen call d args nx s e)) = Cut) ds ->
  drain e (chain_gen call ds args nx s e) =
  (flat_map (fun d => fst (drain e (def_gen call d args nx s e))) ds, Norm).
Proof. exact chain_concat. Qed.
Print Assumptions C08_chain_concat.

Theorem C08_chain_raise_stops : forall call d r args nx s e l,
  drain e (def_gen call d args nx s e) = (l, Raise) ->
  drain e (chain_gen call (d :: r) args nx s e) = (l, Raise).
Proof. exact chain_raise_stops. Qed.
Print Assumptions C08_chain_raise_stops.

(* ---- "references between scripts and to registered Python predicates are resolved at call time
   so load order is irrelevant".  Answers depend on the engine only through the contents of its
   dictionaries (definitions hold no reference to the context they were loaded into) ... *)
Theorem C08_late_binding : forall e1 e2, eng_equiv e1 e2 -> forall fuel name args nx s,
  drain e1 (query_gen fuel name args nx s e1) = drain e2 (query_gen fuel name args nx s e2).
Proof. exact query_ext. Qed.
Print Assumptions C08_late_binding.

(* ... and scripts binding different keys can be loaded in either order (any overwrite flags):
   both orders succeed and every query has the same answers afterwards *)
Theorem C08_load_order_irrelevant : forall m c sc1 ow1 sc2 ow2 c1 c12,
  (forall k, In k (bound_keys (s_stmts sc1)) -> ~ In k (bound_keys (s_stmts sc2))) ->
  load c sc1 ow1 = Some c1 -> load c1 sc2 ow2 = Some c12 ->
  exists c2 c21, load c sc2 ow2 = Some c2 /\ load c2 sc1 ow1 = Some c21 /\
    forall fuel name args nx s,
      drain (mkEngine m c12) (query_gen fuel name args nx s (mkEngine m c12)) =
      drain (mkEngine m c21) (query_gen fuel name args nx s (mkEngine m c21)).
Proof. exact load_order_irrelevant. Qed.
Print Assumptions C08_load_order_irrelevant.

(* ---- "resolves, at the moment it is made".  The call is made at the FIRST resumption of the
   query object (YP.query is a generator function: creating the object runs nothing).  For every
   schedule e0 :: es: the fact list and the result of the lookup (blacklist, '<name>_<N>', else
   '<name>_n') are those of e0; the engines that come later are only handed to the bodies of the
   definitions found in e0 (call_phase), after the facts. *)
Theorem C08_resolution_at_first_resumption : forall f name args nx s e0 es,
  let facts := fact_answers (db_get (e_db e0) (name, length args)) args s in
  let fn := lookup_phase (e_ctx e0) name (length args) in
  run_sched (e0 :: es) (query_gen (S f) name args nx s) =
  if length es <? length facts
  then (map (prune nx) (firstn (S (length es)) facts), None)
  else let r := run_sched (skipn (length facts) (e0 :: es)) (call_phase (query_gen f) fn args nx s) in
       (map (prune nx) (facts ++ fst r), snd r).
Proof. exact resolution_at_first_resumption. Qed.
Print Assumptions C08_resolution_at_first_resumption.

(* the same, split at the moment the facts run out (es0: one engine per fact answer): the
   definitions called under e' are those of the engine of the first resumption, not those of e' *)
Theorem C08_resolution_moment : forall f name args nx s es0 e' es,
  let e0 := hd e' es0 in
  let facts := fact_answers (db_get (e_db e0) (name, length args)) args s in
  let fn := lookup_phase (e_ctx e0) name (length args) in
  length es0 = length facts ->
  run_sched (es0 ++ e' :: es) (query_gen (S f) name args nx s) =
  let r := run_sched (e' :: es) (call_phase (query_gen f) fn args nx s) in
  (map (prune nx) (facts ++ fst r), snd r).
Proof. exact resolution_moment. Qed.
Print Assumptions C08_resolution_moment.

(* a call that has taken its chain from the context keeps it: its answers are the same under
   every later history of the engine (definitions without calls; a call made from a body is a
   new call and is resolved at its own first resumption) *)
Theorem C08_resolved_call_keeps_definitions : forall call ds args nx s es1 es2,
  forallb callfree ds = true -> length es1 = length es2 ->
  run_sched es1 (chain_gen call ds args nx s) = run_sched es2 (chain_gen call ds args nx s).
Proof. exact resolved_call_keeps_definitions. Qed.
Print Assumptions C08_resolved_call_keeps_definitions.

(* CALL-TIME RESOLUTION (YP.query looks the definitions up when the call starts, not when the facts
   run out).  call_defs e0 name N = the definitions the
   call takes from e0 (none for an API name).  If they make no calls, the answers of the call are
   the same under ALL later histories es1, es2 of the engine (asserts, loads with or without
   overwrite, register, clear - while the call is suspended on a fact or inside a definition) ... *)
Theorem C08_call_time_resolution : forall f name args nx s e0 es1 es2,
  forallb callfree (call_defs e0 name (length args)) = true ->
  length es1 = length es2 ->
  run_sched (e0 :: es1) (query_gen (S f) name args nx s) =
  run_sched (e0 :: es2) (query_gen (S f) name args nx s).
Proof. exact call_time_resolution. Qed.
Print Assumptions C08_call_time_resolution.

(* ... namely the answers computed in e0 alone (by C08_lookup_spec: the facts of e0 in order, then
   the definitions e0 holds for exactly N arguments, else the variadic ones) *)
Theorem C08_call_time_resolution_answers : forall f name args nx s e0 es,
  forallb callfree (call_defs e0 name (length args)) = true ->
  let r := drain e0 (query_gen (S f) name args nx s e0) in
  length (fst r) <= length es ->
  run_sched (e0 :: es) (query_gen (S f) name args nx s) = (fst r, Some (snd r)).
Proof. exact call_time_resolution_answers. Qed.
Print Assumptions C08_call_time_resolution_answers.

(* Before the first resumption nothing is fixed.  The query object made by `start` is the closed
   term query_gen fuel name args .. whatever the engine is at that time, it stays that object
   under all operations that do not resume it (engine changes, other queries), and its first
   `next` is computed from the engine of the moment of that `next`. *)
Theorem C08_created_query_unresolved : forall fuel name n st ops,
  let i := length (st_susp st) in
  forallb (leaves i) ops = true ->
  nth_error (st_susp (exec_ops fuel ops (snd (do_op fuel (OStart name n) st)))) i =
  Some (Some (query_gen fuel name (seq 0 n) n []), n).
Proof. exact created_query_unresolved. Qed.
Print Assumptions C08_created_query_unresolved.

Theorem C08_unstarted_query_sees_engine_of_first_next : forall fuel name n st ops,
  let i := length (st_susp st) in
  forallb (leaves i) ops = true ->
  let st' := exec_ops fuel ops (snd (do_op fuel (OStart name n) st)) in
  fst (do_op fuel (ONext i) st') = step_obs n (query_gen fuel name (seq 0 n) n [] (st_eng st')).
Proof. exact unstarted_query_sees_engine_of_first_next. Qed.
Print Assumptions C08_unstarted_query_sees_engine_of_first_next.

(* ---- the same over HISTORIES (what the correspondence check runs).  The results of the `next`
   operations on suspended query i in a history are the run of its generator under the schedule of
   the engines current at these `next` (no `close i` in the history) ... *)
Theorem C08_nexts_are_schedule : forall fuel i n ops st g,
  nth_error (st_susp st) i = Some (g, n) ->
  forallb (fun o => negb (is_close i o)) ops = true ->
  nexts_of fuel i ops st = sched_obs n (engines_at fuel i ops st) g.
Proof. exact nexts_are_schedule. Qed.
Print Assumptions C08_nexts_are_schedule.

(* ... so: two arbitrary histories in which the first `next` of the not yet started query object of
   a call name/n finds the same engine e0 (whose definitions for name/n make no calls) and which
   resume it equally often report the same at every `next` of it, whatever else they do to the
   engine (register, loads, asserts, clear, other queries) before, between and after *)
Theorem C08_history_call_time_resolution : forall f name n i1 i2 ops1 ops2 st1 st2 e0 es1 es2,
  let q := query_gen (S f) name (seq 0 n) n [] in
  nth_error (st_susp st1) i1 = Some (Some q, n) -> nth_error (st_susp st2) i2 = Some (Some q, n) ->
  forallb (fun o => negb (is_close i1 o)) ops1 = true -> forallb (fun o => negb (is_close i2 o)) ops2 = true ->
  engines_at (S f) i1 ops1 st1 = e0 :: es1 -> engines_at (S f) i2 ops2 st2 = e0 :: es2 ->
  length es1 = length es2 ->
  forallb callfree (call_defs e0 name n) = true ->
  nexts_of (S f) i1 ops1 st1 = nexts_of (S f) i2 ops2 st2.
Proof. exact history_call_time_resolution. Qed.
Print Assumptions C08_history_call_time_resolution.

(* the big-step reading used above is the schedule in which the engine never changes *)
Theorem C08_drain_is_constant_schedule : forall e st n,
  length (fst (drain e st)) < n ->
  forall g, g e = st -> run_sched (repeat e n) g = (fst (drain e st), Some (snd (drain e st))).
Proof. exact run_sched_const. Qed.
Print Assumptions C08_drain_is_constant_schedule.

(* non-vacuity: three scripts combined for p/1 (the second one cuts), a fact, an unrelated arity
   and a variadic registration; the call p(X) gives the fact, then the three definitions in load
   order, the cut of the second one does not end the third, p/2 and the variadic one are not used *)
Local Open Scope string_scope.
Example C08_nonvacuous :
  let df (a : string) (cut : bool) := mkDef (Some 1) [mkClause 0 (GUnify 0 (d a) :: if cut then [GCut] else []);
                                  mkClause 0 [GUnify 0 (d (String.append a "2"))]] in
  let sc (a : string) (cut : bool) := mkScript false [SDef (mkkey (d "p") (AFix 1)) (df a cut)] in
  let c0 := register (register [] (d "p") RVariadic (mkDef None [mkClause 0 [GUnify 0 (d "variadic")]]))
                     (d "p") (RExplicit 2) (mkDef (Some 2) [mkClause 0 [GUnify 0 (d "two")]]) in
  exists c', load_all c0 [sc "x" false; sc "y" true; sc "z" false] = Some c' /\
    let e := mkEngine (assert_fact [] (d "p") [d "fact"] true) c' in
    drain e (query_gen 3 (d "p") [0] 1 [] e) =
    ([[(0, d "fact")]; [(0, d "x")]; [(0, d "x2")]; [(0, d "y")]; [(0, d "z")]; [(0, d "z2")]], Norm).
Proof. intros df sc c0. apply some_such_that. vm_compute. reflexivity. Qed.

(* non-vacuity for scripts that are not only definitions.  The context has color/1 (blue).  A script
   binds color_1 (red), shape_1, the constant MAX_SIZE = <constant 4>, size_1, the constant lim_1 - loaded
   WITHOUT overwrite it returns and everything is merged (color/1 = blue, red; shape/1; size/1; MAX_SIZE a
   chain around the constant); the same script with a raising statement in the middle raises and
   the load has no new context; a key bound to a constant makes the call raise after the facts. *)
Example C08_nondef_globals_nonvacuous :
  let df (a : string) := mkDef (Some 1) [mkClause 0 [GUnify 0 (d a)]] in
  let k (nm : string) := mkkey (d nm) (AFix 1) in
  let c0 : ctx := [(k "color", VObj (df "blue"))] in
  let ss := [SDef (k "color") (df "red"); SDef (k "shape") (df "square"); SDef (d "MAX_SIZE") (mkConst 4);
             SDef (k "size") (df "four"); SDef (k "lim") (mkConst 7)] in
  (exists c', load c0 (mkScript false ss) false = Some c' /\
     ctx_val c' (k "color") = Some (VChain [df "blue"; df "red"]) /\
     ctx_val c' (k "shape") = Some (VChain [df "square"]) /\
     ctx_val c' (d "MAX_SIZE") = Some (VChain [mkConst 4]) /\
     ctx_val c' (k "size") = Some (VChain [df "four"]) /\
     let e := mkEngine (assert_fact [] (d "lim") [d "fact"] true) c' in
     drain e (query_gen 3 (d "color") [0] 1 [] e) = ([[(0, d "blue")]; [(0, d "red")]], Norm) /\
     drain e (query_gen 3 (d "lim") [0] 1 [] e) = ([[(0, d "fact")]], Raise)) /\
  load c0 (mkScript false (firstn 2 ss ++ SFail :: skipn 2 ss)) false = None /\
  load c0 (mkScript false (ss ++ [SDel (k "nosuch")])) false = None /\
  (exists c', load c0 (mkScript false (ss ++ [SDel (k "color"); SNone (k "shape")])) true = Some c' /\
     ctx_val c' (k "color") = Some (VObj (df "blue")) /\ ctx_val c' (k "shape") = None).
Proof.
  intros df k c0 ss. split; [|split; [|split]].
  - apply some_such_that. vm_compute. repeat split.
  - vm_compute; reflexivity.
  - vm_compute; reflexivity.
  - apply some_such_that. vm_compute. split; reflexivity.
Qed.

(* non-vacuity of call-time resolution: fact p(f), definition p(old); started (answers f); p(old) is
   replaced by p(new); resumed: old, although a call made now answers new.  And of "nothing is fixed
   before the first next": Engine/ResolveHist.v unstarted_query_witness. *)
Example C08_call_time_nonvacuous :
  forallb callfree (call_defs wit_e0 (d "p") 1) = true /\
  run_sched [wit_e0; wit_e1; wit_e1] (query_gen 2 (d "p") [0] 1 []) = ([[(0, d "f")]; [(0, d "old")]], Some Norm) /\
  run_sched [wit_e1; wit_e1; wit_e1] (query_gen 2 (d "p") [0] 1 []) = ([[(0, d "f")]; [(0, d "new")]], Some Norm).
Proof. exact call_time_resolution_witness. Qed.
