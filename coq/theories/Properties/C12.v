(* C12 - Prolog text cannot become Python code; loaded code sees only the engine API.

   Parts:  (1) a string written with repr() cannot escape its quotes (proved in Comp/PyReprSound.v; all the statements are in
               Properties/C12R.v, the two used by the emitter argument are repeated here);
           (2) source_text_positions: where source text can occur in the emitted text (Comp/EmitPieces.v);
           (3) emit_names_whitelisted / no_capture: the names the emitted functions call, read and bind (Comp/EmitNames.v);
           (4) api_not_callable: a query for an engine API name never reaches a definition, and no predicate key is an API
               name (Engine/Resolve.v, Engine/Keys.v - shared with C08).
   Only statements here: the proofs are in the Comp and Engine files, except for the evaluated example at the end. *)
From Coq Require Import String.
From Coq Require Import List Arith NArith Bool.
Import ListNotations.
From YP Require Import Base.Str Lang.Ast Lang.Unquote Lang.Front Comp.IR Comp.CompileBody Comp.CompileClause Comp.Emit
  Comp.PyRepr Comp.PyLex Comp.PyReprSound Comp.CompileText Comp.EmitShape Comp.EmitNames Comp.EmitPieces Comp.EmitLines Comp.CompileTextSound Comp.FrontLex.
From YP Require Import Engine.Resolve Engine.ResolveProofs Engine.Keys.
Local Open Scope string_scope.
Local Open Scope list_scope.

Theorem C12_repr_cannot_escape : forall printable, surrogates_unprintable printable -> forall s rest,
  valid s -> no_triple s rest ->
  py_lex_string (py_repr printable s ++ rest) = Some (s, rest).
Proof. exact repr_cannot_escape. Qed.
Print Assumptions C12_repr_cannot_escape.

(* the form that applies to the emitter: every literal is followed by `,` or `)` (never by a quote) *)
Theorem C12_repr_cannot_escape_before : forall printable, surrogates_unprintable printable -> forall c s rest,
  valid s -> c <> SQ ->
  py_lex_string (py_repr printable s ++ c :: rest) = Some (s, c :: rest).
Proof. exact repr_cannot_escape_before. Qed.
Print Assumptions C12_repr_cannot_escape_before.

Theorem C12_repr_no_newline : forall printable s, Forall (fun x => x <> 10%N /\ x <> 13%N) (py_repr printable s).
Proof. exact repr_no_newline. Qed.
Print Assumptions C12_repr_no_newline.

(* source_text_positions.  The text of every program the compiler produces is, line by line, a sequence of pieces
   (Comp/EmitPieces.v): PFix w = text that does not come from the source, and the four renderings PRepr s = repr(s),
   PNum d = str(int(d)), PVar v = "V_" ++ v, PDef f n = f_<n>.  Rendering the pieces gives exactly the lines of the text (for
   every repr); every PFix piece satisfies the closed test fixed_ok (a word of the fixed vocabulary, blanks, a decimal number,
   arg<n>); every other piece carries a string of the program of the matching kind: an atom/functor/goal name, a numeral, a
   variable name, a head key.  Hence every character that depends on the source lies inside one of the four renderings. *)
Theorem C12_source_text_positions : forall p ir, compile_program p = Some ir ->
  forall repr, map (flat repr) (program_pieces ir) = emit_lines repr ir /\
    emit_program repr ir = join [10%N] (emit_lines repr ir) /\
    Forall (Forall (piece_ok (inl_ (program_strs p)) (fun k => In k (head_keys p)))) (program_pieces ir).
Proof. exact source_text_positions. Qed.
Print Assumptions C12_source_text_positions.

(* the renderings are harmless: no rendering and no fixed piece contains a line break, so a line of pieces is one line of text *)
Theorem C12_lines_one_line : forall printable p, lexical_ok p = true -> forall ir, compile_program p = Some ir ->
  Forall (fun l => Forall (fun c => c <> 10%N /\ c <> 13%N) l) (emit_lines (py_repr printable) ir).
Proof. exact lines_one_line. Qed.
Print Assumptions C12_lines_one_line.

(* lexical_ok holds for every program the front end returns *)
Theorem C12_front_lexical : forall s p, front s = Some p -> lexical_ok p = true.
Proof. exact front_lexical. Qed.
Print Assumptions C12_front_lexical.

(* the shape behind it: every function is the code of clauses of the program with its key; each of its statements has one of
   the nine shapes of stmt_ok (Comp/EmitShape.v) - no other statement or expression form is ever produced *)
Theorem C12_compile_program_shape : forall p ir, compile_program p = Some ir ->
  Forall (func_shape p) ir /\ map fn_key ir = head_keys p.
Proof. exact compile_program_shape. Qed.
Print Assumptions C12_compile_program_shape.

(* names.  In every emitted function: the only calls are to query unify atom functor listpair makelist variable; every
   name that is read is one of those, ATOM_NIL, or a name bound in the same function (so every Prolog variable that is used is
   assigned there: no free V_ name) *)
Theorem C12_emit_names_whitelisted : forall p ir, compile_program p = Some ir ->
  Forall (fun f => (forall x, In x (func_calls f) -> In x api_calls) /\
                   (forall x, In x (func_loads f) -> In x api_globals \/ In x (func_locals f))) ir.
Proof. exact compiled_names_whitelisted. Qed.
Print Assumptions C12_emit_names_whitelisted.

(* no_capture: every bound name is V_<source variable> | arg<i> | l<n> | cutIf<n> | doBreak | _ ; none of them is a Python
   keyword or constant, an engine API name or a whitelisted global *)
Theorem C12_no_capture : forall p ir, compile_program p = Some ir ->
  Forall (fun f => forall x, In x (func_locals f) ->
     local_form x = true /\ ~ In x reserved_names /\
     ((exists v, In (KVar, v) (program_strs p) /\ x = pyvar v) \/ (exists i, i < fn_arity f /\ x = argvar i) \/
      (exists n, x = loopvar n) \/ (exists l, x = label_name l) \/ x = DOBREAK \/ x = UNDERSCORE)) ir.
Proof. exact compiled_no_capture. Qed.
Print Assumptions C12_no_capture.

Theorem C12_reserved_not_local : forall x, local_form x = true -> ~ In x reserved_names.
Proof. exact local_not_reserved. Qed.
Print Assumptions C12_reserved_not_local.

(* the blacklist is exactly the 15 API names *)
Theorem C12_reserved_exact : forall name, reserved name = true <-> In name api_names.
Proof. exact reserved_iff. Qed.
Print Assumptions C12_reserved_exact.

(* a query for a reserved name only ever answers from the fact database: no definition of the context is reached *)
Theorem C12_api_not_callable : forall f name args nx s e,
  reserved name = true ->
  drain e (query_gen (S f) name args nx s e) =
  (map (prune nx) (fact_answers (db_get (e_db e) (name, length args)) args s), Norm).
Proof. exact reserved_only_facts. Qed.
Print Assumptions C12_api_not_callable.

(* and whatever the name and arity of a query, the context key it looks up is never an API name *)
Theorem C12_predicate_keys_never_api_names : forall name a, ~ In (mkkey name a) api_names.
Proof. exact mkkey_not_api. Qed.
Print Assumptions C12_predicate_keys_never_api_names.

(* non-vacuity: a clause with hostile atoms in head, goal-name and argument positions and a variable called ATOM_NIL compiles;
   its functions call only API functions and bind V_ATOM_NIL, never ATOM_NIL *)
Example C12_nonvacuous :
  let p := [{| c_name := d "p"; c_args := [SVar (d "ATOM_NIL"); SList []; SAtom (d "');import os;('")];
               c_body := BCall (d "a\10;b") [SVar (d "ATOM_NIL"); SFun (d "it's") [SNum (d "007")]] |}] in
  exists ir, compile_program p = Some ir /\
    Forall (fun f => forallb (fun x => existsb (str_eqb x) api_calls) (func_calls f) = true /\
                     existsb (str_eqb (d "V_ATOM_NIL")) (func_locals f) = true /\
                     existsb (str_eqb (d "ATOM_NIL")) (func_locals f) = false /\
                     existsb (str_eqb (d "ATOM_NIL")) (func_loads f) = true) ir.
Proof.
  cbv zeta. eexists. split; [vm_compute; reflexivity|]. repeat constructor.
Qed.
