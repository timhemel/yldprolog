(* C15 - answers are fully dereferenced and stay valid after backtracking.
   The statements of the property; the proofs are in Engine/GetValue.v (terms as values) and
   Engine/ValueHeap.v (the objects on a heap).  Only the example C15_nonvacuous is proved here.

   gv n s t        the engine's get_value (Variable.get_value / Functor.get_value / get_value)
                   with Python recursion depth n, over a store s that is an arbitrary
                   association list variable -> stored value
   to_python n s t the engine's to_python
   resolved s t r  Spec: r is t with bound variables replaced by their values until none is left
   den s t         Spec on triangular stores (Term/Term.v; what unification is proved against)
   py_of r         Spec of to_python: a structural function of the resolved term *)
From Coq Require Import String.
From Coq Require Import List Arith ZArith Permutation Lia.
Import ListNotations.
From YP Require Import Base.Str Term.Term Engine.GetValue Engine.ValueHeap.

(* "get_value reflects all current bindings at every depth": whenever it returns, the result is the
   full resolution of t, mentions no bound variable, equals den on the stores unification builds,
   and does not depend on the recursion depth available *)
Theorem C15_get_value_is_resolve : forall n s t r, gv n s t = Some r ->
  resolved s t r /\ free_in s r /\ (wf s -> r = den s t) /\ (forall m r', gv m s t = Some r' -> r' = r).
Proof. exact get_value_is_resolve. Qed.
Print Assumptions C15_get_value_is_resolve.

(* the Spec value is unique, so "is resolved" determines the answer *)
Theorem C15_resolved_unique : forall s t r r', resolved s t r -> resolved s t r' -> r = r'.
Proof. exact resolved_unique. Qed.
Print Assumptions C15_resolved_unique.

(* it returns (needs only finitely many frames) on every store unification can build, with value den *)
Theorem C15_get_value_total_wf : forall s, wf s -> forall t, exists n, gv n s t = Some (den s t).
Proof. exact gv_wf_total. Qed.
Print Assumptions C15_get_value_total_wf.

(* ... and on every acyclic store, whatever its shape *)
Theorem C15_get_value_total_acyclic : forall s, acyclic s -> forall t, exists n r, gv n s t = Some r.
Proof. exact gv_acyclic_total. Qed.
Print Assumptions C15_get_value_total_acyclic.

(* "whatever the order in which the bindings were made" *)
Theorem C15_order_irrelevant : forall n s1 s2 t,
  NoDup (map fst s1) -> Permutation s1 s2 -> gv n s1 t = gv n s2 t.
Proof. exact gv_order_irrelevant. Qed.
Print Assumptions C15_order_irrelevant.

(* "if the answer is ground, the value returned by get_value contains no variable, so [it] still
   denotes the same term after the query has backtracked or finished": under every other store *)
Theorem C15_ground_value_stable : forall n s t r, gv n s t = Some r -> ground r ->
  forall s', den s' r = r /\ (exists m, gv m s' r = Some r) /\ (forall m r', gv m s' r = Some r' -> r' = r).
Proof. exact ground_value_stable. Qed.
Print Assumptions C15_ground_value_stable.

(* findall: the bag of saved ground values is itself stable *)
Theorem C15_findall_bag_stable : forall xs, Forall ground xs ->
  forall s', den s' (mklist xs) = mklist xs /\ (forall m r', gv m s' (mklist xs) = Some r' -> r' = mklist xs).
Proof. exact findall_bag_stable. Qed.
Print Assumptions C15_findall_bag_stable.

(* to_python of any term is the structural function py_of of its resolution *)
Theorem C15_to_python_resolve : forall n s t m r,
  gv m s t = Some r -> to_python n s t <> POof -> to_python n s t = py_of r.
Proof. exact to_python_resolve. Qed.
Print Assumptions C15_to_python_resolve.

Theorem C15_to_python_spec : forall n s r, free_in s r -> to_python n s r <> POof -> to_python n s r = py_of r.
Proof. exact to_python_spec. Qed.
Print Assumptions C15_to_python_spec.

(* atoms -> names, '[]' -> empty list, unbound -> None, ints/strs -> themselves,
   '.'/2 chains ending in [] -> lists, other compounds -> (name, args) *)
Theorem C15_to_python_spec_cases :
  (forall a, a <> nil_name -> py_of (TAtom a) = POk (PStr a)) /\
  py_of (TAtom nil_name) = POk (PList []) /\
  (forall v, py_of (TVar v) = POk PNone) /\
  (forall z, py_of (TInt z) = POk (PInt z)) /\
  (forall x, py_of (TStr x) = POk (PStr x)) /\
  (forall xs ys, Forall2 (fun x y => py_of x = POk y) xs ys -> py_of (mklist xs) = POk (PList ys)) /\
  (forall f args ys, f <> dot -> Forall2 (fun x y => py_of x = POk y) args ys ->
      py_of (TFun f args) = POk (PPair f ys)).
Proof. exact to_python_spec_cases. Qed.
Print Assumptions C15_to_python_spec_cases.

Theorem C15_ground_to_python_stable : forall r, ground r ->
  forall n s', to_python n s' r <> POof -> to_python n s' r = py_of r.
Proof. exact ground_to_python_stable. Qed.
Print Assumptions C15_ground_to_python_stable.

(* ---- object level (Engine/ValueHeap.v): the engine's objects on a heap, position = identity; gvh = get_value on objects.
   "Answers stay valid" also means that nobody else owns the pieces of a value that was handed out. *)

(* get_value writes no existing object, and every Functor object (hence every argument list) inside the value it
   returns is new: it is shared with nothing that existed before the call *)
Theorem C15_get_value_allocates_its_result : forall n h r r' h', wfh h -> r < length h -> gvh n h r = Some (r', h') ->
  (exists ext, h' = h ++ ext) /\ wfh h' /\ r' < length h' /\ forall p, fnode h' r' p -> length h <= p.
Proof. exact get_value_allocates_its_result. Qed.
Print Assumptions C15_get_value_allocates_its_result.

(* the structure of a value (Variables by identity) is the same in every later heap reached by allocating objects,
   binding and unbinding Variables and further get_value calls - by any step that writes no Functor / constant object *)
Theorem C15_value_structure_stable : forall n h h2 r v, evolve h h2 -> shape n h r = Some v -> shape n h2 r = Some v.
Proof. exact shape_stable. Qed.
Print Assumptions C15_value_structure_stable.

Theorem C15_engine_steps_evolve :
  (forall h, evolve h h) /\ (forall h1 h2 h3, evolve h1 h2 -> evolve h2 h3 -> evolve h1 h3) /\
  (forall h ext, evolve h (h ++ ext)) /\
  (forall n h r r' h', gvh n h r = Some (r', h') -> evolve h h') /\
  (forall h p b b', nth_error h p = Some (OVar b) -> evolve h (set_nth h p (OVar b'))).
Proof. exact engine_steps_evolve. Qed.
Print Assumptions C15_engine_steps_evolve.

(* extending the argument list of an object in place (what `goal_args += args` does when goal_args is the list of a
   live object) is not such a step: the value changes *)
Example C15_extend_in_place_breaks :
  let h := [OConst (TAtom (d "a"%string)); OFun (d "p"%string) [0]; OVar None] in
  shape 3 h 1 = Some (VFun (d "p"%string) [VConst (TAtom (d "a"%string))]) /\
  shape 3 (extend_in_place h 1 [2]) 1 = Some (VFun (d "p"%string) [VConst (TAtom (d "a"%string)); VRef 2]) /\
  ~ evolve h (extend_in_place h 1 [2]).
Proof. exact extend_in_place_breaks. Qed.

Example C15_object_level_nonvacuous :
  let h := [OConst (TAtom (d "a"%string)); OFun (d "p"%string) [0]; OVar (Some 1)] in
  gvh 5 h 2 = Some (3, h ++ [OFun (d "p"%string) [0]]) /\ wfh h.
Proof. exact gvh_example. Qed.

(* non-vacuity: outer structure bound first, inner variables later, the bindings listed in an order
   that is not the order in which they were made; the pinned behaviour is the named counter-example *)
Example C15_nonvacuous :
  let s := [(0, TFun (d "g"%string) [TVar 1; TVar 2]); (2, TVar 1); (1, TInt 1)] in
  acyclic s /\ gv 6 s (TVar 0) = Some (TFun (d "g"%string) [TInt 1; TInt 1]) /\
  to_python 8 s (TFun dot [TVar 0; TAtom nil_name]) = POk (PList [PPair (d "g"%string) [PInt 1; PInt 1]]).
Proof.
  cbv zeta. split; [|split].
  - exists (fun v => match v with 0 => 3 | 2 => 2 | 1 => 1 | _ => 0 end).
    intros v t w L O. simpl in L.
    destruct v as [|[|[|v]]]; simpl in L; try discriminate; injection L as <-; simpl in O.
    + destruct w as [|[|[|w]]]; simpl in O; try discriminate; lia.
    + discriminate.
    + destruct w as [|[|[|w]]]; simpl in O; try discriminate; lia.
  - vm_compute. reflexivity.
  - vm_compute. reflexivity.
Qed.

Example C15_pinned_get_value_leaks :
  let s := [(1, TInt 1); (0, TFun (d "g"%string) [TVar 1])] in
  gv_pinned 5 s (TVar 0) = Some (TFun (d "g"%string) [TVar 1]) /\ lookup 1 s = Some (TInt 1) /\
  gv 5 s (TVar 0) = Some (TFun (d "g"%string) [TInt 1]).
Proof. exact pinned_get_value_leaks. Qed.
