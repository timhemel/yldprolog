(* C03 - backtracking leaves no trace, however a query ends.
   Only statements; every proof is `exact <lemma>` to a lemma of Unify/UnifyGen.v or of the Engine files
   Restore, IRMachine, QueryFacts, RefineCompiled, RefineNative, RefineExc, RefineRaising, FindallRaise,
   DelayedClose, Forwarded, RunGen, RunMachine; the refinement examples are evaluated here.  heap = the cells that are bound now; generator objects as in
   UnifyGen.v (unification) and GenMachine.v (frames of compiled / builtin / user-written generator functions). *)
From Coq Require Import String.
From Coq Require Import List Arith ZArith.
Import ListNotations.
From YP Require Import Base.Str Term.Term Unify.Unify Unify.UnifyGen Lang.Ast Comp.IR Comp.CompileClause Sem.Machine
  Sem.Native Engine.GenMachine Engine.Restore Engine.RunGen Engine.IRMachine Engine.QueryFacts Engine.Refine Engine.RefineCompiled
  Engine.RefineNative Engine.RefineExc Engine.RefineRaising Engine.RunMachine Engine.FindallRaise Engine.DelayedClose
  Engine.Forwarded.

(* A unification generator created under ANY heap h and driven by ANY sequence of
   __next__ / close() (= drop) operations:
   at every point the heap is h plus bindings of cells that were unbound in h, namely exactly
   the cells the generator still owns; close()/drop at that point gives back exactly h; a
   further __next__ that does not yield gives back exactly h; it yields at most once. *)
Theorem C03_unify_gen_restores : forall n h t1 t2 ops hf gf ys,
  drive n h (mk_unify h t1 t2) ops = Some (hf, gf, ys) ->
  (exists nw, hf = nw ++ h /\ (forall k, In k (keys nw) -> lookup k h = None)
              /\ (forall k, In k (keys nw) <-> In k (cells gf)))
  /\ fst (close hf gf) = h
  /\ (forall m h2 g2 y2, next m hf gf = Some (h2, g2, y2) -> y2 = false -> h2 = h)
  /\ count_true ys <= 1.
Proof. exact unify_gen_restores. Qed.
Print Assumptions C03_unify_gen_restores.

Theorem C03_unify_gen_close_restores : forall n h t1 t2 ops hf gf ys,
  drive n h (mk_unify h t1 t2) (ops ++ [OClose]) = Some (hf, gf, ys) -> hf = h.
Proof. exact unify_gen_close_restores. Qed.
Print Assumptions C03_unify_gen_close_restores.

Theorem C03_unify_gen_exhaust_restores : forall n h t1 t2 ops hf gf ys,
  drive n h (mk_unify h t1 t2) (ops ++ [ONext]) = Some (hf, gf, ys ++ [false]) -> hf = h.
Proof. exact unify_gen_exhaust_restores. Qed.
Print Assumptions C03_unify_gen_exhaust_restores.

Theorem C03_unify_gen_yields_at_most_once : forall n h t1 t2 ops hf gf ys,
  drive n h (mk_unify h t1 t2) ops = Some (hf, gf, ys) -> count_true ys <= 1.
Proof. exact unify_gen_yields_at_most_once. Qed.
Print Assumptions C03_unify_gen_yields_at_most_once.

(* "the bindings visible at the answer are exactly that answer's": the heap at the yield IS the
   result store of the unification algorithm of C02 (for which soundness and most-generality are
   proved there), and closing it there gives back h *)
Theorem C03_unify_gen_matches_unify : forall n h t1 t2, wf h ->
  (forall s', unify n h t1 t2 = UOk s' ->
     exists g1, next n h (mk_unify h t1 t2) = Some (s', g1, true) /\ fst (close s' g1) = h) /\
  (unify n h t1 t2 = UFail -> exists g1, next n h (mk_unify h t1 t2) = Some (h, g1, false)).
Proof. exact unify_gen_matches_unify. Qed.
Print Assumptions C03_unify_gen_matches_unify.

(* The frame machine, for ANY leaf iterator type satisfying the restoring contract (LInv with the
   four contract hypotheses), any program, any frame-local data flow, any fuel n and recursion
   limit d: one __next__ of any iterator that is consistent with the heap h0 of its creation
   leaves it consistent; exhaustion gives back h0; closing/dropping it afterwards (also after it
   raised) gives back h0. *)
Theorem C03_frame_next_restores :
  forall (L X E P : Type) (mkleaf : X -> heap -> L) (lnext : nat -> heap -> L -> option (heap * L * res))
         (lclose : heap -> L -> heap) (prog : P -> code X E P * E) (gho : E -> nat) (LInv : heap -> L -> heap -> Prop),
  (forall x h, LInv h (mkleaf x h) h) ->
  (forall n h0 l hc h' l' r, LInv h0 l hc -> lnext n hc l = Some (h', l', r) -> LInv h0 l' h' /\ (r = RStop -> h' = h0)) ->
  (forall h0 l hc, LInv h0 l hc -> lclose hc l = h0) ->
  forall n d h0 it h h' it' r,
    Inv LInv h0 it h -> inext mkleaf lnext lclose prog gho n d h it = Some (h', it', r) ->
    Inv LInv h0 it' h' /\ (r = RStop -> h' = h0) /\ iclose lclose h' it' = h0.
Proof. exact frame_next_restores. Qed.
Print Assumptions C03_frame_next_restores.

(* an exception (raise in a user predicate at any step and depth, a leaf that raises, the
   recursion limit) or a return leaves a frame only after every enclosing loop was unwound:
   the heap is h0 when the exception arrives at the consumer *)
Theorem C03_throw_restores :
  forall (L X E P : Type) (mkleaf : X -> heap -> L) (lnext : nat -> heap -> L -> option (heap * L * res))
         (lclose : heap -> L -> heap) (prog : P -> code X E P * E) (gho : E -> nat) (LInv : heap -> L -> heap -> Prop),
  (forall x h, LInv h (mkleaf x h) h) ->
  (forall n h0 l hc h' l' r, LInv h0 l hc -> lnext n hc l = Some (h', l', r) -> LInv h0 l' h' /\ (r = RStop -> h' = h0)) ->
  (forall h0 l hc, LInv h0 l hc -> lclose hc l = h0) ->
  forall n d h0 it h h' it' r,
    Inv LInv h0 it h -> is_frame it -> d <> 0 ->
    inext mkleaf lnext lclose prog gho n d h it = Some (h', it', r) -> r <> RYield -> h' = h0 /\ it' = IDone.
Proof. exact throw_restores. Qed.
Print Assumptions C03_throw_restores.

(* every query of every program whose leaves are the engine's unification generators: after up
   to k answers, however the last __next__ ended (another answer: r = RYield, exhausted: RStop,
   exception: RRaise): closing / dropping the generator gives back h; if it did not end in an
   answer the heap already is h; at every answer the heap is h plus newer bindings on top. *)
Theorem C03_query_restores : forall (E P : Type) (prog : P -> code (term * term) E P * E) (gho : E -> nat) n d k h c e hf itf ys r,
  nexts umkleaf ulnext ulclose prog gho n d k h (IFresh c e) = Some (hf, itf, ys, r) ->
  iclose ulclose hf itf = h /\ (r <> RYield -> hf = h)
  /\ Forall (fun y => exists nw, y = nw ++ h) ys.
Proof. exact query_restores_unify. Qed.
Print Assumptions C03_query_restores.

(* "re-running a side-effect-free query on the same engine and the same variables gives the same
   answer sequence again" *)
Theorem C03_rerun_same : forall (E P : Type) (prog : P -> code (term * term) E P * E) (gho : E -> nat) n d k h c e hf itf ys r,
  r <> RYield ->
  nexts umkleaf ulnext ulclose prog gho n d k h (IFresh c e) = Some (hf, itf, ys, r) ->
  nexts umkleaf ulnext ulclose prog gho n d k hf (IFresh c e) = Some (hf, itf, ys, r).
Proof. exact rerun_same_unify. Qed.
Print Assumptions C03_rerun_same.

(* the consumer throws an exception into the generator object (suspended at any answer, or not
   yet started): it comes back to the consumer with the heap of creation restored *)
Theorem C03_consumer_throw_restores :
  forall (L X E P : Type) (lclose : heap -> L -> heap) (LInv : heap -> L -> heap -> Prop),
  (forall h0 l hc, LInv h0 l hc -> lclose hc l = h0) ->
  forall h0 (it : iter L X E P) hc, Inv LInv h0 it hc -> ithrow lclose hc it = (h0, IDone, RRaise).
Proof. exact consumer_throw_restores. Qed.
Print Assumptions C03_consumer_throw_restores.

(* ANY consumer: an arbitrary sequence of __next__ / close() (= drop) / throw() on one generator
   object (each call under the heap the previous one left): it stays consistent with the heap h0 of
   its creation - closing or dropping it at the end gives back h0 - and directly after a close or a
   throw the heap is h0 *)
Theorem C03_any_consumer_restores :
  forall (L X E P : Type) (mkleaf : X -> heap -> L) (lnext : nat -> heap -> L -> option (heap * L * res))
         (lclose : heap -> L -> heap) (prog : P -> code X E P * E) (gho : E -> nat) (LInv : heap -> L -> heap -> Prop),
  (forall x h, LInv h (mkleaf x h) h) ->
  (forall n h0 l hc h' l' r, LInv h0 l hc -> lnext n hc l = Some (h', l', r) -> LInv h0 l' h' /\ (r = RStop -> h' = h0)) ->
  (forall h0 l hc, LInv h0 l hc -> lclose hc l = h0) ->
  forall n d ops h0 it h hf itf rs,
    Inv LInv h0 it h -> fdrive mkleaf lnext lclose prog gho n d h it ops = Some (hf, itf, rs) ->
    Inv LInv h0 itf hf /\ iclose lclose hf itf = h0 /\
    (match rev ops with (FClose | FThrow) :: _ => hf = h0 | _ => True end).
Proof. exact fdrive_restores. Qed.
Print Assumptions C03_any_consumer_restores.

(* THE ENGINE RUNNING COMPILED CODE (IRMachine.v): for every IR program (every compiled program),
   every fact database, every set of registered Python predicates written as ARBITRARY machine code
   (they may raise at any step), the builtins =, \=, call/N, once/1, findall/3 as frames, every
   query, heap, fuel, recursion limit d and abandonment point k: close()/drop gives back h, an
   exception thrown in by the consumer comes back with h restored, exhaustion or an exception
   coming out leaves h, and every answer only adds bindings on top of h *)
Theorem C03_compiled_query_restores :
  forall (ir : ir_program) (facts : str -> nat -> list fact) (user : str -> list term -> option (code lx fr callp * fr))
         n d k h name args nx hf itf ys r,
  m_nexts ir facts user n d k h (m_query ir facts user name args nx) = Some (hf, itf, ys, r) ->
  m_iclose hf itf = h
  /\ ithrow lclose hf itf = (h, IDone, RRaise)
  /\ (r <> RYield -> hf = h)
  /\ Forall (fun y => exists nw, y = nw ++ h) ys.
Proof. exact compiled_query_restores. Qed.
Print Assumptions C03_compiled_query_restores.

(* evaluate_bounded (a consumer that leaves its loop after k answers because the projection
   function raises, or because the query ends / raises under the lowered recursion limit d, and
   closes the query in its finally): every variable is restored when it returns *)
Theorem C03_bounded_consumer_restores :
  forall (ir : ir_program) (facts : str -> nat -> list fact) (user : str -> list term -> option (code lx fr callp * fr))
         n d k h name args nx hf ys,
  bounded_m ir facts user n d k h name args nx = Some (hf, ys) -> hf = h.
Proof. exact bounded_restores. Qed.
Print Assumptions C03_bounded_consumer_restores.

(* machine_refines_irsem: "the bindings visible at each answer are exactly that answer's".
   The small-step machine with destructive bindings and the big-step semantics of C01/C05/C06
   (Sem.Machine.query: lists of persistent answer stores) are the same object: for every compiled
   program, query, well-formed heap, recursion limit d and ABANDONMENT POINT k, the generator
   object resumed at most k times yields exactly the first k answer stores of the big-step
   semantics, in order; past the last answer it ends by StopIteration / by an exception exactly as
   the big-step semantics says, and the heap is the initial one. *)
Theorem C03_machine_refines_irsem : forall p ir, compile_program p = Some ir ->
  forall d name args nx h k, wf h ->
  exists N hf itf, forall n, N <= n ->
    m_nexts ir nofacts nouser n d k h (m_query ir nofacts nouser name args nx) =
    Some (hf, itf, map sto (firstn k (fst (query d ir name args (mkst h nx)))),
          if Nat.leb k (length (fst (query d ir name args (mkst h nx)))) then RYield
          else rend (snd (query d ir name args (mkst h nx))))
    /\ (length (fst (query d ir name args (mkst h nx))) < k -> hf = h).
Proof. exact compiled_machine_refines_irsem. Qed.
Print Assumptions C03_machine_refines_irsem.

(* the same for whatever fuel the machine returns a value at; consequence: a query that is run
   again on the heap it left (= the heap before, by the theorems above) gives the same answer
   sequence again - it is a function of the program, the query and that heap alone *)
Theorem C03_machine_refines_irsem_fuel : forall p ir, compile_program p = Some ir ->
  forall d name args nx h k n hf itf ys r, wf h ->
  m_nexts ir nofacts nouser n d k h (m_query ir nofacts nouser name args nx) = Some (hf, itf, ys, r) ->
  ys = map sto (firstn k (fst (query d ir name args (mkst h nx)))) /\
  r = (if Nat.leb k (length (fst (query d ir name args (mkst h nx)))) then RYield
       else rend (snd (query d ir name args (mkst h nx)))).
Proof. exact compiled_machine_refines_irsem_fuel. Qed.
Print Assumptions C03_machine_refines_irsem_fuel.

(* ... and with ANY database of dynamic facts: the big-step side is QueryFacts.queryF = Sem.Machine.query
   with the facts of name/arity tried first, each matched against a copy with new variables
   (queryF_nofacts: with an empty database it is Sem.Machine.query) *)
Theorem C03_machine_refines_facts : forall p ir, compile_program p = Some ir ->
  forall (DB : str -> nat -> list fact) d name args nx h k, wf h ->
  exists N hf itf, forall n, N <= n ->
    m_nexts ir DB nouser n d k h (m_query ir DB nouser name args nx) =
    Some (hf, itf, map sto (firstn k (fst (queryF ir DB d name args (mkst h nx)))),
          if Nat.leb k (length (fst (queryF ir DB d name args (mkst h nx)))) then RYield
          else rend (snd (queryF ir DB d name args (mkst h nx))))
    /\ (length (fst (queryF ir DB d name args (mkst h nx))) < k -> hf = h).
Proof. exact compiled_machine_refines_facts. Qed.
Print Assumptions C03_machine_refines_facts.

Theorem C03_queryF_nofacts : forall p n name args s, queryF p (fun _ _ => []) n name args s = query n p name args s.
Proof. exact queryF_nofacts. Qed.
Print Assumptions C03_queryF_nofacts.

(* machine_refines_nquery: ALL of YP.query.  The machine program RefineNative.wprog runs the dynamic facts of name/arity first
   (each against a copy with new variables), never calls an API name, then eval_context.get('<name>_<k>',
   eval_context.get('<name>_n')): a registered Python predicate (fixed key, before the compiled function; variadic key,
   after the builtins except for call/N), the generator function of the compiled program, a builtin.  A registered Python
   predicate is ARBITRARY machine code (ucode) on the machine side and its answer function (Sem/Native.nfun: answers, then
   normal end or an exception after j answers) on the big-step side; `orealizes`: the generator object of the code yields the
   answers of the function and ends as it says.  Then, for every compiled program, fact database, table of registered
   predicates, query, wf heap, recursion limit d and ABANDONMENT POINT k: the generator object of the query resumed at most k
   times yields exactly the first k answer stores of Sem/Native.nquery - the big-step engine of C20 and of evaluate_bounded
   (C17) -, ends as nquery says (normally / with the exception), and leaves the initial heap. *)
Theorem C03_machine_refines_nquery : forall p ir, compile_program p = Some ir ->
  forall (dyn : str -> nat -> list frow) (ufix : str -> nat -> option ucode) (uvar : str -> option ucode)
         (ffix : str -> nat -> option nfun) (fvar : str -> option nfun),
  (forall name k, orealizes ir dyn ufix uvar (ufix name k) (ffix name k)) ->
  (forall name, orealizes ir dyn ufix uvar (uvar name) (fvar name)) ->
  forall d name args nx h k, wf h ->
  exists N hf itf, forall n, N <= n ->
    w_nexts ir dyn ufix uvar n d k h (w_query ir dyn ufix uvar name args nx) =
    Some (hf, itf, map sto (firstn k (fst (nquery d (mkw ir ffix fvar dyn) name args (mkst h nx)))),
          if Nat.leb k (length (fst (nquery d (mkw ir ffix fvar dyn) name args (mkst h nx)))) then RYield
          else rend (snd (nquery d (mkw ir ffix fvar dyn) name args (mkst h nx))))
    /\ (length (fst (nquery d (mkw ir ffix fvar dyn) name args (mkst h nx))) < k -> hf = h).
Proof. exact compiled_machine_refines_nquery. Qed.
Print Assumptions C03_machine_refines_nquery.

(* ... for whatever fuel the machine returns a value at (=> a rerun gives the same sequence) *)
Theorem C03_machine_refines_nquery_fuel : forall p ir, compile_program p = Some ir ->
  forall (dyn : str -> nat -> list frow) (ufix : str -> nat -> option ucode) (uvar : str -> option ucode)
         (ffix : str -> nat -> option nfun) (fvar : str -> option nfun),
  (forall name k, orealizes ir dyn ufix uvar (ufix name k) (ffix name k)) ->
  (forall name, orealizes ir dyn ufix uvar (uvar name) (fvar name)) ->
  forall d name args nx h k n hf itf ys r, wf h ->
  w_nexts ir dyn ufix uvar n d k h (w_query ir dyn ufix uvar name args nx) = Some (hf, itf, ys, r) ->
  ys = map sto (firstn k (fst (nquery d (mkw ir ffix fvar dyn) name args (mkst h nx)))) /\
  r = (if Nat.leb k (length (fst (nquery d (mkw ir ffix fvar dyn) name args (mkst h nx)))) then RYield
       else rend (snd (nquery d (mkw ir ffix fvar dyn) name args (mkst h nx)))).
Proof. exact compiled_machine_refines_nquery_fuel. Qed.
Print Assumptions C03_machine_refines_nquery_fuel.

(* restoration for this machine program, with NO hypothesis on the registered predicates (arbitrary code): close / drop /
   throw / exhaustion / exception give back the initial heap *)
Theorem C03_world_query_restores :
  forall (ir : ir_program) (dyn : str -> nat -> list frow) (ufix : str -> nat -> option ucode) (uvar : str -> option ucode)
         n d k h name args nx hf itf ys r,
  w_nexts ir dyn ufix uvar n d k h (w_query ir dyn ufix uvar name args nx) = Some (hf, itf, ys, r) ->
  w_iclose hf itf = h
  /\ ithrow lclose hf itf = (h, IDone, RRaise)
  /\ (r <> RYield -> hf = h)
  /\ Forall (fun y => exists nw, y = nw ++ h) ys.
Proof. exact world_query_restores. Qed.
Print Assumptions C03_world_query_restores.

(* the hypothesis is inhabited by the Python predicates of property C20 - `for row in rows: for _ in unify_arrays(args,
   row): yield v`, optionally raising after the last row -: the machine code of that text realizes the answer function
   native_rows (Sem/Native.v) *)
Theorem C03_pyrows_realizes : forall ir dyn ufix uvar rows vals raises,
  realizes ir dyn ufix uvar (pyrows rows raises) (pyrows_fun rows vals raises).
Proof. exact pyrows_realizes. Qed.
Print Assumptions C03_pyrows_realizes.

(* ... and by the RAISING predicate of C20's exception_passthrough, Native.raising f j = "raises instead of delivering its answer
   number j" (every point at which a user predicate raises): its text `n = 0; for row in rows: for _ in unify_arrays(args,
   row): if n == j: raise E; yield v; n += 1` as machine code (pyrows_at, the counter is frame-local state) realizes
   raising (native_rows rows vals) j - so the two theorems above and below cover the worlds `with_raising_fix` of C20 *)
Theorem C03_raising_predicate_realized : forall ir dyn ufix uvar rows vals j,
  realizes ir dyn ufix uvar (pyrows_at rows j) (raising (native_rows rows vals) j).
Proof. exact pyrows_at_realizes. Qed.
Print Assumptions C03_raising_predicate_realized.

(* exception_passthrough at machine level.  NE.nqueryE = nquery carrying the exception OBJECT (XPy tag = the object a
   registered Python predicate raised).  If the query ends with the object e after the answers xs, the consumer of the
   machine's generator object receives exactly xs (each with exactly that answer's bindings), the next resumption raises, the
   heap is the initial one when the exception arrives, and e has every property that the engine's own exceptions and the
   objects raised by the registered predicates have (e.g. Q e := e = XPy tag \/ engine_exn e): it is the object that was
   raised.  (The machine's RRaise carries no payload: it cannot catch or replace an exception - see Engine/RefineExc.v.) *)
Theorem C03_machine_exception_passthrough : forall p ir, compile_program p = Some ir ->
  forall (dyn : str -> nat -> list frow) (ufix : str -> nat -> option ucode) (uvar : str -> option ucode)
         (efix : str -> nat -> option NE.nfunE) (evar : str -> option NE.nfunE),
  (forall name k, orealizes ir dyn ufix uvar (ufix name k) (option_map NE.erf (efix name k))) ->
  (forall name, orealizes ir dyn ufix uvar (uvar name) (option_map NE.erf (evar name))) ->
  forall d name args nx h xs e, wf h ->
  NE.nqueryE d (mkwE ir efix evar dyn) name args (mkst h nx) = (xs, Some e) ->
  (exists N itf, forall n, N <= n ->
     w_nexts ir dyn ufix uvar n d (S (length xs)) h (w_query ir dyn ufix uvar name args nx) =
     Some (h, itf, map sto xs, RRaise))
  /\ (forall Q : NE.exn -> Prop, Q NE.XDepth -> Q NE.XUnify -> Q NE.XGoal -> Q NE.XCode ->
        (forall name k f args s e, efix name k = Some f -> snd (f args s) = Some e -> Q e) ->
        (forall name f args s e, evar name = Some f -> snd (f args s) = Some e -> Q e) -> Q e).
Proof. exact machine_exception_passthrough. Qed.
Print Assumptions C03_machine_exception_passthrough.

Theorem C03_machine_refines_nqueryE : forall p ir, compile_program p = Some ir ->
  forall (dyn : str -> nat -> list frow) (ufix : str -> nat -> option ucode) (uvar : str -> option ucode)
         (efix : str -> nat -> option NE.nfunE) (evar : str -> option NE.nfunE),
  (forall name k, orealizes ir dyn ufix uvar (ufix name k) (option_map NE.erf (efix name k))) ->
  (forall name, orealizes ir dyn ufix uvar (uvar name) (option_map NE.erf (evar name))) ->
  forall d name args nx h k, wf h ->
  exists N hf itf, forall n, N <= n ->
    w_nexts ir dyn ufix uvar n d k h (w_query ir dyn ufix uvar name args nx) =
    Some (hf, itf, map sto (firstn k (fst (NE.nqueryE d (mkwE ir efix evar dyn) name args (mkst h nx)))),
          if Nat.leb k (length (fst (NE.nqueryE d (mkwE ir efix evar dyn) name args (mkst h nx)))) then RYield
          else rendE (snd (NE.nqueryE d (mkwE ir efix evar dyn) name args (mkst h nx))))
    /\ (length (fst (NE.nqueryE d (mkwE ir efix evar dyn) name args (mkst h nx))) < k -> hf = h).
Proof. exact machine_refines_nqueryE. Qed.
Print Assumptions C03_machine_refines_nqueryE.

(* An exception raised inside findall/3's OWN frame while the goal's generator object is suspended at an answer
   (the RecursionError of copy_term(template, {}): the answer could be computed within the recursion limit, copying it cannot).
   findall_r rz = the builtin with `if rz(frame state): raise` in front of the copy, rz an ARBITRARY predicate of findall's
   frame state (results collected so far included); installed in the engine program of C03_compiled_query_restores in
   place of the builtin.  For every IR program, fact database, registered predicates, rz, query (findall anywhere below it),
   fuel, recursion limit and abandonment point: close / throw / exhaustion / the exception give back the initial heap -
   also through evaluate_bounded. *)
Theorem C03_findall_copy_raise_restores :
  forall (ir : ir_program) (facts : str -> nat -> list fact) (user : str -> list term -> option (code lx fr callp * fr))
         (rz : fr -> bool) n d k h name args nx hf itf ys r,
  m_nexts ir facts (with_findall_r rz user) n d k h (m_query ir facts (with_findall_r rz user) name args nx) = Some (hf, itf, ys, r) ->
  m_iclose hf itf = h
  /\ ithrow lclose hf itf = (h, IDone, RRaise)
  /\ (r <> RYield -> hf = h)
  /\ Forall (fun y => exists nw, y = nw ++ h) ys.
Proof. exact findall_copy_raise_restores. Qed.
Print Assumptions C03_findall_copy_raise_restores.

Theorem C03_findall_copy_raise_bounded_restores :
  forall (ir : ir_program) (facts : str -> nat -> list fact) (user : str -> list term -> option (code lx fr callp * fr))
         (rz : fr -> bool) n d k h name args nx hf ys,
  bounded_m ir facts (with_findall_r rz user) n d k h name args nx = Some (hf, ys) -> hf = h.
Proof. exact findall_copy_raise_bounded_restores. Qed.
Print Assumptions C03_findall_copy_raise_bounded_restores.

(* the scenario itself: the goal's generator delivers an answer (it is then suspended, it1, its bindings are in h1), the copy
   raises: findall's frame ends by the exception, and the heap that arrives is h1 with the suspended generator closed = h *)
Theorem C03_findall_copy_raise_step :
  forall (ir : ir_program) (facts : str -> nat -> list fact) (user : str -> list term -> option (code lx fr callp * fr))
         (rz : fr -> bool) n d h t g l (e : fr) h1 it1,
  rz e = true ->
  m_inext ir facts (with_findall_r rz user) (S (S (S n))) d h
    (mkiter mkleaf (prog ir facts (with_findall_r rz user)) (call_expr g [] (f_nxt e) e h) h) = Some (h1, it1, RYield) ->
  m_inext ir facts (with_findall_r rz user) (S (S (S (S (S (S (S n))))))) (S d) h (IFresh (findall_r rz t g l) e)
    = Some (m_iclose h1 it1, IDone, RRaise)
  /\ m_iclose h1 it1 = h.
Proof. exact findall_r_raise_step. Qed.
Print Assumptions C03_findall_copy_raise_step.

(* The ORDER of finalisation does not matter.  In CPython the suspended goal generator of the scenario above sits in a local
   of findall's frame, which the traceback keeps alive: it is finalised when the exception object dies, AFTER the enclosing
   generators were closed by the unwinding; the machine closes it first.  For the engine instance closing a generator object
   removes exactly the cells its leaves own, from any heap: closing `it` after the continuation k was unwound = closing it
   first; any two generator objects can be closed in either order. *)
Theorem C03_delayed_close_commutes : forall (it : iter leaf lx fr callp) (k : kont leaf lx fr callp) h,
  iclose lclose (unwind lclose h k) it = unwind lclose (iclose lclose h it) k.
Proof. exact delayed_close_commutes. Qed.
Print Assumptions C03_delayed_close_commutes.

Theorem C03_close_order_irrelevant : forall (it1 it2 : iter leaf lx fr callp) h,
  iclose lclose (iclose lclose h it1) it2 = iclose lclose (iclose lclose h it2) it1.
Proof. exact close_order_irrelevant. Qed.
Print Assumptions C03_close_order_irrelevant.

(* non-vacuity: findall(g(X), p(X), L) over the facts p(a). p(f(b)). under a non-empty heap: without a raising copy one
   answer L = [g(a), g(f(b))]; when the copy of the SECOND answer raises (the goal is suspended at p(f(b)) with X bound)
   the exception arrives with exactly the initial heap *)
Example C03_findall_copy_raises_nonvacuous :
  ex_findall_run (fun e => Nat.eqb (length (f_acc e)) 1) 1 = Some ([(7, TAtom (d "keep"))], IDone, [], RRaise).
Proof. exact ex_findall_copy_raises. Qed.

(* non-vacuity: a query three frames deep yields an answer with two new bindings on top of a
   non-empty heap, and asking for the next answer makes a user predicate raise; the heap is then
   the initial one *)
Example C03_nonvacuous :
  ex_run 2 = Some ([(7, A "keep")], IDone, [[(2, TFun (d "f") [A "a"]); (1, A "a"); (7, A "keep")]], RRaise).
Proof. exact ex_raise. Qed.

(* non-vacuity of the refinement: r(X,L) :- mem(X,[a,b,c]), findall(Y, mem(Y,[X,d]), L), \+ X = b.
   compiled by the model compiler; the machine yields two answers (X = a, X = c) whose stores are
   those of the big-step semantics, then stops with the empty heap *)
Example C03_refines_nonvacuous : refine_example = true.
Proof. vm_compute. reflexivity. Qed.

Example C03_refines_facts_nonvacuous : refine_example_facts = true.
Proof. vm_compute. reflexivity. Qed.

(* non-vacuity of machine_refines_nquery / machine_exception_passthrough:  t(X,Y) :- pyq(X), d0(Y).  with the dynamic facts
   d0(f(_)). d0([]). and the Python predicate pyq/1 = rows a, c, then `raise E` (E = XPy 7): the table satisfies the
   hypotheses (ex_table_ok), the machine yields the four answer stores of nqueryE, then raises with the empty heap, and
   nqueryE ends with exactly XPy 7 *)
Example C03_refines_native_nonvacuous :
  (forall ir dyn name k, orealizes ir dyn ex_ufix novar (ex_ufix name k) (option_map NE.erf (ex_efix name k)))
  /\ refine_example_native = true
  /\ (forall ir dyn name k, orealizes ir dyn ex_ufix_at novar (ex_ufix_at name k) (ex_ffix_at name k))
  /\ refine_example_raising = true.      (* pyq raises instead of its answer number 1: two answers, then the exception *)
Proof. split; [exact ex_table_ok|split; [vm_compute; reflexivity|split; [exact ex_table_at_ok|vm_compute; reflexivity]]]. Qed.

(* close() must REACH the open iterator of a delegating frame (Engine/Forwarded.v).  YP.query delegates to the iterator
   a user predicate returns; closing the query closes that iterator (the machine: unwind over KLoop it body k).  If the frame
   is torn down WITHOUT closing `it` (a `for` loop in place of `yield from`, the iterator object still referenced by the
   application) the heap is `unwind h k`: every bound cell that `it` owns stays bound - and with the forwarded close none does. *)
Theorem C03_close_must_be_forwarded : forall (it : iter leaf lx fr callp) body (k : kont leaf lx fr callp) (h : heap) n,
  In n (icells it) -> ~ In n (kcells k) -> In n (keys h) ->
  In n (keys (unwind lclose h k)) /\ ~ In n (keys (unwind lclose h (KLoop it body k))).
Proof. exact close_must_be_forwarded. Qed.
Print Assumptions C03_close_must_be_forwarded.

Theorem C03_forwarded_close_releases : forall (it : iter leaf lx fr callp) body (k : kont leaf lx fr callp) (h : heap) n,
  In n (icells it ++ kcells k) -> ~ In n (keys (unwind lclose h (KLoop it body k))).
Proof. exact forwarded_close_releases. Qed.
Print Assumptions C03_forwarded_close_releases.

Example C03_forwarded_nonvacuous :
  In 3 (icells fw_it) /\ ~ In 3 (kcells fw_k) /\ In 3 (keys fw_heap) /\
  unwind lclose fw_heap fw_k = fw_heap /\
  unwind lclose fw_heap (KLoop fw_it CSkip fw_k) = [(7, TAtom (d "keep"%string))].
Proof. exact forwarded_example. Qed.
