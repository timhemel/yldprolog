(* C04 - engine instances are isolated; interleaved queries do not interfere.
   Only statements; every proof is `exact <lemma>` to a lemma proved in Engine/Isolation.v, Engine/Slots.v,
   Engine/SlotsReach.v, Engine/Footprint.v, Engine/CursorFrame.v, Engine/Frame.v (the evaluated examples: Engine/IsolationExamples.v,
   Engine/SlotsExamples.v, Engine/NonLifoExamples.v, Engine/SharedExamples.v, Engine/MetaExamples.v).

   Model (Engine/World.v): a world = n engine records (atom table, fact store, eval_context, reserved names,
   the query generators the caller holds) + ONE heap of variable bindings shared by all engines (a Variable
   is not owned by an engine in the code either).  A step = (engine id, operation); operations: atom,
   assert (assert_fact/asserta/assertz), retract(all), register_function, load_script (overwrite / chained),
   clear, start / next / close-or-drop / drain of a query generator in a slot, peek (get_value of terms over the
   user's variables between two steps).  A query runs clause bodies that call facts, rules, =, the meta-call builtins
   \= /2, call/N, once/1, findall/3 (World.metastep, ctl_goal, coll_finish; frames FBar / FNeg / FColl) and the database
   builtins asserta/1, assertz/1, retract/1, retractall/1 (copy-on-write fact lists, stored copies with variables of
   their own, retract by identity in the current list): a generator step may write the fact store of ITS engine.
   The thread part of the property is NOT a theorem: the model's schedules
   are at operation (= generator step) granularity; threads are a test of the harness (harness/props/c04.py).
   Pe n i = the cells of engine i (its user variables and everything its queries allocate);
   fP P h / fN P h = the bindings of the heap h whose cell is / is not in P (order kept);
   winv = world invariant: engine ids < n, each generator of engine i holds terms over Pe n i only, and the value
   bound to a cell of engine j mentions cells of engine j only ("engines do not share variables").
   Fuel is the search fuel of one generator step; all statements hold for every fuel (an out-of-fuel step is the
   observation "err", the same on both sides). *)
From Coq Require Import String.
From Coq Require Import List Arith Bool.
Import ListNotations.
From YP Require Import Base.Str Term.Term Unify.Unify Engine.Frame Engine.Db Engine.World Engine.CursorFrame
  Engine.Isolation Engine.Footprint Engine.Slots Engine.SlotsReach Engine.IsolationExamples Engine.SlotsExamples Engine.NonLifoExamples Engine.SharedExamples Engine.MetaExamples.

(* the initial world of any number of engines satisfies the invariant, and every step keeps it (see step_local) *)
Theorem C04_init_world_inv : forall n, winv (init_world n).
Proof. exact init_world_inv. Qed.
Print Assumptions C04_init_world_inv.

(* step_local: one operation of engine i, whatever it is,
      - leaves the record of every other engine untouched,
      - leaves every binding of a cell that is not engine i's in place (same value, same position),
        in particular the part of the heap every other engine j can see,
      - adds bindings of engine i's cells only,
      - and reads nothing but engine i's record and engine i's part of the heap: run on the heap cut down to
        engine i's cells it gives the same new record, the same observation and the same new own part. *)
Theorem C04_step_local : forall fuel w i o w' ob,
  winv w -> wstep fuel w (i, o) = (w', ob) ->
  winv w' /\ wn w' = wn w
  /\ (forall j, j <> i -> aget Nat.eqb j (engs w') = aget Nat.eqb j (engs w))
  /\ fN (Pe (wn w) i) (heap w') = fN (Pe (wn w) i) (heap w)
  /\ (forall j, j <> i -> fP (Pe (wn w) j) (heap w') = fP (Pe (wn w) j) (heap w))
  /\ newP (Pe (wn w) i) (heap w) (heap w')
  /\ match aget Nat.eqb i (engs w) with
     | None => w' = w
     | Some e => exists e', aget Nat.eqb i (engs w') = Some e'
                   /\ estep fuel (wn w) i o e (fP (Pe (wn w) i) (heap w)) = (e', fP (Pe (wn w) i) (heap w'), ob)
     end.
Proof. exact step_local. Qed.
Print Assumptions C04_step_local.

(* the same as a noninterference statement: on two heaps that agree on engine i's cells, an operation of engine i
   gives the same record and the same observation, heaps that agree again, and changes nothing else in either *)
Theorem C04_step_noninterference : forall n i, i < n -> forall fuel o e h1 h2 e1 h1' ob1 e2 h2' ob2,
  closed (Pe n i) h1 -> closed (Pe n i) h2 -> einv n i e -> fP (Pe n i) h1 = fP (Pe n i) h2 ->
  estep fuel n i o e h1 = (e1, h1', ob1) -> estep fuel n i o e h2 = (e2, h2', ob2) ->
  e1 = e2 /\ ob1 = ob2 /\ fP (Pe n i) h1' = fP (Pe n i) h2'
  /\ fN (Pe n i) h1' = fN (Pe n i) h1 /\ fN (Pe n i) h2' = fN (Pe n i) h2.
Proof. exact estep_agree. Qed.
Print Assumptions C04_step_noninterference.

(* interleave_alone: any number of engines, EVERY schedule (= every merge of the per-engine histories
      `only i sched`), from any world that satisfies the invariant: for every engine i, the sequence of its
      observations (proj i tr), the record it ends with and its part of the final heap are exactly those of
      running its own operations alone on a private heap (erun = estep iterated, no other engine exists there). *)
Theorem C04_interleave_alone : forall fuel sched w w' tr,
  winv w -> wrun fuel w sched = (w', tr) ->
  winv w' /\
  forall i e, aget Nat.eqb i (engs w) = Some e ->
    exists e', aget Nat.eqb i (engs w') = Some e' /\
      erun (wn w) i fuel (map snd (only i sched)) e (fP (Pe (wn w) i) (heap w))
      = (e', fP (Pe (wn w) i) (heap w'), proj i tr).
Proof. exact interleave_alone. Qed.
Print Assumptions C04_interleave_alone.

(* ... from freshly created engines: *)
Theorem C04_interleave_alone_init : forall fuel n sched i, i < n ->
  proj i (snd (wrun fuel (init_world n) sched))
  = snd (erun n i fuel (map snd (only i sched)) init_engine []).
Proof. exact interleave_alone_init. Qed.
Print Assumptions C04_interleave_alone_init.

(* ... which is what engine i observes when the other engines never do anything: *)
Theorem C04_interleaved_eq_alone : forall fuel n sched i, i < n ->
  proj i (snd (wrun fuel (init_world n) sched)) = map snd (snd (wrun fuel (init_world n) (only i sched))).
Proof. exact interleave_alone_world. Qed.
Print Assumptions C04_interleaved_eq_alone.

(* ... so no engine can tell two merges of the same histories apart: *)
Theorem C04_merges_indistinguishable : forall fuel n s1 s2 i, i < n -> only i s1 = only i s2 ->
  proj i (snd (wrun fuel (init_world n) s1)) = proj i (snd (wrun fuel (init_world n) s2)).
Proof. exact merges_indistinguishable. Qed.
Print Assumptions C04_merges_indistinguishable.

(* the same with the histories given: hists[i] = the operations of engine i; is_merge n hists sched says that sched is
   one of their merges (the operations of engine i appear in sched in their order).  EVERY merge shows engine i the
   observations of its history run alone, hence the same as the merge "back to back" (b2b: the whole history of engine
   0, then the whole history of engine 1, ...), which is a merge too. *)
Theorem C04_every_merge : forall fuel n hists sched, is_merge n hists sched ->
  forall i, i < n ->
  proj i (snd (wrun fuel (init_world n) sched)) = snd (erun n i fuel (nth i hists []) init_engine []).
Proof. exact every_merge. Qed.
Print Assumptions C04_every_merge.

Theorem C04_back_to_back_is_merge : forall n hists, is_merge n hists (b2b 0 hists).
Proof. exact b2b_is_merge. Qed.
Print Assumptions C04_back_to_back_is_merge.

Theorem C04_merge_eq_back_to_back : forall fuel n hists sched, is_merge n hists sched ->
  forall i, i < n ->
  proj i (snd (wrun fuel (init_world n) sched)) = proj i (snd (wrun fuel (init_world n) (b2b 0 hists))).
Proof. exact merge_eq_back_to_back. Qed.
Print Assumptions C04_merge_eq_back_to_back.

(* same engine, disjoint variables, at the level of one engine: any number of generators of ONE engine, suspended simultaneously, over
      pairwise disjoint sets of cells PQ q (sinv: the generator in slot q holds terms over PQ q and allocates in
      PQ q; heap values of PQ q cells are over PQ q).  Generators of one engine share its fact store, and clause bodies
      may write it.  Every access of a step to the fact store is in the log of the step (step_log: key = (name, arity),
      read or written).  K = any set of keys.  foot_ok K q: in this run every step on slot q touches only keys of K and
      every step on another slot WRITES only keys outside K (it may read anything).  Then, for EVERY sequence of next /
      close / drain operations on the slots, what is observed on slot q is what is observed when only the operations on
      slot q are run, on q's part of the heap.  (q itself may write, inside K.) *)
Theorem C04_same_engine_slots_K : forall n i PQ,
  (forall q q' v, q <> q' -> PQ q v = true -> PQ q' v = false) ->
  forall K fuel ops e h q, Forall qop ops -> sinv n i PQ e h -> foot_ok n i K q fuel ops e h ->
  pick q ops (snd (erun n i fuel ops e h)) = snd (erun n i fuel (filter (is_slot q) ops) e (fP (PQ q) h)).
Proof. exact same_engine_slots_K. Qed.
Print Assumptions C04_same_engine_slots_K.

(* the invariant form: also the generator left in slot q and q's part of the heap are those of the run alone, and the fact
   stores of the two runs agree on K (simK: same definitions, same facts under every key of K, same generator in q),
   from any engine record that agrees with e in this sense *)
Theorem C04_slots_alone_K : forall n i PQ,
  (forall q q' v, q <> q' -> PQ q v = true -> PQ q' v = false) ->
  forall K fuel q ops e h e' h' bs, Forall qop ops -> sinv n i PQ e h -> erun n i fuel ops e h = (e', h', bs) ->
  foot_ok n i K q fuel ops e h ->
  sinv n i PQ e' h' /\
  forall ea, simK K q e ea ->
    exists ea', erun n i fuel (filter (is_slot q) ops) ea (fP (PQ q) h) = (ea', fP (PQ q) h', pick q ops bs)
                /\ simK K q e' ea'.
Proof. exact slots_alone_K. Qed.
Print Assumptions C04_slots_alone_K.

(* the two facts about one generator step behind it: on two fact stores that agree on K, a step that touches only K gives the
   same generator, heap, result and log, and stores that agree on K again; a step that writes only outside K leaves the
   store as it was on K *)
Theorem C04_step_footprint_agree : forall K fuel d1 d2 fresh h c c' h' r lg d1', dbK K d1 d2 ->
  cnext fuel d1 fresh h c = (c', h', r, lg, d1') -> Forall (inK K) lg ->
  exists d2', cnext fuel d2 fresh h c = (c', h', r, lg, d2') /\ dbK K d1' d2'.
Proof. exact cnext_agree. Qed.
Print Assumptions C04_step_footprint_agree.

Theorem C04_step_footprint_writes : forall K fuel d fresh h c c' h' r lg d',
  cnext fuel d fresh h c = (c', h', r, lg, d') -> Forall (wrOut K) lg -> dbK K d d'.
Proof. exact cnext_writes. Qed.
Print Assumptions C04_step_footprint_writes.

(* read-only queries (the case the property text promises): nowrite = no step of the run writes the fact store.  Then
   every slot q observes what it observes alone (K = all keys). *)
Theorem C04_same_engine_slots : forall n i PQ,
  (forall q q' v, q <> q' -> PQ q v = true -> PQ q' v = false) ->
  forall fuel ops e h q, Forall qop ops -> sinv n i PQ e h -> nowrite n i fuel ops e h ->
  pick q ops (snd (erun n i fuel ops e h)) = snd (erun n i fuel (filter (is_slot q) ops) e (fP (PQ q) h)).
Proof. exact same_engine_slots. Qed.
Print Assumptions C04_same_engine_slots.

Theorem C04_slots_alone : forall n i PQ,
  (forall q q' v, q <> q' -> PQ q v = true -> PQ q' v = false) ->
  forall fuel ops e h e' h' bs, Forall qop ops -> sinv n i PQ e h -> erun n i fuel ops e h = (e', h', bs) ->
  nowrite n i fuel ops e h ->
  sinv n i PQ e' h' /\
  forall q ea, simK (fun _ => true) q e ea ->
    exists ea', erun n i fuel (filter (is_slot q) ops) ea (fP (PQ q) h) = (ea', fP (PQ q) h', pick q ops bs)
                /\ simK (fun _ => true) q e' ea'.
Proof. exact slots_alone. Qed.
Print Assumptions C04_slots_alone.

(* how the hypothesis sinv comes about: it holds when the engine holds no generator, and starting a query in slot q
   whose argument terms are over a set of cells Pnew (which contains the cells the new query will allocate: they are named
   after the engine's start counter) extends the family by PQ q := Pnew; a generator that was in the slot is dropped.
   With Pnew disjoint from the other PQ q' this is "simultaneously suspended queries over disjoint variables". *)
Theorem C04_slots_none : forall n i PQ e h, cursors e = [] -> (forall q, closed (PQ q) h) -> sinv n i PQ e h.
Proof. exact sinv_nocursors. Qed.
Print Assumptions C04_slots_none.

Theorem C04_slots_start : forall fuel n i PQ q Pnew nm args e h e' h' ob,
  sinv n i PQ e h ->
  Forall (tin Pnew) (map (rn (ucell n i)) args) -> (forall k, Pnew (ccell n i (nstart e) k) = true) -> closed Pnew h ->
  estep fuel n i (OStart q nm args) e h = (e', h', ob) ->
  sinv n i (fun q' => if Nat.eqb q' q then Pnew else PQ q') e' h'.
Proof. exact sinv_start. Qed.
Print Assumptions C04_slots_start.

(* ... and in every state an engine can reach: R n i e h = invariant of (engine record, heap): every held generator c has a
   query number below the start counter, argument variables that are user cells of this engine, and holds terms over
   PQc c (= the cells named after its query number + the variables of its arguments) only; generators in different slots
   have different query numbers and no argument variable in common; every binding of a cell of this engine in the heap is
   in the trail of a held generator.  EVERY operation keeps R, provided a start uses variables that do not occur in the
   queries held in the other slots at that moment (op_ok / hist_ok); R gives sinv for the family read off the record. *)
Theorem C04_reach_invariant : forall n i, i < n -> forall fuel ops e h e' h' bs,
  R n i e h -> hist_ok n i fuel ops e h -> erun n i fuel ops e h = (e', h', bs) -> R n i e' h'.
Proof. exact R_run. Qed.
Print Assumptions C04_reach_invariant.

Theorem C04_reach_sinv : forall n i, i < n -> forall e h, R n i e h -> sinv n i (PQ_of n i e) e h.
Proof. exact R_sinv. Qed.
Print Assumptions C04_reach_sinv.

(* the last sentence of the property text, self-contained: a new engine, ANY history pre of operations of all kinds in
   which queries are started over variables not occurring in the other queries held, then ANY sequence of next / close /
   drain on the slots: what is observed on slot q is what is observed when only the operations on q are run, if q touches
   only K and the others write only outside K ... *)
Theorem C04_disjoint_queries_alone_K : forall n i, i < n -> forall K fuel pre ops e h bs0 q,
  hist_ok n i fuel pre init_engine [] -> erun n i fuel pre init_engine [] = (e, h, bs0) -> Forall qop ops ->
  foot_ok n i K q fuel ops e h ->
  pick q ops (snd (erun n i fuel ops e h))
  = snd (erun n i fuel (filter (is_slot q) ops) e (fP (PQ_of n i e q) h)).
Proof. exact disjoint_queries_alone_K. Qed.
Print Assumptions C04_disjoint_queries_alone_K.

(* ... in particular if no step writes (side-effect free queries) *)
Theorem C04_disjoint_queries_alone : forall n i, i < n -> forall fuel pre ops e h bs0 q,
  hist_ok n i fuel pre init_engine [] -> erun n i fuel pre init_engine [] = (e, h, bs0) -> Forall qop ops ->
  nowrite n i fuel ops e h ->
  pick q ops (snd (erun n i fuel ops e h))
  = snd (erun n i fuel (filter (is_slot q) ops) e (fP (PQ_of n i e q) h)).
Proof. exact disjoint_queries_alone. Qed.
Print Assumptions C04_disjoint_queries_alone.

(* ... and NOT without such a condition: the literal reading of the last sentence of the property text ("simultaneously
   suspended queries over disjoint variables each produce the answers they produce when run alone") for queries with
   side effects is false of the model - and of the code: p(a); g0 = query p(X0); g1 = query
   assertz(p(b)); next(g1); then g0 answers a, b, but a alone (the snapshot of p/1 is taken at the first next). *)
Theorem C04_disjoint_queries_alone_writes_refuted :
  exists n i fuel pre ops e h bs0 q, i < n /\
    hist_ok n i fuel pre init_engine [] /\ erun n i fuel pre init_engine [] = (e, h, bs0) /\ Forall qop ops /\
    pick q ops (snd (erun n i fuel ops e h))
    <> snd (erun n i fuel (filter (is_slot q) ops) e (fP (PQ_of n i e q) h)).
Proof. exact disjoint_queries_alone_writes_refuted. Qed.
Print Assumptions C04_disjoint_queries_alone_writes_refuted.

(* both halves of the property in one statement: any number of engines, ANY schedule; the operations of engine i are a
   history pre (any operations; queries started over variables not occurring in the other queries it holds) followed by
   next / close / drain operations ops, interleaved in any way with the operations of the other engines.  What engine i
   observes on slot q during ops is what that slot shows when it is the only one advanced, in an engine that ran alone. *)
Theorem C04_world_disjoint_queries_alone_K : forall K fuel n i sched pre ops e h bs0 q, i < n ->
  map snd (only i sched) = pre ++ ops ->
  hist_ok n i fuel pre init_engine [] -> erun n i fuel pre init_engine [] = (e, h, bs0) -> Forall qop ops ->
  foot_ok n i K q fuel ops e h ->
  pick q ops (skipn (length pre) (proj i (snd (wrun fuel (init_world n) sched))))
  = snd (erun n i fuel (filter (is_slot q) ops) e (fP (PQ_of n i e q) h)).
Proof. exact world_disjoint_queries_alone_K. Qed.
Print Assumptions C04_world_disjoint_queries_alone_K.

Theorem C04_world_disjoint_queries_alone : forall fuel n i sched pre ops e h bs0 q, i < n ->
  map snd (only i sched) = pre ++ ops ->
  hist_ok n i fuel pre init_engine [] -> erun n i fuel pre init_engine [] = (e, h, bs0) -> Forall qop ops ->
  nowrite n i fuel ops e h ->
  pick q ops (skipn (length pre) (proj i (snd (wrun fuel (init_world n) sched))))
  = snd (erun n i fuel (filter (is_slot q) ops) e (fP (PQ_of n i e q) h)).
Proof. exact world_disjoint_queries_alone. Qed.
Print Assumptions C04_world_disjoint_queries_alone.

(* the dereference / unification frame property everything rests on (Engine/Frame.v): over a heap that is closed
   for P, unifying terms over P on the heap cut down to P gives the cut-down result, and the result only adds
   bindings of P cells with values over P on top of the old heap *)
Theorem C04_unify_frame : forall (P : nat -> bool) n s xs ys,
  closed P s -> Forall (tin P) xs -> Forall (tin P) ys ->
  unify_arrays n (fP P s) xs ys = umap P (unify_arrays n s xs ys) /\ upost P s (unify_arrays n s xs ys).
Proof. exact unify_arrays_frame. Qed.
Print Assumptions C04_unify_frame.

(* non-vacuity: two engines with the same script and the same predicate name p/1 but different facts; after 10
   steps of the schedule both generators are suspended and the shared heap holds the bindings of both, interleaved;
   engine 0 sees a, b, done and engine 1 sees c, done *)
Example C04_nonvacuous_world :
  proj 0 (snd (wrun 100 (init_world 2) xsched))
  = [otag "ok" []; otag "ok" []; otag "ok" []; otag "started" []; xans "a"; xans "b"; otag "done" []; otag "atom" [OL [onat 1]]]
  /\ proj 1 (snd (wrun 100 (init_world 2) xsched))
  = [otag "ok" []; otag "ok" []; otag "started" []; xans "c"; otag "done" []; otag "atom" [OL [onat 1]]]
  /\ heap (fst (wrun 100 (init_world 2) (firstn 10 xsched)))
  = [(2, xA "b"); (0, TVar 2); (3, xA "c"); (1, TVar 3)].
Proof. exact ex_world. Qed.

(* non-vacuity of the slot theorem: an engine reached by assert, assert, start, start; the hypotheses hold for the
   family xPQ; both generators enumerate p/1 and each sees a, b although the other is advanced in between *)
Example C04_nonvacuous_slots :
  Forall qop xops /\ sinv 1 0 xPQ xe []
  /\ pick 0 xops (snd (erun 1 0 50 xops xe [])) = [xans "a"; xans "b"; otag "done" []]
  /\ pick 1 xops (snd (erun 1 0 50 xops xe [])) = [xans "a"; xans "b"; otag "closed" []; otag "done" []]
  /\ snd (fst (erun 1 0 50 (firstn 2 xops) xe [])) <> [].
Proof. exact ex_slots. Qed.

(* non-vacuity of C04_disjoint_queries_alone: the history assert, assert, start p(X0), start p(X1) satisfies hist_ok and
   reaches the engine xe of the previous example *)
Example C04_nonvacuous_reach :
  hist_ok 1 0 50 xprep init_engine [] /\ fst (fst (erun 1 0 50 xprep init_engine [])) = xe
  /\ snd (fst (erun 1 0 50 xprep init_engine [])) = [] /\ Forall qop xops
  /\ pick 0 xops (snd (erun 1 0 50 xops xe [])) = [xans "a"; xans "b"; otag "done" []]
  /\ pick 1 xops (snd (erun 1 0 50 xops xe [])) = [xans "a"; xans "b"; otag "closed" []; otag "done" []].
Proof. exact ex_reach. Qed.

(* non-vacuity of the footprint theorem: p(a). p(b). q(c). q(c).  w(X) :- p(X), assertz(q(X)), retract(q(c)).  Slot 0 holds
   p(X0), slot 1 holds w(X1); K = {p/1}.  The steps of slot 1 assert and retract facts of q/1 while slot 0 is suspended;
   foot_ok holds; slot 0 sees a, b, done as alone; the fact store q/1 changed from [c; c] to [a; b] *)
Example C04_nonvacuous_footprint :
  hist_ok 1 0 80 wprep init_engine [] /\ Forall qop wops
  /\ foot_ok 1 0 wK 0 80 wops we []
  /\ pick 0 wops (snd (erun 1 0 80 wops we [])) = [xans "a"; xans "b"; otag "done" []]
  /\ pick 1 wops (snd (erun 1 0 80 wops we [])) = [xans "a"; xans "a"; otag "done" []; otag "done" []]
  /\ map fargs (find_facts (edb we) xq 1) = [[xA "c"]; [xA "c"]]
  /\ map fargs (find_facts (edb (fst (fst (erun 1 0 80 wops we [])))) xq 1) = [[xA "a"]; [xA "b"]]
  /\ pick 0 wops (snd (erun 1 0 80 wops we [])) = snd (erun 1 0 80 (filter (is_slot 0) wops) we []).
Proof. exact ex_foot. Qed.

(* the witness of the refutation: interleaved the reader sees a, b, done; alone a, done, done *)
Example C04_refuted_values :
  let e := fst (fst (erun 1 0 50 rprep init_engine [])) in
  pick 0 rops (snd (erun 1 0 50 rops e [])) = [xans "a"; xans "b"; otag "done" []]
  /\ snd (erun 1 0 50 (filter (is_slot 0) rops) e []) = [xans "a"; otag "done" []; otag "done" []].
Proof. exact ex_refuted_values. Qed.

(* the hypotheses of the read-only theorem C04_same_engine_slots hold for the run of C04_nonvacuous_slots *)
Example C04_nonvacuous_readonly : nowrite 1 0 50 xops xe [] /\ Forall qop xops /\ sinv 1 0 xPQ xe [].
Proof. exact ex_nowrite. Qed.

(* the hypotheses of C04_disjoint_queries_alone on a history whose generator lifetimes do NOT nest, over a dynamic
   fact with a shared variable: p(X,X).  g0 = query p(V0,a); next g0; g1 = query p(V1,b); next g1; close g0 (the OLDER one,
   g1 stays suspended, its bindings are in the heap); g2 = query p(V2,c).  Then next g2; next g1; next g2; next g1: g2
   answers (c, c) and ends - its pattern clashes with g1's binding of the fact's variable, which it must not see - exactly as
   in the run in which only g2 is advanced *)
Example C04_nonvacuous_nonlifo :
  hist_ok 1 0 50 nprep init_engine [] /\ Forall qop nops /\ nowrite 1 0 50 nops ne nh
  /\ snd (erun 1 0 50 nprep init_engine [])
     = [otag "ok" []; otag "started" []; xans2 "a" "a"; otag "started" []; xans2 "b" "b"; otag "closed" []; otag "started" []]
  /\ length nh = 2
  /\ pick 2 nops (snd (erun 1 0 50 nops ne nh)) = [xans2 "c" "c"; otag "done" []]
  /\ pick 1 nops (snd (erun 1 0 50 nops ne nh)) = [otag "done" []; otag "done" []]
  /\ pick 2 nops (snd (erun 1 0 50 nops ne nh))
     = snd (erun 1 0 50 (filter (is_slot 2) nops) ne (fP (PQ_of 1 0 ne 2) nh)).
Proof. exact ex_nonlifo. Qed.

(* generators suspended INSIDE A RECURSION at the same time: n(z). n(s(X)) :- n(X).  c(a).  g0, g1, g2 enumerate n/1
   and are suspended two, one and two calls deep (their steps interleaved); the oldest, g0, is closed; the probe g3 = c(V3) is
   started.  Then next g3; next g1; next g3; next g2: the probe answers a and ends, g1 and g2 go on with s(s(z)) and
   s(s(s(z))); probe and g1 observe what they observe when only they are advanced *)
Example C04_nonvacuous_deep :
  hist_ok 1 0 80 dprep init_engine [] /\ Forall qop dops /\ nowrite 1 0 80 dops de dh
  /\ pick 3 dops (snd (erun 1 0 80 dops de dh)) = [xans "a"; otag "done" []]
  /\ pick 1 dops (snd (erun 1 0 80 dops de dh)) = [xobs1 (xS (xS (xA "z")))]
  /\ pick 2 dops (snd (erun 1 0 80 dops de dh)) = [xobs1 (xS (xS (xS (xA "z"))))]
  /\ 4 <= length dh
  /\ pick 3 dops (snd (erun 1 0 80 dops de dh))
     = snd (erun 1 0 80 (filter (is_slot 3) dops) de (fP (PQ_of 1 0 de 3) dh))
  /\ pick 1 dops (snd (erun 1 0 80 dops de dh))
     = snd (erun 1 0 80 (filter (is_slot 1) dops) de (fP (PQ_of 1 0 de 1) dh)).
Proof. exact ex_deep. Qed.

(* the SAME inputs given to two engines (in the model an argument is a value: the same rows srow2 = [7; 1],
   srow1 = [42] in two ORegister operations).  Engine 0 registers them with variable arity, engine 1 under arity 1 (what arity=None has to infer for a
   `*args` function); both query w/2 and w/1.  Engine 0 answers both, engine 1 only w/1 - in the interleaved schedule, back to
   back in the other order, and alone (instance of C04_interleave_alone_init that is not trivial: the two engines differ) *)
Example C04_nonvacuous_shared_inputs :
  proj 0 (snd (wrun 100 (init_world 2) ssched))
  = [otag "ok" []; otag "started" []; sall [srow2]; otag "started" []; sall [srow1]]
  /\ proj 1 (snd (wrun 100 (init_world 2) ssched))
  = [otag "ok" []; otag "started" []; sall []; otag "started" []; sall [srow1]]
  /\ proj 0 (snd (wrun 100 (init_world 2) ssched')) = proj 0 (snd (wrun 100 (init_world 2) ssched))
  /\ proj 1 (snd (wrun 100 (init_world 2) ssched')) = proj 1 (snd (wrun 100 (init_world 2) ssched))
  /\ proj 0 (snd (wrun 100 (init_world 2) ssched)) = snd (erun 2 0 100 (map snd (only 0 ssched)) init_engine [])
  /\ proj 1 (snd (wrun 100 (init_world 2) ssched)) = snd (erun 2 1 100 (map snd (only 1 ssched)) init_engine []).
Proof. exact ex_shared_inputs. Qed.

(* one step of the generator machine - ANY frame on top of the stack: goal, fact, function, clause, retract, the meta-call
   builtins (metastep), the control goals of once / \= / findall (ctl_goal), FBar, FNeg, FColl (coll_finish) - whose frames are
   over the cell set P, on a heap that is closed for P: run on the heap cut down to P it gives the same result (same new stack,
   answer, fact store, log), and the new stack is over P again.  This is the lemma that is lifted to search / cnext / estep. *)
Theorem C04_generator_step_frame : forall (P : nat -> bool) (fresh : nat -> nat),
  (forall k, P (fresh k) = true) -> forall newid h0 m, closed P h0 -> Forall (fgood P) (mfr m) ->
  sstep (fP P h0) fresh newid m = sstep h0 fresh newid m /\ kgood P (sstep h0 fresh newid m).
Proof. exact (@sstep_frame). Qed.
Print Assumptions C04_generator_step_frame.

(* the steps of the meta-call builtins and of their control goals (everything that goes through lift_m) neither touch the
   fact store nor the access log: whatever once / call / findall / \= read or write, they do through the goals they start *)
Theorem C04_meta_steps_silent : forall m x, klog m (lift_m m x) = mlog m /\ kdb m (lift_m m x) = mdb m.
Proof. exact lift_m_silent. Qed.
Print Assumptions C04_meta_steps_silent.

(* Non-vacuity for the meta-call builtins: two engines load the SAME script  u(L) :- findall(s(X,Y), p(X), L).  f(X) :- once(p(X)).
   n(X) :- p(X), X \= a.  c(X) :- G = p, call(G, X).  over different facts p/1; their generators are advanced in an
   interleaved schedule (after 13 steps four generators are suspended, 10 bindings in the one heap); engine 0 observes
   c: a | u: [s(a,_36), s(b,_50)] | f: a, done | c: b, done | n: [b] | '=' interned as its 4th atom; engine 1 observes
   n: c | u: [s(c,_37)] | done; and both sequences are those of the engine ALONE (the instance of C04_interleave_alone_init) *)
Example C04_nonvacuous_meta :
  proj 0 (snd (wrun 200 (init_world 2) msched))
  = [otag "ok" []; otag "ok" []; otag "ok" []; otag "started" []; mans (mA "a"); otag "started" [];
     mans (mlist [mS "a" 36; mS "b" 50]); otag "started" []; mans (mA "a"); otag "done" []; mans (mA "b"); otag "done" [];
     otag "started" []; otag "all" [OL [OL [Term.Show.term_obs (mA "b")]]; OL []]; otag "atom" [OL [onat 3]]]
  /\ proj 1 (snd (wrun 200 (init_world 2) msched))
  = [otag "ok" []; otag "ok" []; otag "started" []; mans (mA "c"); otag "started" []; mans (mlist [mS "c" 37]); otag "done" []]
  /\ proj 0 (snd (wrun 200 (init_world 2) msched)) = snd (erun 2 0 200 (map snd (only 0 msched)) init_engine [])
  /\ proj 1 (snd (wrun 200 (init_world 2) msched)) = snd (erun 2 1 200 (map snd (only 1 msched)) init_engine [])
  /\ length (heap (fst (wrun 200 (init_world 2) (firstn 13 msched)))) = 10.
Proof. exact ex_meta_world. Qed.
