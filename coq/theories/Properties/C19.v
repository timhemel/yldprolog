(* C19 - The yldpc command line equals the library; debug options only add comments.
   Only statements; every proof is `exact <lemma>` to a lemma proved in Cli/, except the two
   evaluated examples at the end.

   First group: the library compiler `compile : str -> cres` and the debug messages
   `trace : bool -> str -> str -> list (chan * str)` that the visitor and the compiler try to
   emit are ARBITRARY functions (universally quantified).
   Second group (`..._compiler`): the library compiler is the end-to-end model of
   compile_prolog_from_string, Comp/CompileText.v compile_text (the function that the C11/C12/C18
   checks compare byte for byte with the implementation); the debug messages stay arbitrary, and so
   does the one thing compile_text does not say: with which exception (CompilerError with position
   and message, or another one) a rejected source is refused (`failure`). *)
From Coq Require Import String.
From Coq Require Import List NArith Bool.
Import ListNotations.
From YP Require Import Base.Str Comp.CompileText Comp.CompileTextSound Cli.Comment Cli.Cli Cli.CliCompile.
Local Open Scope string_scope.
Local Open Scope list_scope.
Local Open Scope N_scope.

(* "Debug options only add comment lines", the text level: for EVERY message (any code points,
   any of the line boundaries of str.splitlines: \n \r \r\n \v \f \x1c \x1d \x1e \x85 U+2028 U+2029)
   every physical line of comment_lines msg - physical line = line of Python's tokenizer, ended by
   \n, \r\n or \r - starts with #, there is at least one, and the text ends with a newline. *)
Theorem C19_comment_every_line : forall msg,
  Forall (fun l => starts_hash l = true) (plines (comment_lines msg))
  /\ plines (comment_lines msg) <> []
  /\ exists t, comment_lines msg = t ++ [10].
Proof. exact comment_every_line. Qed.
Print Assumptions C19_comment_every_line.

(* ... and the comment lines carry exactly the lines of the message, in order *)
Theorem C19_comment_lines_content : forall msg,
  plines (comment_lines msg) = map (fun l => 35 :: 32 :: l ++ [10]) (lines_or_empty (escape_nul msg))
  /\ Forall nobreak (lines_or_empty (escape_nul msg)).
Proof. exact comment_lines_content. Qed.
Print Assumptions C19_comment_lines_content.

(* D23.  Every line of the debug text is a comment line AS PYTHON READS LINES: "# ", then characters
   none of which is NUL, LF, CR or any other line boundary of str.splitlines, then the LF that ends
   it; and the whole text contains no NUL (Python 3.12 refuses a NUL anywhere in source text, also
   in a comment; comment_lines writes it as backslash-zero). *)
Theorem C19_comment_lines_clean : forall msg,
  Forall (fun l => exists body, l = 35 :: 32 :: body ++ [10] /\ Forall comment_char body) (plines (comment_lines msg))
  /\ Forall (fun c => c <> 0) (comment_lines msg).
Proof. exact comment_lines_clean. Qed.
Print Assumptions C19_comment_lines_clean.

(* removing the comment lines of a commented message leaves nothing *)
Theorem C19_strip_comment_lines : forall msg, strip (comment_lines msg) = [].
Proof. exact strip_comment_lines. Qed.
Print Assumptions C19_strip_comment_lines.

(* "with comment lines removed the output is identical for every combination of debug options and
   every input": stdout, the file written and the way the process ends.  Hypothesis on the library
   (checked on the implementation side for every compiled text): the generated code has no line
   that starts with # and is empty or ends with a newline. *)
Theorem C19_debug_only_comments : forall compile trace,
  (forall t body, compile t = COk body -> clean_body body) ->
  forall f outfile srcs fs stdin,
  strip_result (yldpc compile trace f outfile srcs fs stdin)
  = strip_result (yldpc compile trace no_flags outfile srcs fs stdin).
Proof. exact debug_only_comments. Qed.
Print Assumptions C19_debug_only_comments.

(* "writes, for each source in the order given (files, or standard input given as `-`), the same
   code the library function returns for that text - to standard output or to the file named with
   -o": no debug option, every source readable and compiling. *)
Theorem C19_cli_equals_library : forall compile trace outfile srcs fs stdin texts outs,
  all_exist fs srcs ->
  contents (fs_seen fs outfile) stdin srcs = map RText texts ->
  Forall2 (fun t o => lib_text compile t = Some o) texts outs ->
  yldpc compile trace no_flags outfile srcs fs stdin = placed outfile (concat outs) EOk.
Proof. exact cli_equals_library. Qed.
Print Assumptions C19_cli_equals_library.

(* sources other than the output file are read as they are in the file system *)
Theorem C19_sources_as_on_disk : forall fs outfile srcs stdin, ~ In outfile srcs ->
  contents (fs_seen fs outfile) stdin srcs = contents fs stdin srcs.
Proof. exact contents_fs_seen. Qed.
Print Assumptions C19_sources_as_on_disk.

(* "and exits non-zero when a file does not compile": what is written before the failure (the
   library texts of the sources before the first failing one, in the output file or on stdout;
   nothing of the failing source or of later ones), the message "<file>:<line>:<column>:<msg>" for a
   CompilerError (syntax errors are CompilerErrors), exit status 1. *)
Theorem C19_cli_first_failure : forall compile trace outfile srcs fs stdin pre it post outs e,
  all_exist fs srcs ->
  combine srcs (contents (fs_seen fs outfile) stdin srcs) = pre ++ it :: post ->
  Forall2 (fun it o => exists t, snd it = RText t /\ lib_text compile t = Some o) pre outs ->
  fails compile it e ->
  yldpc compile trace no_flags outfile srcs fs stdin = placed outfile (concat outs) e /\ status e = 1.
Proof. exact cli_first_failure. Qed.
Print Assumptions C19_cli_first_failure.

(* exit status 0 iff every source exists, is readable and compiles - for every option combination *)
Theorem C19_exit_status : forall compile trace f outfile srcs fs stdin,
  status (r_end (yldpc compile trace f outfile srcs fs stdin)) = 0 <->
  (all_exist fs srcs /\
   Forall (fun r => exists t body, r = RText t /\ compile t = COk body)
          (contents (fs_seen fs outfile) stdin srcs)).
Proof. exact exit_status. Qed.
Print Assumptions C19_exit_status.

(* a named source that does not exist: usage error, exit status 2, nothing written *)
Theorem C19_missing_source : forall compile trace f outfile srcs fs stdin,
  ~ all_exist fs srcs ->
  yldpc compile trace f outfile srcs fs stdin = Result [] None EUsage.
Proof. exact missing_source_usage_error. Qed.
Print Assumptions C19_missing_source.

(* every text the compiler returns is the header, a newline and a body none of whose physical lines
   starts with # and which is empty or ends with a newline: the hypothesis of
   C19_debug_only_comments holds for compile_text (any Unicode table `printable`). *)
Theorem C19_library_text_clean : forall printable s text, compile_text printable s = CText text ->
  exists body, text = header ++ [10] ++ body /\ clean_body body.
Proof. exact compile_text_clean. Qed.
Print Assumptions C19_library_text_clean.

(* "with comment lines removed the output is identical for every combination of debug options and
   every input", no hypothesis left *)
Theorem C19_debug_only_comments_compiler : forall printable failure trace f outfile srcs fs stdin,
  strip_result (yldpc_lib printable failure trace f outfile srcs fs stdin)
  = strip_result (yldpc_lib printable failure trace no_flags outfile srcs fs stdin).
Proof. exact debug_only_comments_lib. Qed.
Print Assumptions C19_debug_only_comments_compiler.

(* "the same code the library function returns for that text": the texts are compile_text's *)
Theorem C19_cli_equals_compile_text : forall printable failure trace outfile srcs fs stdin texts outs,
  all_exist fs srcs ->
  contents (fs_seen fs outfile) stdin srcs = map RText texts ->
  Forall2 (fun t o => compile_text printable t = CText o) texts outs ->
  yldpc_lib printable failure trace no_flags outfile srcs fs stdin = placed outfile (concat outs) EOk.
Proof. exact cli_equals_compile_text. Qed.
Print Assumptions C19_cli_equals_compile_text.

(* ... and under any of the 16 option combinations the same up to comment lines *)
Theorem C19_cli_equals_compile_text_debug : forall printable failure trace f outfile srcs fs stdin texts outs,
  all_exist fs srcs ->
  contents (fs_seen fs outfile) stdin srcs = map RText texts ->
  Forall2 (fun t o => compile_text printable t = CText o) texts outs ->
  strip_result (yldpc_lib printable failure trace f outfile srcs fs stdin)
  = strip_result (placed outfile (concat outs) EOk).
Proof. exact cli_equals_compile_text_debug. Qed.
Print Assumptions C19_cli_equals_compile_text_debug.

(* "and exits non-zero when a file does not compile, reporting syntax errors with file name and
   position": the first source that is unreadable or that compile_text refuses ends the run with
   exit status 1; what was written is compile_text of the sources before it; a CompilerError (syntax
   errors are CompilerErrors) is reported as <file>:<line>:<column>:<message> *)
Theorem C19_cli_first_failure_compiler : forall printable failure trace outfile srcs fs stdin pre it post outs,
  all_exist fs srcs ->
  combine srcs (contents (fs_seen fs outfile) stdin srcs) = pre ++ it :: post ->
  Forall2 (fun it o => exists t, snd it = RText t /\ compile_text printable t = CText o) pre outs ->
  (snd it = RBad \/ exists t, snd it = RText t /\ forall o, compile_text printable t <> CText o) ->
  exists e, yldpc_lib printable failure trace no_flags outfile srcs fs stdin = placed outfile (concat outs) e /\ status e = 1
    /\ (e = ECrash \/ exists l c m, e = EError (err_msg (fst it) l c m)).
Proof. exact cli_first_failure_lib. Qed.
Print Assumptions C19_cli_first_failure_compiler.

(* exit status 0 iff every source exists, is readable and is accepted by the compiler *)
Theorem C19_exit_status_compiler : forall printable failure trace f outfile srcs fs stdin,
  status (r_end (yldpc_lib printable failure trace f outfile srcs fs stdin)) = 0 <->
  (all_exist fs srcs /\
   Forall (fun r => exists t text, r = RText t /\ compile_text printable t = CText text)
          (contents (fs_seen fs outfile) stdin srcs)).
Proof. exact exit_status_lib. Qed.
Print Assumptions C19_exit_status_compiler.

(* non-vacuity: a compiler that accepts "a." and rejects everything else, debug messages that try
   to smuggle code in with every kind of line break, three sources (a file, stdin, a file that does
   not compile), -d and -o: the hypotheses of the theorems hold and the output file contains the
   two library texts between comment lines only. *)
Example C19_nonvacuous :
  let compile := fun t => if str_eqb t (d "a.") then COk (d "def a_0():\10;  pass\10;") else CErr 1 0 (d "no") in
  let trace := fun (dfn : bool) (s t : str) =>
     [(ChParser, d "visit\10;import os\13;os.x()\8232;y"); (ChGenerator, []); (ChParser, d "z\12;")] in
  let fs := fun s => if str_eqb s (d "x.pl") then Some (RText (d "a.")) else
                     if str_eqb s (d "y.pl") then Some (RText (d "b.")) else None in
  let r := yldpc compile trace (Flags true false false false) (d "o.py") [d "x.pl"; d "-"; d "y.pl"] fs (RText (d "a.")) in
  (forall t body, compile t = COk body -> clean_body body)
  /\ r_end r = EError (d "y.pl:1:0:no")
  /\ strip_result r = Result [] (Some (d "o.py", d "\10;def a_0():\10;  pass\10;\10;def a_0():\10;  pass\10;")) (EError (d "y.pl:1:0:no"))
  /\ length (plines (output r)) = 34%nat.
Proof.
  intros compile trace fs r. split.
  - intros t body. unfold compile. destruct (str_eqb t (d "a.")); [|discriminate].
    intros H; inversion H; subst. split; [reflexivity|]. right. eexists (d "def a_0():\10;  pass"). reflexivity.
  - vm_compute. split; [reflexivity|]. split; reflexivity.
Qed.

(* non-vacuity with the real compiler: `yldpc -d -o o.py x.pl - y.pl` where x.pl and stdin hold a
   clause with a quoted atom containing a line break and y.pl has a syntax error (reported by the
   implementation as 1:4); debug messages with every kind of line break.  The file holds the two
   texts of compile_text between comment lines only. *)
Example C19_nonvacuous_compiler :
  let printable := fun _ : N => false in
  let failure := fun _ : str => CErr 1 4 (d "mismatched input") in
  let trace := fun (dfn : bool) (s t : str) =>
     [(ChParser, d "visit\10;import os\13;os.x()\8232;y"); (ChGenerator, []); (ChParser, d "z\12;")] in
  let src := d "p('a\10;import os', X) :- q(X, _)." in
  let fs := fun s => if str_eqb s (d "x.pl") then Some (RText src) else
                     if str_eqb s (d "y.pl") then Some (RText (d "p(a) :- .")) else None in
  let r := yldpc_lib printable failure trace (Flags true false false false) (d "o.py") [d "x.pl"; d "-"; d "y.pl"] fs (RText src) in
  exists text, compile_text printable src = CText text
  /\ r_end r = EError (d "y.pl:1:4:mismatched input")
  /\ strip_result r = strip_result (Result [] (Some (d "o.py", text ++ text)) (EError (d "y.pl:1:4:mismatched input")))
  /\ length (plines (output r)) = 58%nat.
Proof.
  (* r stays a local definition, so that the one evaluation below runs the command line once *)
  intros printable failure trace src fs r. apply text_such_that.
  vm_compute.
  split; [reflexivity|]. split; reflexivity.
Qed.
