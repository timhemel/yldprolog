(* C07 - the fact database behaves as ordered lists for every history.
   Statements, each proved by the theorem of the Engine files it names (refinement: DbSpec.v; invariants:
   DbCursorThms.v, DbClear.v, DbTotal.v; open queries: DbOpen.v; compiled code: DbProgThms.v, DbProgSim.v), and
   evaluated examples.
   Spec (DbSpec.v, readable): a database is key -> list of argument lists; sstep says what each
   operation returns and how it changes the lists (cons / snoc / answers in list order / remove the
   first matching element per answer / filter / empty).  Model: the cursor machine DbCursor.v, which
   mirrors engine.py (identities of Answer objects, copy-on-write lists, generator objects).
   The theorems hold for every matching function mt, in particular for DbFacts.match_fact. *)
From Coq Require Import String.
From Coq Require Import List Arith ZArith.
Import ListNotations.
From YP Require Import Base.Str Term.Term Term.Show Engine.Db Engine.DbCursor Engine.DbCursorThms Engine.DbClear Engine.DbSpec Engine.DbTotal Engine.DbFacts Engine.DbProg Engine.DbProgThms Engine.RunDbProg Engine.DbProgInv Engine.DbProgSim Engine.DbOpen Engine.DbProgMeta Engine.RunDbProgMeta.

(* For every history of asserta / assertz / assert_fact / query (all answers, or j answers then
   close) / retract (j answers requested, then closed; j larger than the number of matches = run to
   exhaustion) / retractall / clear, on any keys: the results the caller sees, step by step, and
   the final contents of every predicate are those of the list specification.  R d s: the
   specification database d is the model database without the identities. *)
Theorem C07_db_refines_list_spec : forall mt ops s s' outs d,
  ids_ok (sdb s) (snext s) -> R d s -> run mt s (flat_map compile ops) = Some (s', outs) ->
  map vis outs = snd (srun mt d ops) /\ R (fst (srun mt d ops)) s'.
Proof. exact db_refines_list_spec. Qed.
Print Assumptions C07_db_refines_list_spec.

(* the same from the empty engine *)
Theorem C07_db_refines_list_spec_from_init : forall mt ops s' outs,
  run mt init (flat_map compile ops) = Some (s', outs) ->
  map vis outs = snd (srun mt (fun _ => []) ops) /\ R (fst (srun mt (fun _ => []) ops)) s'.
Proof.
  intros mt ops s' outs. apply db_refines_list_spec.
  - apply ids_ok_empty.
  - intros k. reflexivity.
Qed.
Print Assumptions C07_db_refines_list_spec_from_init.

(* one operation at a time (the simulation step) *)
Theorem C07_sim_op : forall mt op s s' outs d,
  ids_ok (sdb s) (snext s) -> R d s -> run mt s (compile op) = Some (s', outs) ->
  map vis outs = snd (sstep mt d op) /\ R (fst (sstep mt d op)) s'.
Proof. exact sim_op. Qed.
Print Assumptions C07_sim_op.

(* "a query enumerates the matching facts in list order", also when it is suspended between its
   answers and other events happen: see C14_cursor_visits_snapshot.  Here: j x next() on a query cursor that
   nothing interrupts returns the first j results of the specification's query *)
Theorem C07_query_cursor_answers : forall mt pat j s s' outs rest,
  step mt s (ENext 0) = qnext mt s 0 pat rest ->
  run mt s (repeat (ENext 0) j) = Some (s', outs) ->
  map vis outs = stake (smatches mt pat (map fargs rest)) j /\ sdb s' = sdb s /\ snext s' = snext s /\
  (scur s 0 <> CNone -> scur s' 0 <> CNone).
Proof. exact query_nexts. Qed.
Print Assumptions C07_query_cursor_answers.

(* "each answer of retract ... binds the pattern to it": an answer of the concrete matching function
   is the pattern under bindings that make it equal to a fresh copy of the stored fact *)
Theorem C07_match_binds_pattern : forall fuel pat args a, match_fact fuel pat args = MYes a ->
  exists s, wf s /\ a = map (den s) pat /\
            a = map (den s) (fst (copy_args [] args (Nat.max (bound_list pat) (bound_list args)))).
Proof. exact match_fact_sound. Qed.
Print Assumptions C07_match_binds_pattern.

(* identities stay unique (used by the refinement) *)
Theorem C07_ids_invariant : forall mt evs s s' outs,
  ids_ok (sdb s) (snext s) -> run mt s evs = Some (s', outs) -> ids_ok (sdb s') (snext s').
Proof. intros mt evs s s' outs I H. exact (proj2 (@no_lost_update mt evs s s' outs I H)). Qed.
Print Assumptions C07_ids_invariant.

(* "none of these raises": the model has exactly one way of not returning a result - a match outside the
   specified domain (MStuck: it would build a cyclic term, or the model's fuel ran out).  For every matching
   function that is never stuck, every event of every history returns: zero-argument facts, goals that are
   not callable, predicates without facts, exhausted and closed cursors included *)
Theorem C07_nothing_raises : forall mt, (forall pat args, mt pat args <> MStuck) ->
  forall evs s, exists s' outs, run mt s evs = Some (s', outs).
Proof. exact run_total. Qed.
Print Assumptions C07_nothing_raises.

(* non-vacuity: a history over p/1, flag/0 (zero arguments), q/2 and a predicate without facts, with the
   concrete matching function: nothing raises, nothing is ignored *)
Example C07_history :
  let a := TAtom (d "a") in let b := TAtom (d "b") in
  let p x := TFun (d "p") [x] in
  let ops := [AAssert false (p a); AAssert true (p b); AAssertFact (d "q") [a; TVar 0] true; AAssert false (TAtom (d "flag"));
              ARetract (TAtom (d "flag")) 2; ARetract (p (TVar 0)) 1; AQuery (d "p") [TVar 0];
              ARetractAll (TFun (d "nofacts") [TVar 0]); ARetract (TFun (d "nofacts") [TVar 0]) 1; AQuery (d "nofacts") [];
              AQuery (d "q") [TVar 0; b]; AClear; AQuery (d "q") [TVar 0; TVar 1]] in
  exists s' outs, run (match_fact 20) init (flat_map compile ops) = Some (s', outs) /\
    map vis outs = [VOk; VOk; VOk; VOk;
                    VOk; VAns []; VEnd; VOk;
                    VOk; VAns [b]; VOk;
                    VAll [[a]];
                    VOk; VOk; VEnd; VOk; VAll [];
                    VAll [[a; b]]; VOk; VAll []] /\
    map vis outs = snd (srun (match_fact 20) (fun _ => []) ops).
Proof.
  intros a b p ops.
  eassert (V: option_map (fun r => map vis (snd r)) (run (match_fact 20) init (flat_map compile ops)) = Some _) by (vm_compute; reflexivity).
  destruct (option_proj _ _ V) as [[s' outs] [E V']].
  exists s', outs. split; [exact E|]. split; [exact V'|].
  exact (proj1 (C07_db_refines_list_spec_from_init _ _ _ _ E)).
Qed.

(* Operations whose arguments mention variables of a query that is still OPEN
   (`for _ in yp.query('name', [Y]): yp.assert_fact(yp.atom('pet'), [Y])`; a Python predicate registered with
   register_function that stores the clause variables it receives).  DbOpen.v extends the cursor machine with the
   bindings each suspended cursor holds (the store its match produced); XOpen c e = the event e written over the
   pattern variables of cursor c.  For every fuel, state and extended history: the extended run IS a run of the
   cursor machine on the base history es that it names - so every theorem above and in C14.v holds for it. *)
Theorem C07_open_history_is_history : forall fuel xs x x' es outs,
  xrun fuel x xs = Some (x', es, outs) ->
  run (match_fact fuel) (xs_st x) es = Some (xs_st x', outs) /\ length es = length xs.
Proof. exact xrun_is_run. Qed.
Print Assumptions C07_open_history_is_history.

(* assert_fact over the variables of an open cursor stores, as ONE new Answer at the end / front of the list that is
   current then, the value its arguments have under the cursor's bindings at that moment (deep get_value); the
   cursors and their bindings are untouched *)
Theorem C07_open_assert_stores_value : forall fuel x c name args append,
  xstep fuel x (XOpen c (EAssertFact name args append)) =
  let vals := map (den (xs_bind x c)) args in
  let k := (name, length args) in
  let f := mkfact (snext (xs_st x)) vals in
  Some (mkx (mkst (upd k (ins (negb append) f (sdb (xs_st x) k)) (sdb (xs_st x))) (S (snext (xs_st x))) (scur (xs_st x)))
            (xs_bind x),
        EAssertFact name vals append, OIns k (negb append) f).
Proof. exact open_assert_stores_value. Qed.
Print Assumptions C07_open_assert_stores_value.

(* the bindings kept for a suspended cursor are those of the answer the caller saw: a well-formed store under which
   the pattern reads as that answer *)
Theorem C07_open_bindings_are_the_answer : forall fuel pat args a, match_fact fuel pat args = MYes a ->
  wf (bind_of fuel pat args) /\ a = map (den (bind_of fuel pat args)) pat.
Proof. exact bind_of_answer. Qed.
Print Assumptions C07_open_bindings_are_the_answer.

(* and whatever the cursors do afterwards (advance, end, close), the database is the fold of the atomic updates in
   the order in which they were issued: a stored fact never changes *)
Theorem C07_open_no_lost_update : forall fuel xs x x' es outs,
  ids_ok (sdb (xs_st x)) (snext (xs_st x)) -> xrun fuel x xs = Some (x', es, outs) ->
  (forall k, sdb (xs_st x') k = apply_outs outs (sdb (xs_st x)) k) /\ ids_ok (sdb (xs_st x')) (snext (xs_st x')).
Proof. exact xrun_no_lost_update. Qed.
Print Assumptions C07_open_no_lost_update.

(* non-vacuity: p = [p(a), p(f(b))]; for every answer of p(Y): assert_fact(q, [Y]) resp. assert_fact(q, [who(Y)]);
   once more after the query has ended (Y is unbound again).  q = [q(a), q(who(f(b))), q(_)] *)
Example C07_open_history :
  let a := TAtom (d "a") in let b := TAtom (d "b") in
  let fb := TFun (d "f") [b] in
  let xs := [XBase (EAssertFact (d "p") [a] true); XBase (EAssertFact (d "p") [fb] true);
             XBase (EStart 0 (QQuery (d "p") [TVar 0])); XBase (ENext 0);
             XOpen 0 (EAssertFact (d "q") [TVar 0] true); XBase (ENext 0);
             XOpen 0 (EAssertFact (d "q") [TFun (d "who") [TVar 0]] true); XBase (ENext 0);
             XOpen 0 (EAssertFact (d "q") [TVar 0] true)] in
  exists x' es outs, xrun 20 xinit xs = Some (x', es, outs) /\
    map fargs (sdb (xs_st x') (d "q", 1)) = [[a]; [TFun (d "who") [fb]]; [TVar 0]] /\
    nth 4 es EClear = EAssertFact (d "q") [a] true.
Proof.
  intros a b fb xs.
  eassert (V: option_map (fun r => (map fargs (sdb (xs_st (fst (fst r))) (d "q", 1)), nth 4 (snd (fst r)) EClear))
                         (xrun 20 xinit xs) = Some _) by (vm_compute; reflexivity).
  destruct (option_proj _ _ V) as [[[x' es] outs] [E V']]. cbv beta in V'. injection V' as V1 V2.
  exists x', es, outs. split; [exact E|]. split; [exact V1|exact V2].
Qed.

(* "issued through the Python API or FROM COMPILED CODE"
   DbProg.solve runs clause bodies (goals on dynamic facts and on compiled predicates, =, asserta/assertz/
   retract/retractall, goals held in bound variables, and the control constructs !, fail, ( A ; B ),
   ( C -> T ; E ), ( C -> T ), \+ C with the semantics of the repaired compiler: a cut inside a condition or under
   \+ is local to it, a cut elsewhere ends the clause loop of its predicate and is not passed to the caller)
   depth first on a shared heap, the database being threaded through the whole search - also through the
   branches that a cut or a commit discards: a goal stays suspended while the rest of the body - which may
   update the same predicate - runs for each of its answers.  For every program, body, store, state and
   fuel: the database updates of the run (tr) are atomic LIST OPERATIONS, each applied to the list that is
   current when it happens -
     OIns k front f : the list of k becomes  f :: l  (asserta) or  l ++ [f]  (assertz), f a new Answer;
     ORet k i a     : an answer of retract: Answer i IS in the current list of k and is deleted from it;
     ORAll k gone   : retractall: the current list of k without the (distinct, present) Answers gone
   (valid_trace), the database after the run is their fold in execution order, identities stay unique. *)
Theorem C07_compiled_updates_are_list_operations : forall uf prog n gs s g g' a tr fl,
  ids_ok (gdb g) (gid g) -> solve uf prog n gs s g = Some (g', a, tr, fl) ->
  valid_trace (gdb g) (gid g) tr /\ (forall k, gdb g' k = apply_outs tr (gdb g) k) /\ ids_ok (gdb g') (gid g').
Proof. exact prog_no_lost_update. Qed.
Print Assumptions C07_compiled_updates_are_list_operations.

(* non-vacuity, compiled code: zero-argument facts, a predicate without facts, goals in bound variables
     m :- assertz(flag), flag, retract(flag), retractall(nope(_)), G = p(7), assertz(G), H = p(X), retract(H), \+... p(X)
   nothing is stuck (= raises), nothing is ignored: flag/0 is stored and removed, p(7) is stored through G and
   removed through H, so the final p(X) fails and the query has no answer; 2 Answers were created *)
Example C07_compiled_history :
  let flag := TAtom (d "flag") in let p x := TFun (d "p") [x] in
  let body := [GAssert false flag; GCall (d "flag") []; GRetract flag; GRetractAll (TFun (d "nope") [TVar 0]);
               GUnify (TVar 1) (p (TInt 7)); GAssert false (TVar 1); GUnify (TVar 2) (p (TVar 0)); GRetract (TVar 2)] in
  run_prog 100 50 1000 [mkcl (d "m") 3 [] body; mkcl (d "m2") 3 [] (body ++ [GCall (d "p") [TVar 0]])]
           [(d "m", [], 0); (d "m2", [], 0)] [(d "flag", 0); (d "p", 1); (d "nope", 1)]
  = OL [OL [otag "answers" [OL [OL []]]; otag "answers" [OL []]]; OL [OL []; OL []; OL []]; onat 4].
Proof. vm_compute. reflexivity. Qed.

(* non-vacuity, control constructs:  m :- ( flag -> retract(flag) ; assertz(flag) ), \+ nope(_), ( p(X), ! ; assertz(p(7)) ).
   called three times: flag/0 is stored, removed, stored; nope/1 has no facts (the \+ succeeds, nothing raises); the first
   call stores p(7) through the right branch, the later ones find it and commit: 3 Answers created *)
Example C07_compiled_control :
  let flag := TAtom (d "flag") in let p x := TFun (d "p") [x] in
  let body := [GIf [GCall (d "flag") []] [GRetract flag] [GAssert false flag]; GNot [GCall (d "nope") [TVar 1]];
               GOr [GCall (d "p") [TVar 0]; GCut] [GAssert false (p (TInt 7))]] in
  run_prog 100 50 1000 [mkcl (d "m") 2 [] body] [(d "m", [], 0); (d "m", [], 0); (d "m", [], 0)] [(d "flag", 0); (d "p", 1); (d "nope", 1)]
  = OL [OL [otag "answers" [OL [OL []]]; otag "answers" [OL [OL []]]; otag "answers" [OL [OL []]]];
        OL [OL [OL []]; OL [OL [term_obs (TInt 7)]]; OL []]; onat 3].
Proof. vm_compute. reflexivity. Qed.

(* Compiled code, through the trace inclusion (Engine/DbProgSim.v, see C14_compiled_run_is_cursor_history).
   Every run of compiled code is a history of the cursor machine with the same database, the same identities
   and the same answers (up to the names of new variables).  So C07_db_refines_list_spec speaks about compiled code:
   whenever the history of the run is a sequence of atomic operations (flat_map compile ops: no goal is suspended
   around another database operation), what the run sees, step by step, and the final contents of every
   predicate are those of the list specification srun.  (With goals suspended inside each other the
   identity-free specification does not apply - that case is C14's; the operations are then still atomic list
   operations on the current list: C07_compiled_updates_are_list_operations.)  The history is given
   existentially; its shape is described in DbProgSim.v. *)
Theorem C07_compiled_refines_list_spec : forall uf prog, prog_ok prog -> forall n gs s g g' a tr fl F,
  cinv F gs s g -> ids_ok (gdb g) (gid g) -> solve uf prog n gs s g = Some (g', a, tr, fl) ->
  exists evs st' outs, run (match_fact uf) (st_of g) evs = Some (st', outs) /\ Rst g' st' /\ tr_eqv tr (dbouts outs) /\
    forall ops d0, evs = flat_map compile ops -> R d0 (st_of g) ->
      map vis outs = snd (srun (match_fact uf) d0 ops) /\ R (fst (srun (match_fact uf) d0 ops)) st'.
Proof. exact prog_history_refines_list_spec. Qed.
Print Assumptions C07_compiled_refines_list_spec.

Theorem C07_compiled_run_is_cursor_history : forall uf prog, prog_ok prog -> forall n gs s g g' a tr fl F st,
  cinv F gs s g -> solve uf prog n gs s g = Some (g', a, tr, fl) -> Rst g st ->
  exists evs st' outs, run (match_fact uf) st evs = Some (st', outs) /\ Rst g' st' /\ tr_eqv tr (dbouts outs).
Proof. exact prog_run_is_cursor_history. Qed.
Print Assumptions C07_compiled_run_is_cursor_history.

(* clear() at any point of a history, also while queries and retracts are suspended (Engine/DbClear.v).
   "each answer of retract removes exactly the first remaining matching fact ... clear removes everything": at every
   point of every history (any interleaving, any number of suspended cursors, clear() anywhere) an answer of a retract
   cursor returns an Answer that IS stored under the cursor's key at that moment, and afterwards it is stored nowhere *)
Theorem C07_retract_answer_is_stored : forall mt evs s s1 outs1 e s2 k i a,
  ids_ok (sdb s) (snext s) -> run mt s evs = Some (s1, outs1) -> step mt s1 e = Some (s2, ORet k i a) ->
  In i (map fid (sdb s1 k)) /\ (forall k', ~ In i (map fid (sdb s2 k'))).
Proof. exact retract_answer_is_stored. Qed.
Print Assumptions C07_retract_answer_is_stored.

(* after clear(), as long as nothing is asserted: no retract cursor - suspended in whatever snapshot - has an answer, and
   every predicate stays empty, whatever else is resumed, started, closed, retracted *)
Theorem C07_clear_then_resume : forall mt evs s s' outs,
  forallb (fun e => negb (is_assert e)) evs = true -> run mt s (EClear :: evs) = Some (s', outs) ->
  db_empty s' /\ forallb (fun o => negb (is_ret o)) outs = true.
Proof. exact clear_then_resume. Qed.
Print Assumptions C07_clear_then_resume.

(* non-vacuity: p(1), p(2), p(3); first answer of retract(p(X)) (X = 1); a query is suspended at p(2); clear(); the same
   facts are asserted again (new Answers); the retract, resumed, has no further answer and the new facts stay; the query
   goes on in the list it read (3, then the end) *)
Example C07_clear_while_suspended :
  let p := d "p"%string in
  let f x := TFun p [TInt x] in
  let evs := [EAssert false (f 1%Z); EAssert false (f 2%Z); EAssert false (f 3%Z);
              EStart 0 (QRetract (TFun p [TVar 0])); ENext 0; EStart 1 (QQuery p [TVar 0]); ENext 1;
              EClear; EAssert false (f 2%Z); EAssert false (f 3%Z); ENext 0; ENext 0; ENext 1; ENext 1] in
  exists s' outs, run (match_fact 20) init evs = Some (s', outs) /\
    skipn 4 outs = [ORet (p, 1) 0 [TInt 1%Z]; OStart; OAns 1 [TInt 2%Z]; OClr;
                    OIns (p, 1) false (mkfact 3 [TInt 2%Z]); OIns (p, 1) false (mkfact 4 [TInt 3%Z]);
                    OEnd; OEnd; OAns 2 [TInt 3%Z]; OEnd] /\
    map fid (sdb s' (p, 1)) = [3; 4].
Proof.
  intros p f evs.
  eassert (V: option_map (fun r => (skipn 4 (snd r), map fid (sdb (fst r) (p, 1)))) (run (match_fact 20) init evs) = Some _)
    by (vm_compute; reflexivity).
  destruct (option_proj _ _ V) as [[s' outs] [E V']]. cbv beta in V'. injection V' as V1 V2.
  exists s', outs. split; [exact E|]. split; [exact V1|exact V2].
Qed.

(* Compiled code that reaches the database THROUGH META-CALLS (Engine/DbProgMeta.v).
   msolve = DbProg.solve in which a goal name(args) is YP.query literally: the facts of name/arity, then the clauses of
   the program or the registered builtin of that name: call/N (goal dereferenced, extra arguments appended, the target
   queried again: a dynamic predicate, a rule, assertz/asserta/retract/retractall, a further meta-call), once/1 (first
   answer, then the call's generators are closed), findall/3 (its goal run to exhaustion in a run of its own, one copy of
   the template per answer, then the bag is unified), =, \=.  For every program, body, store, state and fuel: the updates
   of the run - however they were reached - are atomic list operations each applied to the list current at that moment,
   the final database is their fold in execution order, identities stay unique. *)
Theorem C07_meta_updates_are_list_operations : forall uf prog n gs s g g' a tr fl,
  ids_ok (gdb g) (gid g) -> msolve uf prog n gs s g = Some (g', a, tr, fl) ->
  valid_trace (gdb g) (gid g) tr /\ (forall k, gdb g' k = apply_outs tr (gdb g) k) /\ ids_ok (gdb g') (gid g').
Proof. exact mprog_no_lost_update. Qed.
Print Assumptions C07_meta_updates_are_list_operations.

(* non-vacuity:  init :- assertz(p(a)), assertz(p(b)).      u :- p(X), call(assertz, p(X)), fail.   u.
                 v(L) :- G = p(X), findall(X, call(G), L).  t(L) :- findall(X, retract(p(X)), L).
   queries init, u, v(L), t(L), t(L): u appends a copy of each of the two facts it started on (the goal p(X) stays
   suspended around call/2 and does not see them); v collects [a,b,a,b] through a goal held in a variable; the first t
   removes all four in list order and returns them, the second finds nothing ([]); p/1 is empty at the end; 4 Answers *)
Example C07_meta_history :
  let p x := TFun (d "p") [x] in let a := TAtom (d "a") in let b := TAtom (d "b") in
  show (run_prog_meta 100 50 1000
    [mkcl (d "init") 0 [] [GAssert false (p a); GAssert false (p b)];
     mkcl (d "t") 2 [TVar 0] [GCall (d "findall") [TVar 1; TFun (d "retract") [p (TVar 1)]; TVar 0]];
     mkcl (d "u") 1 [] [GCall (d "p") [TVar 0]; GCall (d "call") [TAtom (d "assertz"); p (TVar 0)]; GFail];
     mkcl (d "u") 0 [] [];
     mkcl (d "v") 3 [TVar 0] [GUnify (TVar 2) (p (TVar 1)); GCall (d "findall") [TVar 1; TFun (d "call") [TVar 2]; TVar 0]]]
    [(d "init", [], 0); (d "u", [], 0); (d "v", [TVar 0], 1); (d "t", [TVar 0], 1); (d "t", [TVar 0], 1)] [(d "p", 1)])
  = "((({answers} (())) ({answers} (())) ({answers} (((4 {.} ((0 {a}) (4 {.} ((0 {b}) (4 {.} ((0 {a}) (4 {.} ((0 {b}) (0 {[]})))))))))))) ({answers} (((4 {.} ((0 {a}) (4 {.} ((0 {b}) (4 {.} ((0 {a}) (4 {.} ((0 {b}) (0 {[]})))))))))))) ({answers} (((0 {[]}))))) (()) 4)"%string.
Proof. vm_compute. reflexivity. Qed.
