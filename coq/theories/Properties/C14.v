(* C14 - changing a predicate while it is being enumerated (logical update view).
   Statements and evaluated examples; every theorem is an `exact` to a lemma of the Engine layer: DbCursorThms,
   DbClear, DbRetractOrder for the cursor machine, DbProgThms / DbProgSim / DbProgCut for goals
   suspended inside compiled code.
   The theorems hold for EVERY matching function mt (in particular for Answer.match as modelled
   by DbFacts.match_fact with any fuel) and for every interleaving of events: there is no bound on
   the length of the history, the number of cursors or the size of the lists.  `run` returns a
   value unless a match is outside the specified domain (cyclic term / fuel). *)
From Coq Require Import String.
From Coq Require Import List Arith ZArith.
Import ListNotations.
From YP Require Import Base.Str Term.Term Term.Show Engine.Db Engine.DbCursor Engine.DbCursorThms Engine.DbClear Engine.DbRetractOrder Engine.DbFacts Engine.DbProg Engine.DbProgThms Engine.RunDbProg Engine.DbProgInv Engine.DbProgSim Engine.DbProgCut Engine.DbProgMeta Engine.RunDbProgMeta.

(* "A goal that enumerates the dynamic facts of a predicate works on the facts as they were when the
   goal started: additions and removals made while the enumeration is suspended do not change which
   facts a call visits": once a query cursor has its snapshot (rest), the results of its next()
   calls are the matching facts of the snapshot, in order, then StopIteration - whatever other events
   (asserts, retracts by other cursors, retractall, clear, other cursors) happen in between. *)
Theorem C14_cursor_visits_snapshot : forall mt evs s s' outs c L,
  cur_stream mt (scur s c) = Some L -> no_ctl c evs -> run mt s evs = Some (s', outs) ->
  outs_of c evs outs = expect L (length (outs_of c evs outs)).
Proof. exact cursor_visits_snapshot. Qed.
Print Assumptions C14_cursor_visits_snapshot.

(* "as they were when the goal started" = the list stored at the goal's first next() *)
Theorem C14_query_snapshot_at_first_next : forall mt evs s s' outs c k pat,
  scur s c = CQNew k pat -> no_ctl c evs -> run mt s (ENext c :: evs) = Some (s', outs) ->
  outs_of c (ENext c :: evs) outs = expect (qstream mt pat (sdb s k)) (length (outs_of c (ENext c :: evs) outs)).
Proof. exact query_snapshot_at_first_next. Qed.
Print Assumptions C14_query_snapshot_at_first_next.

(* "a suspended retract skips facts that have meanwhile been removed, never removing or returning a
   fact twice": over all retract cursors and retractall calls of a history, the removed facts
   (identities) are pairwise different *)
Theorem C14_retract_at_most_once : forall mt evs s s' outs,
  ids_ok (sdb s) (snext s) -> run mt s evs = Some (s', outs) -> NoDup (removed outs).
Proof. exact retract_at_most_once. Qed.
Print Assumptions C14_retract_at_most_once.

Theorem C14_retract_at_most_once_from_init : forall mt evs s' outs,
  run mt init evs = Some (s', outs) -> NoDup (removed outs).
Proof. exact (fun mt evs s' outs => @retract_at_most_once mt evs init s' outs (ids_ok_empty 0)). Qed.
Print Assumptions C14_retract_at_most_once_from_init.

(* "a suspended retract skips facts that have meanwhile been removed": whatever happens between its next()
   calls, the Answers that a retract cursor removes and returns form a subsequence of the matching facts of
   ITS SNAPSHOT, in snapshot order - it never goes back, never visits a fact added meanwhile, and
   (C14_retract_at_most_once) never returns a fact that some other cursor has removed *)
Theorem C14_retract_cursor_in_snapshot_order : forall mt evs s s' outs c L,
  rcur_ids mt (scur s c) = Some L -> no_ctl c evs -> run mt s evs = Some (s', outs) ->
  subseq (ret_ids (outs_of c evs outs)) L.
Proof. exact retract_cursor_in_snapshot_order. Qed.
Print Assumptions C14_retract_cursor_in_snapshot_order.

(* "No modification made meanwhile is lost": the database after the history is the fold of the atomic
   updates (insert fact / delete fact id / delete ids / clear) of its events in the order in which
   they happened, each applied to the then current database *)
Theorem C14_no_lost_update : forall mt evs s s' outs,
  ids_ok (sdb s) (snext s) -> run mt s evs = Some (s', outs) ->
  (forall k, sdb s' k = apply_outs outs (sdb s) k) /\ ids_ok (sdb s') (snext s').
Proof. exact no_lost_update. Qed.
Print Assumptions C14_no_lost_update.

(* a cursor (query or retract) answers at most as often as its snapshot has facts left *)
Theorem C14_cursor_finite : forall mt evs s s' outs c n,
  cur_left (scur s c) = Some n -> no_start c evs -> run mt s evs = Some (s', outs) ->
  count_ans (outs_of c evs outs) <= n.
Proof. exact cursor_finite. Qed.
Print Assumptions C14_cursor_finite.

(* "the failure-driven update loop retract(c(N)), ..., assertz(c(N1)), fail terminates": the retract
   goal answers at most as often as the predicate had facts when the goal started, however many
   facts the loop body asserts in between *)
Theorem C14_retract_goal_finite : forall mt evs s s' outs c t name args,
  scur s c = CRNew t -> callable t = Some (name, args) -> no_start c evs ->
  run mt s (ENext c :: evs) = Some (s', outs) ->
  count_ans (outs_of c (ENext c :: evs) outs) <= length (sdb s (name, length args)).
Proof. exact retract_goal_finite. Qed.
Print Assumptions C14_retract_goal_finite.

(* non-vacuity: the drain loop  p(X), retract(p(X)), fail  over p(1), p(2), p(3) with an assertz in the
   body: cursor 0 is the goal p(X); it visits 1, 2, 3 exactly once and stops; the new facts survive *)
Example C14_drain :
  let p := d "p"%string in
  let f x := TFun p [TInt x] in
  let body c x := [EStart c (QRetract (f x)); ENext c; EAssert false (f (x + 10)%Z); ENext c] in
  let evs := [EAssert false (f 1%Z); EAssert false (f 2%Z); EAssert false (f 3%Z); EStart 0 (QQuery p [TVar 0]); ENext 0]
             ++ body 1 1%Z ++ [ENext 0] ++ body 2 2%Z ++ [ENext 0] ++ body 3 3%Z ++ [ENext 0] in
  exists s' outs, run (match_fact 20) init evs = Some (s', outs) /\
    outs_of 0 evs outs = [OAns 0 [TInt 1%Z]; OAns 1 [TInt 2%Z]; OAns 2 [TInt 3%Z]; OEnd] /\
    removed outs = [0; 1; 2] /\
    map fargs (sdb s' (p, 1)) = [[TInt 11%Z]; [TInt 12%Z]; [TInt 13%Z]].
Proof.
  intros p f body evs.
  eassert (V: option_map (fun r => (outs_of 0 evs (snd r), removed (snd r), map fargs (sdb (fst r) (p, 1))))
                         (run (match_fact 20) init evs) = Some _) by (vm_compute; reflexivity).
  destruct (option_proj _ _ V) as [[s' outs] [E V']]. cbv beta in V'. injection V' as V1 V2 V3.
  exists s', outs. split; [exact E|]. split; [exact V1|]. split; [exact V2|exact V3].
Qed.

(* non-vacuity, cursors finished in an order that is NOT last-in-first-out: p = [1, 2]; cursor 0 and then
   cursor 1 are started; the OLDER cursor 0 runs to its end (resp. is closed) while cursor 1 stays suspended; p(3) is
   added; cursor 1, resumed, still visits 1, 2 only - and p = [1, 2, 3]: nothing is lost *)
Example C14_older_cursor_finishes_first :
  let p := d "p"%string in
  let f x := TFun p [TInt x] in
  let pre := [EAssert false (f 1%Z); EAssert false (f 2%Z); EStart 0 (QQuery p [TVar 0]); EStart 1 (QQuery p [TVar 0]);
              ENext 0; ENext 1] in
  let post := [EAssert false (f 3%Z); ENext 1; ENext 1; ENext 1] in
  forall fin, In fin [[ENext 0; ENext 0]; [EClose 0]] ->
  let evs := pre ++ fin ++ post in
  exists s' outs, run (match_fact 20) init evs = Some (s', outs) /\
    outs_of 1 evs outs = [OAns 0 [TInt 1%Z]; OAns 1 [TInt 2%Z]; OEnd; OEnd] /\
    map fargs (sdb s' (p, 1)) = [[TInt 1%Z]; [TInt 2%Z]; [TInt 3%Z]].
Proof.
  intros p f pre post fin Hfin evs.
  assert (V: option_map (fun r => (outs_of 1 evs (snd r), map fargs (sdb (fst r) (p, 1)))) (run (match_fact 20) init evs)
             = Some ([OAns 0 [TInt 1%Z]; OAns 1 [TInt 2%Z]; OEnd; OEnd], [[TInt 1%Z]; [TInt 2%Z]; [TInt 3%Z]])).
  { unfold evs. destruct Hfin as [<-|[<-|[]]]; vm_compute; reflexivity. }
  destruct (option_proj _ _ V) as [[s' outs] [E V']]. cbv beta in V'. injection V' as V1 V2.
  exists s', outs. split; [exact E|]. split; [exact V1|exact V2].
Qed.

(* ---- the same for goals that are suspended INSIDE COMPILED CODE ----
   DbProg.solve: clause bodies run depth first on a shared heap (goals share variables and bindings), the
   database threaded through the search; a goal p(X) or retract(p(X)) is suspended while the rest of the
   body runs for each of its answers, to any nesting depth.  A goal works on the list it read when it was
   reached (DbProg.scanq / scanr recurse over that list, whatever the rest of the body publishes). *)

(* "No modification made meanwhile is lost": the database after the run is the fold of the atomic updates
   in execution order, each of them valid in the database current at that moment (a retract answer
   deletes an Answer that is present THEN) *)
Theorem C14_compiled_no_lost_update : forall uf prog n gs s g g' a tr fl,
  ids_ok (gdb g) (gid g) -> solve uf prog n gs s g = Some (g', a, tr, fl) ->
  valid_trace (gdb g) (gid g) tr /\ (forall k, gdb g' k = apply_outs tr (gdb g) k) /\ ids_ok (gdb g') (gid g').
Proof. exact prog_no_lost_update. Qed.
Print Assumptions C14_compiled_no_lost_update.

(* "never removing or returning a fact twice": over all retract goals of a run, however nested, and all
   retractall calls *)
Theorem C14_compiled_retract_at_most_once : forall uf prog n gs s g g' a tr fl,
  ids_ok (gdb g) (gid g) -> solve uf prog n gs s g = Some (g', a, tr, fl) -> NoDup (removed tr).
Proof. exact prog_retract_at_most_once. Qed.
Print Assumptions C14_compiled_retract_at_most_once.

(* non-vacuity, compiled code: t(X) :- assertz(p(1)), p(X), assertz(p(2)).  has exactly the answer X = 1
   and leaves p(1), p(2);  bump :- retract(c(N)), assertz(c(s(N))), fail.  bump.  over two counters c(0),
   c(0) terminates, twice, and leaves c(s(s(0))), c(s(s(0))) *)
Example C14_compiled_programs :
  let p x := TFun (d "p") [x] in let c x := TFun (d "c") [x] in
  run_prog 100 50 1000 [mkcl (d "t") 1 [TVar 0] [GAssert false (p (TInt 1)); GCall (d "p") [TVar 0]; GAssert false (p (TInt 2))]]
           [(d "t", [TVar 0], 1)] [(d "p", 1)]
  = OL [OL [otag "answers" [OL [OL [term_obs (TInt 1)]]]]; OL [OL [OL [term_obs (TInt 1)]; OL [term_obs (TInt 2)]]]; onat 2] /\
  run_prog 100 50 1000
           [mkcl (d "init") 0 [] [GAssert false (c (TInt 0)); GAssert false (c (TInt 0))];
            mkcl (d "bump") 1 [] [GRetract (c (TVar 0)); GAssert false (c (TFun (d "s") [TVar 0])); GUnify (TAtom (d "a")) (TAtom (d "b"))];
            mkcl (d "bump") 0 [] []]
           [(d "init", [], 0); (d "bump", [], 0); (d "bump", [], 0)] [(d "c", 1)]
  = let ss := TFun (d "s") [TFun (d "s") [TInt 0]] in
    OL [OL [otag "answers" [OL [OL []]]; otag "answers" [OL [OL []]]; otag "answers" [OL [OL []]]];
        OL [OL [OL [term_obs ss]; OL [term_obs ss]]]; onat 6].
Proof. split; vm_compute; reflexivity. Qed.

(* control constructs around the updates (DbProg: GCut / GFail / GOr / GIf, GNot): the search, the
   database, the Answer identities and the allocation counter go through the branches that a cut or a commit
   discards - what they wrote stays.
   (1) the counter with a cut   t :- retract(c(N)), !, N1 = s(N), assertz(c(N1)).   over c(0), c(5): each call bumps
       exactly ONE counter (the retract goal is left suspended after its first answer) and terminates;
   (2) m :- ( p(X) -> retract(p(X)) ; assertz(p(a)) ).   toggles: three calls leave p(a);
   (3) m :- \+ p(_), assertz(p(1)).   stores once: the second call fails;
   (4) m :- \+ ( assertz(p(1)), !, fail ), p(X), assertz(q(X)).  m :- assertz(q(2)).   the cut under \+ is local (the second
       clause of m still runs), and p(1), written by the goal of the \+, is there afterwards. *)
Example C14_compiled_control_programs :
  let p x := TFun (d "p") [x] in let c x := TFun (d "c") [x] in let q x := TFun (d "q") [x] in
  let s x := TFun (d "s") [x] in let one := [OL []] in
  run_prog 100 50 1000
    [mkcl (d "init") 0 [] [GAssert false (c (TInt 0)); GAssert false (c (TInt 5))];
     mkcl (d "t") 2 [] [GRetract (c (TVar 0)); GCut; GUnify (TVar 1) (s (TVar 0)); GAssert false (c (TVar 1))]]
    [(d "init", [], 0); (d "t", [], 0); (d "t", [], 0)] [(d "c", 1)]
  = OL [OL [otag "answers" [OL one]; otag "answers" [OL one]; otag "answers" [OL one]];
        OL [OL [OL [term_obs (s (TInt 0))]; OL [term_obs (s (TInt 5))]]]; onat 4] /\
  run_prog 100 50 1000
    [mkcl (d "m") 1 [] [GIf [GCall (d "p") [TVar 0]] [GRetract (p (TVar 0))] [GAssert false (p (TAtom (d "a")))]]]
    [(d "m", [], 0); (d "m", [], 0); (d "m", [], 0)] [(d "p", 1)]
  = OL [OL [otag "answers" [OL one]; otag "answers" [OL one]; otag "answers" [OL one]];
        OL [OL [OL [term_obs (TAtom (d "a"))]]]; onat 2] /\
  run_prog 100 50 1000
    [mkcl (d "m") 1 [] [GNot [GCall (d "p") [TVar 0]]; GAssert false (p (TInt 1))]]
    [(d "m", [], 0); (d "m", [], 0)] [(d "p", 1)]
  = OL [OL [otag "answers" [OL one]; otag "answers" [OL []]]; OL [OL [OL [term_obs (TInt 1)]]]; onat 1] /\
  run_prog 100 50 1000
    [mkcl (d "m") 1 [] [GNot [GAssert false (p (TInt 1)); GCut; GFail]; GCall (d "p") [TVar 0]; GAssert false (q (TVar 0))];
     mkcl (d "m") 1 [] [GAssert false (q (TInt 2))]]
    [(d "m", [], 0)] [(d "p", 1); (d "q", 1)]
  = OL [OL [otag "answers" [OL [OL []; OL []]]];
        OL [OL [OL [term_obs (TInt 1)]]; OL [OL [term_obs (TInt 1)]; OL [term_obs (TInt 2)]]]; onat 3].
Proof. repeat split; vm_compute; reflexivity. Qed.

(* The scope of a cut in the model (Engine/DbProgCut.v).  A run of DbProg.solve ends with a flag: None = exhausted, Some j =
   frame j is being left.  For every program whose clause bodies are source bodies (src_prog: no internal markers), every
   fuel and state: a call with nothing behind it - a query - ends with None: whatever cuts the clauses of the called
   predicate (and of the predicates they call, to any depth) execute, nothing is propagated to the caller; and a source
   body ends with None or with Some 0 (its own clause is cut).  So the loop  t :- retract(c(N)), !, ... assertz(c(N1)).
   leaves its retract goal after the first answer and returns normally to whoever called t.  (General form:
   DbProgCut.solve_may - the flag of a run is one that the goals still to run allow, calls passing on only what the
   REST of the body says.) *)
Theorem C14_compiled_cut_not_propagated : forall uf prog, src_prog prog -> forall n name args s g g' a tr fl,
  solve uf prog n [GCall name args] s g = Some (g', a, tr, fl) -> fl = None.
Proof. exact call_ends_normally. Qed.
Print Assumptions C14_compiled_cut_not_propagated.

Theorem C14_compiled_cut_ends_own_clause_only : forall uf prog, src_prog prog -> forall n gs s g g' a tr fl,
  forallb src gs = true -> solve uf prog n gs s g = Some (g', a, tr, fl) -> fl = None \/ fl = Some 0.
Proof. exact source_body_flag. Qed.
Print Assumptions C14_compiled_cut_ends_own_clause_only.

(* non-vacuity: the counter program is a source program, and the body  c(X), t, !  really ends with Some 0 *)
Example C14_compiled_cut_nonvacuous :
  let c x := TFun (d "c") [x] in
  let prog := [mkcl (d "t") 2 [] [GRetract (c (TVar 0)); GCut; GUnify (TVar 1) (TFun (d "s") [TVar 0]); GAssert false (c (TVar 1))]] in
  src_prog prog /\
  exists g' a tr, solve 50 prog 100 [GAssert false (c (TInt 0)); GCall (d "c") [TVar 0]; GCall (d "t") []; GCut] [] (ginit 1 1000)
                  = Some (g', a, tr, Some 0) /\ length a = 1.
Proof.
  intros c prog. split.
  - intros cl [<-|[]]. reflexivity.
  - set (r := solve 50 prog 100 _ [] (ginit 1 1000)).
    pose (look := fun x : glob * list store * list out * cutflag => (snd x, length (snd (fst (fst x))))).
    eassert (V: option_map look r = Some _) by (vm_compute; reflexivity).
    destruct (option_proj look r V) as [[[[g' a] tr] fl] [E V']]. cbv beta delta [look] in V'. injection V' as -> V2.
    exists g', a, tr. split; [exact E|exact V2].
Qed.

(* ---- TRACE INCLUSION: every run of compiled code IS a history of the cursor machine ----
   (Engine/DbProgSim.v)  For every program whose clauses mention only their own variables (prog_ok), every body,
   bindings and global state that satisfy C13's invariant (cinv; it holds when a query starts and is preserved:
   C13_compiled_invariant), every fuel: there is a history evs of EStart / ENext / EClose / EAssert / ERetractAll events -
   a goal reached at nesting depth d is the generator d, started with the dereferenced goal, one ENext per answer
   with the events of the rest of the body in between, a last ENext that returns StopIteration, EClose d; a goal whose
   loop is left by a cut or by the commit of an if-then-else (-> / \+) is closed while suspended: EClose d without the
   last ENext - that the cursor machine (with the concrete matching function match_fact, same fuel) runs from the same database and identity
   counter (Rst) to the same database and identity counter, and whose database outputs (dbouts: the outputs without
   OStart / OEnd / OClosed) are the trace of the compiled run, event by event: equal for stored facts (OIns) and
   retractall (ORAll), and for every answer of a goal (OAns) or of a retract (ORet) the same Answer identity and the
   same answer up to an injective renaming of cells (tr_eqv; the two machines allocate the copy of the fact at
   different cells; proof: increment property and equivariance of unify, C13's invariant). *)
Theorem C14_compiled_run_is_cursor_history : forall uf prog, prog_ok prog -> forall n gs s g g' a tr fl F st,
  cinv F gs s g -> solve uf prog n gs s g = Some (g', a, tr, fl) -> Rst g st ->
  exists evs st' outs, run (match_fact uf) st evs = Some (st', outs) /\ Rst g' st' /\ tr_eqv tr (dbouts outs).
Proof. exact prog_run_is_cursor_history. Qed.
Print Assumptions C14_compiled_run_is_cursor_history.

(* C14_cursor_visits_snapshot transferred: in the history of a compiled run, from any point on (pre ++ post), every
   generator that holds its snapshot returns exactly the matching facts of that snapshot, in order, then
   StopIteration - whatever the rest of the run asserts or retracts *)
Theorem C14_compiled_cursor_visits_snapshot : forall uf prog, prog_ok prog -> forall n gs s g g' a tr fl F,
  cinv F gs s g -> solve uf prog n gs s g = Some (g', a, tr, fl) ->
  exists evs st' outs, run (match_fact uf) (st_of g) evs = Some (st', outs) /\ Rst g' st' /\ tr_eqv tr (dbouts outs) /\
    forall pre post st1 o1 st2 o2 c L, evs = pre ++ post ->
      run (match_fact uf) (st_of g) pre = Some (st1, o1) -> run (match_fact uf) st1 post = Some (st2, o2) ->
      cur_stream (match_fact uf) (scur st1 c) = Some L -> no_ctl c post ->
      outs_of c post o2 = expect L (length (outs_of c post o2)).
Proof. exact prog_history_cursor_visits_snapshot. Qed.
Print Assumptions C14_compiled_cursor_visits_snapshot.

(* C14_no_lost_update and C14_retract_at_most_once transferred: the database after the compiled run is the fold
   of the atomic updates of its history, and the Answers removed by the run are those removed by the history,
   pairwise different *)
Theorem C14_compiled_history_no_lost_update : forall uf prog, prog_ok prog -> forall n gs s g g' a tr fl F,
  cinv F gs s g -> ids_ok (gdb g) (gid g) -> solve uf prog n gs s g = Some (g', a, tr, fl) ->
  exists evs st' outs, run (match_fact uf) (st_of g) evs = Some (st', outs) /\ Rst g' st' /\ tr_eqv tr (dbouts outs) /\
    (forall k, gdb g' k = apply_outs outs (gdb g) k) /\ ids_ok (gdb g') (gid g') /\
    NoDup (removed outs) /\ removed tr = removed outs.
Proof. exact prog_history_no_lost_update. Qed.
Print Assumptions C14_compiled_history_no_lost_update.

(* non-vacuity of the hypotheses: the program  t(X) :- assertz(p(1)), p(X), assertz(p(2)).  and the query t(X0);
   and a run with a cut, an if-then-else and a negation: the body  assertz(c(0)), assertz(c(5)), t  with
   t :- retract(c(N)), !, ( \+ c(N) -> assertz(c(s(N))) ; true ).   has one answer, 4 trace entries (2 OIns, ORet, OIns;
   no OAns: c(0) is gone and c(5) does not match when \+ c(0) asks), ends with flag None and leaves c(5), c(s(0)) *)
Example C14_compiled_history_nonvacuous :
  let p x := TFun (d "p") [x] in
  let prog := [mkcl (d "t") 1 [TVar 0] [GAssert false (p (TInt 1)); GCall (d "p") [TVar 0]; GAssert false (p (TInt 2))]] in
  prog_ok prog /\ cinv (fun _ => false) [GCall (d "t") [TVar 0]] [] (ginit 1 1000) /\ Rst (ginit 1 1000) init /\
  exists g' a tr, solve 50 prog 100 [GCall (d "t") [TVar 0]] [] (ginit 1 1000) = Some (g', a, tr, None) /\ length tr = 3 /\ length a = 1.
Proof.
  intros p prog. split; [|split; [|split]].
  - unfold prog, p. repeat constructor; simpl; auto 10 with tin_db.
  - apply cinv_init. repeat constructor; simpl; auto 10 with tin_db.
  - split; reflexivity.
  - set (r := solve 50 prog 100 _ [] (ginit 1 1000)).
    pose (look := fun x : glob * list store * list out * cutflag => (snd x, length (snd (fst x)), length (snd (fst (fst x))))).
    eassert (V: option_map look r = Some _) by (vm_compute; reflexivity).
    destruct (option_proj look r V) as [[[[g' a] tr] fl] [E V']]. cbv beta delta [look] in V'. injection V' as -> V2 V3.
    exists g', a, tr. split; [exact E|]. split; [exact V2|exact V3].
Qed.

Example C14_compiled_history_nonvacuous_cut :
  let c x := TFun (d "c") [x] in
  let prog := [mkcl (d "t") 1 [] [GRetract (c (TVar 0)); GCut;
                                  GIf [GNot [GCall (d "c") [TVar 0]]] [GAssert false (c (TFun (d "s") [TVar 0]))] []]] in
  let gs := [GAssert false (c (TInt 0)); GAssert false (c (TInt 5)); GCall (d "t") []] in
  prog_ok prog /\ cinv (fun _ => false) gs [] (ginit 0 1000) /\
  exists g' a tr, solve 50 prog 100 gs [] (ginit 0 1000) = Some (g', a, tr, None) /\ length tr = 4 /\ length a = 1 /\
    map fargs (gdb g' (d "c", 1)) = [[TInt 5]; [TFun (d "s") [TInt 0]]].
Proof.
  intros c prog gs. split; [|split].
  - unfold prog, c. repeat constructor; simpl; auto 10 with tin_db.
  - apply cinv_init. unfold gs, c. repeat constructor; simpl; auto 10 with tin_db.
  - set (r := solve 50 prog 100 gs [] (ginit 0 1000)).
    pose (look := fun x : glob * list store * list out * cutflag =>
                    (snd x, length (snd (fst x)), length (snd (fst (fst x))), map fargs (gdb (fst (fst (fst x))) (d "c", 1)))).
    eassert (V: option_map look r = Some _) by (vm_compute; reflexivity).
    destruct (option_proj look r V) as [[[[g' a] tr] fl] [E V']]. cbv beta delta [look] in V'. injection V' as -> V2 V3 V4.
    exists g', a, tr. split; [exact E|]. split; [exact V2|]. split; [exact V3|exact V4].
Qed.

(* clear() while retracts are suspended (Engine/DbClear.v).  "a suspended retract skips facts that have meanwhile
   been removed, never removing or returning a fact twice" - removed by WHATEVER operation, clear() included: an answer of
   a retract cursor, at any point of any history, returns an Answer that is in the store at that moment (under the
   cursor's key) and is in no list afterwards *)
Theorem C14_retract_answer_is_stored : forall mt evs s s1 outs1 e s2 k i a,
  ids_ok (sdb s) (snext s) -> run mt s evs = Some (s1, outs1) -> step mt s1 e = Some (s2, ORet k i a) ->
  In i (map fid (sdb s1 k)) /\ (forall k', ~ In i (map fid (sdb s2 k'))).
Proof. exact retract_answer_is_stored. Qed.
Print Assumptions C14_retract_answer_is_stored.

(* everything a retract cursor returns and a retractall removes after a clear() is an Answer created after that clear():
   a retract that was suspended before it never brings one of its old candidates back *)
Theorem C14_after_clear_only_new_facts : forall mt evs s s' outs,
  ids_ok (sdb s) (snext s) -> run mt s (EClear :: evs) = Some (s', outs) ->
  forall i, In i (removed outs) -> snext s <= i.
Proof. exact after_clear_only_new_facts. Qed.
Print Assumptions C14_after_clear_only_new_facts.

(* non-vacuity: the move loop  retract(p(X)), assertz(moved(X))  with a clear() after the first answer: moved stays empty
   of old facts - the resumed retract ends; with p(2) asserted again after the clear() it is the NEW p(2) (identity 4)
   that a later retract removes *)
Example C14_clear_while_retract_suspended :
  let p := d "p"%string in
  let f x := TFun p [TInt x] in
  let evs := [EAssert false (f 1%Z); EAssert false (f 2%Z); EAssert false (f 3%Z);
              EStart 0 (QRetract (TFun p [TVar 0])); ENext 0; EClear; EAssert false (f 2%Z); ENext 0; ENext 0;
              EStart 1 (QRetract (TFun p [TVar 0])); ENext 1; ENext 1] in
  exists s' outs, run (match_fact 20) init evs = Some (s', outs) /\
    outs_of 0 evs outs = [ORet (p, 1) 0 [TInt 1%Z]; OEnd; OEnd] /\
    outs_of 1 evs outs = [ORet (p, 1) 3 [TInt 2%Z]; OEnd] /\
    removed outs = [0; 3].
Proof.
  intros p f evs.
  eassert (V: option_map (fun r => (outs_of 0 evs (snd r), outs_of 1 evs (snd r), removed (snd r)))
                         (run (match_fact 20) init evs) = Some _) by (vm_compute; reflexivity).
  destruct (option_proj _ _ V) as [[s' outs] [E V']]. cbv beta in V'. injection V' as V1 V2 V3.
  exists s', outs. split; [exact E|]. split; [exact V1|]. split; [exact V2|exact V3].
Qed.

(* ---- compiled code that reaches the database THROUGH META-CALLS (Engine/DbProgMeta.v, see Properties/C07.v) ----
   For every program, body (call/N, once/1, findall/3 to any depth, goals in bound variables), store, state, fuel. *)
Theorem C14_meta_no_lost_update : forall uf prog n gs s g g' a tr fl,
  ids_ok (gdb g) (gid g) -> msolve uf prog n gs s g = Some (g', a, tr, fl) ->
  valid_trace (gdb g) (gid g) tr /\ (forall k, gdb g' k = apply_outs tr (gdb g) k) /\ ids_ok (gdb g') (gid g').
Proof. exact mprog_no_lost_update. Qed.
Print Assumptions C14_meta_no_lost_update.

Theorem C14_meta_retract_at_most_once : forall uf prog n gs s g g' a tr fl,
  ids_ok (gdb g) (gid g) -> msolve uf prog n gs s g = Some (g', a, tr, fl) -> NoDup (removed tr).
Proof. exact mprog_retract_at_most_once. Qed.
Print Assumptions C14_meta_retract_at_most_once.

(* findall(T, G, B), R (no facts and no clauses under findall/3): G runs to completion first - a run of its own with an
   empty continuation, from the state in which findall was reached: every goal G suspends is resumed to its end inside
   it - and its updates t1 are a block of the trace in front of everything the rest R does; R starts in the database
   the block leaves, under the caller's bindings extended by the unification of the bag only *)
Theorem C14_meta_findall_runs_to_completion : forall uf prog n tm gl bag r s g g' a tr c,
  clauses_of prog (d "findall") 3 = [] -> gdb g (d "findall", 3) = [] ->
  msolve uf prog (S n) (GCall (d "findall") [tm; gl; bag] :: r) s g = Some (g', a, tr, c) ->
  exists nm args g0 g1 answers t1 c1 copies n2,
    call_target s gl [] = Some (nm, args) /\
    (forall k, gdb g0 k = gdb g k) /\ gid g0 = gid g /\
    msolve uf prog n [GCall nm args] s g0 = Some (g1, answers, t1, c1) /\
    copy_each tm answers (gn g1) = (copies, n2) /\ length copies = length answers /\
    match Unify.Fast.unify_fast uf s bag (mk_list copies) with
    | Unify.Unify.UOk s' => exists t2, tr = t1 ++ t2 /\ msolve uf prog n r s' (set_n g1 n2) = Some (g', a, t2, c)
    | Unify.Unify.UFail => tr = t1 /\ a = [] /\ g' = set_n g1 n2
    | _ => False
    end.
Proof. exact findall_block. Qed.
Print Assumptions C14_meta_findall_runs_to_completion.

(* non-vacuity:  init :- assertz(p(a)), assertz(p(b)), assertz(c(0)), assertz(c(5)).
     bump :- once(retract(c(N))), assertz(c(s(N))).         (the retract is left after its first answer: one counter per call)
     w(X,L) :- p(X), findall(Y, retract(p(Y)), L), assertz(p(X)).    (p(X) suspended around a findall that drains p)
     z(X) :- p(X), G = retract(p(X)), call(G), call(assertz(), p(f(X))).
   queries init, bump, bump, w(X,L), z(X): c/1 = [s(0), s(5)]; w visits its snapshot [a,b]: (a,[a,b]) then (b,[a]) - the
   first findall removed b, yet the suspended p(X) still visits it, and the second findall sees only the p(a) asserted
   meanwhile; z: X = b, p/1 = [f(b)]; 9 Answers created *)
Example C14_meta_programs :
  let p x := TFun (d "p") [x] in let c x := TFun (d "c") [x] in let a := TAtom (d "a") in let b := TAtom (d "b") in
  show (run_prog_meta 100 50 1000
    [mkcl (d "init") 0 [] [GAssert false (p a); GAssert false (p b); GAssert false (c (TInt 0)); GAssert false (c (TInt 5))];
     mkcl (d "bump") 1 [] [GCall (d "once") [TFun (d "retract") [c (TVar 0)]]; GAssert false (c (TFun (d "s") [TVar 0]))];
     mkcl (d "w") 3 [TVar 0; TVar 1] [GCall (d "p") [TVar 0]; GCall (d "findall") [TVar 2; TFun (d "retract") [p (TVar 2)]; TVar 1]; GAssert false (p (TVar 0))];
     mkcl (d "z") 2 [TVar 0] [GCall (d "p") [TVar 0]; GUnify (TVar 1) (TFun (d "retract") [p (TVar 0)]); GCall (d "call") [TVar 1];
                              GCall (d "call") [TFun (d "assertz") []; p (TFun (d "f") [TVar 0])]]]
    [(d "init", [], 0); (d "bump", [], 0); (d "bump", [], 0); (d "w", [TVar 0; TVar 1], 2); (d "z", [TVar 0], 1)] [(d "p", 1); (d "c", 1)])
  = "((({answers} (())) ({answers} (())) ({answers} (())) ({answers} (((0 {a}) (4 {.} ((0 {a}) (4 {.} ((0 {b}) (0 {[]})))))) ((0 {b}) (4 {.} ((0 {a}) (0 {[]})))))) ({answers} (((0 {b}))))) ((((4 {f} ((0 {b}))))) (((4 {s} ((1 0)))) ((4 {s} ((1 5)))))) 9)"%string.
Proof. vm_compute. reflexivity. Qed.
