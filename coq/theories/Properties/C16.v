(* C16 - source literals and Python values denote the same terms.
   The statements of the property; the proofs are in Lang/ and Engine/PyObjects.v, the two examples at the end are evaluated.
   Source side: Lang/Literals.v (lexer / unquote / visitor).  Run-time side: Lang/Denote.v -- the expression
   yp_generator.compile_expression emits for a literal (Comp/CompileBody.compile_expression), evaluated by the
   engine constructors atom / functor / listpair / makelist / ATOM_NIL (Sem/Machine.eval_expr), builds the term
   the literal stands for (sden); to_python (Engine/GetValue.v, shared with C15) maps it to the prescribed
   Python value; the atom table gives one object per name and engine, unification looks at names only. *)
From Coq Require Import String.
From Coq Require Import List NArith ZArith Arith.
Import ListNotations.
From YP Require Import Base.Str Term.Term Unify.Unify Unify.Mgu Lang.Ast Lang.Lexer Lang.Cst Lang.Parser Lang.Unquote Lang.Literals Lang.Front
  Comp.IR Comp.CompileBody Sem.Machine Engine.GetValue Engine.PyObjects Lang.Denote Lang.Utf8 Lang.FileEntry Cli.Cli.

(* quote s = ' s ' with \' for every quote in s.  For every text without backslash -- quotes, line
   breaks, any code point -- it is lexed as the single token STRING and unquoted back to s. *)
Theorem C16_quoted_atom_roundtrip : forall s, ~ In 92%N s ->
  lex (quote s) = Some [(R_STRING, quote s)] /\ unquote (quote s) = s.
Proof. exact quoted_atom_roundtrip. Qed.
Print Assumptions C16_quoted_atom_roundtrip.

(* ... and inside any program: whatever follows, the quoted form is the token taken at its position *)
Theorem C16_quoted_atom_in_context : forall s rest, ~ In 92%N s ->
  lex_one (quote s ++ rest) = Some (R_STRING, length (quote s)).
Proof. exact quoted_atom_munch. Qed.
Print Assumptions C16_quoted_atom_in_context.

(* the visitor turns it into the atom named s *)
Theorem C16_quoted_atom_literal : forall s k, ~ In 92%N s ->
  v_term (T_atom (A_STRING (quote s))) k = (Some (SAtom s), k).
Proof. exact quoted_atom_literal. Qed.
Print Assumptions C16_quoted_atom_literal.

(* unquoted atoms: a lower-case letter, then letters, digits, `_`; not the keywords true / fail *)
Theorem C16_plain_atom_token : forall c w, lc_letter c = true -> forallb is_character w = true ->
  c :: w <> [116; 114; 117; 101]%N -> c :: w <> [102; 97; 105; 108]%N ->
  lex (c :: w) = Some [(R_ATOM, c :: w)].
Proof. exact plain_atom_token. Qed.
Print Assumptions C16_plain_atom_token.

(* integers: every non-empty digit string is one NUMERAL; its value ignores leading zeros, and the
   decimal text of n denotes n *)
Theorem C16_numeral_token : forall w, w <> [] -> forallb is_digit w = true -> lex w = Some [(R_NUMERAL, w)].
Proof. exact numeral_token. Qed.
Print Assumptions C16_numeral_token.

Theorem C16_numeral_leading_zeros : forall z w, forallb (N.eqb 48) z = true -> num_value (z ++ w) = num_value w.
Proof. exact num_value_leading_zeros. Qed.
Print Assumptions C16_numeral_leading_zeros.

Theorem C16_numeral_roundtrip : forall n, num_value (dec_of_N n) = n.
Proof. exact num_value_dec. Qed.
Print Assumptions C16_numeral_roundtrip.

Theorem C16_variable_token : forall c w, is_varstart c = true -> forallb is_character w = true ->
  lex (c :: w) = Some [(R_VARIABLE, c :: w)].
Proof. exact variable_token. Qed.
Print Assumptions C16_variable_token.

(* [t1,...,tn|V] is the '.'/2 chain of its items ending in V; [t1,...,tn] is [t1,...,tn|[]]
   (sden = the run-time term a literal stands for: atom / int / functor / makelist / listpair) *)
Theorem C16_list_pattern_folds : forall h rest v k h' k1 rest' k2,
  v_term h k = (Some h', k1) -> v_terms rest k1 = (Some rest', k2) ->
  let x := fst (v_var v k2) in
  v_term (T_listpair2 h rest v) k = (Some (fold_pairs (h' :: rest') x), snd (v_var v k2)) /\
  forall rho, sden rho (fold_pairs (h' :: rest') x) =
              fold_right cons_term (sden rho x) (map (sden rho) (h' :: rest')).
Proof. exact list_pattern_folds. Qed.
Print Assumptions C16_list_pattern_folds.

Theorem C16_list_literal : forall rho items,
  sden rho (SList items) = sden rho (fold_pairs items (SAtom s_nil)).
Proof. exact list_literal. Qed.
Print Assumptions C16_list_literal.

(* `_` is a fresh variable: over one compilation (directives included) the anonymous variables carry
   strictly increasing numbers (`numbered`), different numbers are different names, and no such name
   can be written as a variable in the source *)
Theorem C16_anon_fresh : forall cst k prog k', v_program cst k = Some (prog, k') -> numbered k k' (prog_vars prog).
Proof. exact anon_fresh. Qed.
Print Assumptions C16_anon_fresh.

Theorem C16_anon_name_inj : forall i j, anon_name i = anon_name j -> i = j.
Proof. exact anon_name_inj. Qed.
Print Assumptions C16_anon_name_inj.

Theorem C16_anon_not_source : forall i v, rule_lang R_VARIABLE v -> anon_name i <> v.
Proof. exact anon_not_source. Qed.
Print Assumptions C16_anon_not_source.

(* in an environment r that binds the Python variable V_<v> of every source variable v to
   rho v, the constructor calls emitted for the literal t build exactly the term t denotes under rho -- for atoms,
   integers, compound terms, [...] (makelist / ATOM_NIL), [..|T] (listpair) and variables, at any nesting *)
Theorem C16_literal_denotation : forall t r rho, binds r rho (sterm_vars t) ->
  eval_expr r (compile_expression t) = sden rho t.
Proof. exact literal_denotation. Qed.
Print Assumptions C16_literal_denotation.

(* makelist([x1..xn]) = listpair(x1, ... listpair(xn, ATOM_NIL)) = the '.'/2 chain ending in [] *)
Theorem C16_makelist_listpair_chain : forall r xs,
  eval_expr r (ECall (s_ "makelist") [EList xs]) = eval_expr r (listpair_chain xs) /\
  eval_expr r (listpair_chain xs) = fold_right cons_term (TAtom s_nil) (map (eval_expr r) xs).
Proof. exact makelist_listpair_chain. Qed.
Print Assumptions C16_makelist_listpair_chain.

(* to_python specification on literals: lit_py pv t is the value the property text prescribes (atoms -> names,
   [] -> [], ints, proper lists -> lists, compounds not named `.` -> (name, args), unbound -> None); py_of is the
   structural specification of to_python proved for the engine's to_python in C15 *)
Theorem C16_to_python_literal : forall pv rho, (forall x, py_of (rho x) = POk (pv x)) ->
  forall t v, lit_py pv t = Some v -> py_of (sden rho t) = POk v.
Proof. exact to_python_literal. Qed.
Print Assumptions C16_to_python_literal.

(* end to end: to_python of what the emitted constructor calls build *)
Theorem C16_to_python_compiled_literal : forall pv rho r n s t v,
  binds r rho (sterm_vars t) -> (forall x, py_of (rho x) = POk (pv x)) -> lit_py pv t = Some v ->
  free_in s (sden rho t) -> to_python n s (eval_expr r (compile_expression t)) <> POof ->
  to_python n s (eval_expr r (compile_expression t)) = POk v.
Proof. exact to_python_compiled_literal. Qed.
Print Assumptions C16_to_python_compiled_literal.

(* terms built through the API are the ones the source literals unify with *)
Theorem C16_api_term_unifies : forall t r1 r2 rho s,
  binds r1 rho (sterm_vars t) -> binds r2 rho (sterm_vars t) -> wf s ->
  eval_expr r1 (compile_expression t) = eval_expr r2 (compile_expression t) /\
  exists n s', unify n s (eval_expr r1 (compile_expression t)) (eval_expr r2 (compile_expression t)) = UOk s' /\
               wf s' /\ ext s s' /\ sat (sub_of s) s'.
Proof. exact api_term_unifies. Qed.
Print Assumptions C16_api_term_unifies.

(* one object per name and engine: after atom(name) has returned o, every later atom(name) on the same table
   returns o and leaves the table unchanged; ... *)
Theorem C16_atom_identity : forall tb name fresh tb' fresh',
  let '(o, tb1) := yp_atom name fresh tb in
  later tb1 tb' -> fst (yp_atom name fresh' tb') = o /\ snd (yp_atom name fresh' tb') = tb'.
Proof. exact atom_identity. Qed.
Print Assumptions C16_atom_identity.

(* ... yet atoms unify by name, whichever engine (table) made them *)
Theorem C16_atom_unify_by_name : forall n s a b,
  unify (S n) s (TAtom a) (TAtom b) = if str_eqb a b then UOk s else UFail.
Proof. exact atom_unify_by_name. Qed.
Print Assumptions C16_atom_unify_by_name.

(* the byte layer of compile_prolog_from_file / the command line (FileStream, StdinStream: the bytes, strictly decoded as
   UTF-8, no line-end conversion): a text of Unicode scalar values stored as UTF-8 is read back as itself ... *)
Theorem C16_file_bytes_roundtrip : forall s, forallb is_scalar s = true -> utf8_decode (utf8_encode s) = Some s.
Proof. exact utf8_roundtrip. Qed.
Print Assumptions C16_file_bytes_roundtrip.

(* ... so the front end reads from the file what it reads from the text: every theorem above about the literals of a
   source text holds for the literals of the file holding its bytes (CR, CR LF, NEL, LS, PS, BOM, NUL inside atoms included) *)
Theorem C16_file_entry_point : forall s, forallb is_scalar s = true -> front_bytes (utf8_encode s) = front s.
Proof. exact file_entry_point. Qed.
Print Assumptions C16_file_entry_point.

(* ... different texts are different files *)
Theorem C16_file_encoding_injective : forall s t,
  forallb is_scalar s = true -> forallb is_scalar t = true -> utf8_encode s = utf8_encode t -> s = t.
Proof. exact utf8_encode_injective. Qed.
Print Assumptions C16_file_encoding_injective.

(* the command line reads such a file / standard input as that text (RText s of the command-line model of C19) *)
Theorem C16_cli_reads_text : forall s, forallb is_scalar s = true -> rd_of_bytes (utf8_encode s) = Cli.RText s.
Proof. exact cli_reads_text. Qed.
Print Assumptions C16_cli_reads_text.

(* and the other way round: bytes that the strict decoder accepts ARE the encoding of the text it returns (shortest forms only,
   no surrogates, nothing above U+10FFFF): the file and the text read from it determine each other *)
Theorem C16_file_decoding_strict : forall l s, utf8_decode l = Some s -> l = utf8_encode s.
Proof. exact utf8_decode_strict. Qed.
Print Assumptions C16_file_decoding_strict.

(* the CR / LF / quote / backslash BYTES of a file are exactly the CR / LF / quote / backslash characters of its text
   (no byte of a multi-byte character is below 128) *)
Theorem C16_file_ascii_bytes : forall s b, In b (utf8_encode s) -> (b < 128)%N -> In b s.
Proof. exact utf8_ascii_bytes_are_characters. Qed.
Print Assumptions C16_file_ascii_bytes.

(* the OBJECTS to_python hands out (Engine/PyObjects.v: to_python with a counter of object identities, following
   the list displays, `+` and the comprehension of the code).  Forgetting the identities gives to_python: the value of a
   conversion depends on the term and the store alone, not on anything converted (or changed by a caller) before *)
Theorem C16_to_python_objects_value : forall n s t k, eres (fst (to_python_obj n s t k)) = to_python n s t.
Proof. exact obj_erase. Qed.
Print Assumptions C16_to_python_objects_value.

(* every list object reachable from a result was created by that conversion, and occurs once in it *)
Theorem C16_to_python_fresh_lists : forall n s t k v k', to_python_obj n s t k = (OOk v, k') ->
  k <= k' /\ NoDup (addrs v) /\ forall a, In a (addrs v) -> k <= a < k'.
Proof. exact obj_fresh. Qed.
Print Assumptions C16_to_python_fresh_lists.

(* two conversions (any terms, stores, fuel) share no list object; the same term converted twice gives equal values
   made of different objects - so nothing a caller does to one result shows in another *)
Theorem C16_to_python_results_disjoint : forall n1 s1 t1 k1 v1 k1' n2 s2 t2 k2 v2 k2',
  to_python_obj n1 s1 t1 k1 = (OOk v1, k1') -> k1' <= k2 -> to_python_obj n2 s2 t2 k2 = (OOk v2, k2') ->
  forall a, In a (addrs v1) -> ~ In a (addrs v2).
Proof. exact obj_disjoint. Qed.
Print Assumptions C16_to_python_results_disjoint.

Theorem C16_to_python_twice : forall n s t k v1 k1 v2 k2,
  to_python_obj n s t k = (OOk v1, k1) -> to_python_obj n s t k1 = (OOk v2, k2) ->
  erase v1 = erase v2 /\ forall a, In a (addrs v1) -> ~ In a (addrs v2).
Proof. exact obj_twice. Qed.
Print Assumptions C16_to_python_twice.

Example C16_objects_nonvacuous :
  let t := TFun dot [TAtom nil_name; TFun dot [TFun (d "f") [TAtom nil_name]; TFun dot [TAtom nil_name; TAtom nil_name]]] in
  exists v1 k1 v2 k2, to_python_obj 20 [] t 0 = (OOk v1, k1) /\ to_python_obj 20 [] t k1 = (OOk v2, k2) /\
    erase v1 = PList [PList []; PPair (d "f") [PList []]; PList []] /\ length (addrs v1) = 5 /\ k1 = 11 /\
    addrs v1 <> addrs v2.
Proof. exact obj_example. Qed.

(* literals that print alike once the quotes are left out are different literals and denote different terms:
   f('a,b') is f/1 of the atom named "a,b", f(a,b) is f/2; the text with CR LF in an atom, read from its bytes, keeps the CR *)
Example C16_print_alike_distinct :
  front (d "p(f('a,b')). q(f(a,b)). r(['x,y'], [x,y]).") =
    Some [{| c_name := d "p"; c_args := [SFun (d "f") [SAtom (d "a,b")]]; c_body := BTrue |};
          {| c_name := d "q"; c_args := [SFun (d "f") [SAtom (d "a"); SAtom (d "b")]]; c_body := BTrue |};
          {| c_name := d "r"; c_args := [SList [SAtom (d "x,y")]; SList [SAtom (d "x"); SAtom (d "y")]]; c_body := BTrue |}] /\
  sden (fun _ => TVar 0) (SFun (d "f") [SAtom (d "a,b")]) = TFun (d "f") [TAtom (d "a,b")] /\
  sden (fun _ => TVar 0) (SFun (d "f") [SAtom (d "a"); SAtom (d "b")]) = TFun (d "f") [TAtom (d "a"); TAtom (d "b")] /\
  front_bytes (utf8_encode (d "p('a\13;\10;b\233;\133;').")) =
    Some [{| c_name := d "p"; c_args := [SAtom (d "a\13;\10;b\233;\133;")]; c_body := BTrue |}] /\
  utf8_encode (d "\233;\13;") = [195; 169; 13]%N.
Proof.
  split; [vm_compute; reflexivity|]. split; [vm_compute; reflexivity|]. split; [vm_compute; reflexivity|].
  split; vm_compute; reflexivity.
Qed.

(* non-vacuity: a fact with a quoted atom containing a quote and a line break, a list pattern, a list,
   a numeral with leading zeros and two anonymous variables *)
Example C16_nonvacuous :
  front (d "p('it\92;'s\10;', [a,b|T], [c], 007, _, f(_)).") =
    Some [{| c_name := d "p";
             c_args := [SAtom (d "it's\10;"); SPair (SAtom (d "a")) (SPair (SAtom (d "b")) (SVar (d "T")));
                        SList [SAtom (d "c")]; SNum (d "007"); SVar (d "x1"); SFun (d "f") [SVar (d "x2")]];
             c_body := BTrue |}] /\
  num_value (d "007") = 7%N /\
  sden (fun _ => TVar 0) (SPair (SAtom (d "a")) (SPair (SAtom (d "b")) (SVar (d "T")))) =
    TFun (d ".") [TAtom (d "a"); TFun (d ".") [TAtom (d "b"); TVar 0]] /\
  (* the emitted code for [a,b|T] with V_T bound to [c] builds [a,b,c]; to_python gives the Python list *)
  (let r := [(pyvar (d "T"), mk_list [TAtom (d "c")])] in
   let t := SPair (SAtom (d "a")) (SPair (SAtom (d "b")) (SVar (d "T"))) in
   binds r (fun _ => mk_list [TAtom (d "c")]) (sterm_vars t) /\
   eval_expr r (compile_expression t) = mk_list [TAtom (d "a"); TAtom (d "b"); TAtom (d "c")] /\
   lit_py (fun _ => PList [PStr (d "c")]) t = Some (PList [PStr (d "a"); PStr (d "b"); PStr (d "c")]) /\
   to_python 9 [] (eval_expr r (compile_expression t)) = POk (PList [PStr (d "a"); PStr (d "b"); PStr (d "c")])).
Proof.
  split; [vm_compute; reflexivity|]. split; [vm_compute; reflexivity|]. split; [vm_compute; reflexivity|].
  intros r t. split.
  - intros v [<-|[]]. vm_compute. reflexivity.
  - split; [vm_compute; reflexivity|]. split; vm_compute; reflexivity.
Qed.
