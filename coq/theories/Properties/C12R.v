(* C12R - helper check of C12 (Prolog text cannot become Python code): a string written
   with repr() can never escape its quotes.
   Only statements; the lemmas are proved in Comp/PyRepr.v, Comp/PyLex.v and Comp/PyReprSound.v, the example at the
   end by evaluation.
   `printable` (str.isprintable per code point, i.e. the Unicode database) is universally
   quantified; the only fact assumed about it (as an explicit premise, and checked against the
   running interpreter on every run) is that the 2048 surrogate code points are not printable:
     surrogates_unprintable printable := forall c, is_surrogate c = true -> printable c = false.
   valid s = every code point of s is < 0x110000. *)
From Coq Require Import List NArith Bool.
Import ListNotations.
From YP Require Import Base.Str Comp.PyRepr Comp.PyLex Comp.PyReprSound.
Local Open Scope N_scope.

(* The Python lexer, started at a literal written by repr and followed by ANY text, consumes
   exactly the literal and denotes exactly s: nothing in s can close the quote, open an
   escape sequence of its own, or end the line.
   no_triple s rest := s <> [] \/ hd_error rest <> Some 39: Python reads three quotes in a row
   as the opening of a triple-quoted literal, so the empty literal must not be followed directly
   by a single quote (the emitter follows every literal by `)` `,` or `]`). *)
Theorem C12R_repr_cannot_escape : forall printable, surrogates_unprintable printable -> forall s rest,
  valid s -> no_triple s rest ->
  py_lex_string (py_repr printable s ++ rest) = Some (s, rest).
Proof. exact repr_cannot_escape. Qed.
Print Assumptions C12R_repr_cannot_escape.

(* the statement without the side condition is false of Python (witness: repr of the empty
   string followed by a single quote) *)
Theorem C12R_repr_cannot_escape_unconditional_refuted : forall printable,
  exists s rest, valid s /\ py_lex_string (py_repr printable s ++ rest) <> Some (s, rest).
Proof. exact repr_cannot_escape_unconditional_refuted. Qed.
Print Assumptions C12R_repr_cannot_escape_unconditional_refuted.

(* once the tokenizer has decided that the literal is a short one, no side condition *)
Theorem C12R_repr_cannot_escape_short : forall printable, surrogates_unprintable printable -> forall s rest,
  valid s -> py_lex_short (py_repr printable s ++ rest) = Some (s, rest).
Proof. exact repr_cannot_escape_short. Qed.
Print Assumptions C12R_repr_cannot_escape_short.

(* the escaping is safe for EITHER delimiter: the quote choice of repr is cosmetic, safety does not
   depend on it (so a generator that always used one kind of quote with this escaping would be safe too) *)
Theorem C12R_repr_body_any_quote : forall printable, surrogates_unprintable printable -> forall q s rest,
  q = SQ \/ q = DQ -> valid s ->
  lex_body q LNorm (repr_body printable q s ++ q :: rest) = Some (s, rest).
Proof. exact lex_repr_body. Qed.
Print Assumptions C12R_repr_body_any_quote.

(* the literal is followed by some character other than a single quote *)
Theorem C12R_repr_cannot_escape_before : forall printable, surrogates_unprintable printable -> forall c s rest,
  valid s -> c <> SQ ->
  py_lex_string (py_repr printable s ++ c :: rest) = Some (s, c :: rest).
Proof. exact repr_cannot_escape_before. Qed.
Print Assumptions C12R_repr_cannot_escape_before.

(* no literal is a proper prefix of another literal followed by something: the end of a literal
   is determined by the literal alone; in particular repr is injective *)
Theorem C12R_repr_prefix_free : forall printable, surrogates_unprintable printable -> forall s1 s2 r1 r2,
  valid s1 -> valid s2 ->
  py_repr printable s1 ++ r1 = py_repr printable s2 ++ r2 -> s1 = s2 /\ r1 = r2.
Proof. exact repr_prefix_free. Qed.
Print Assumptions C12R_repr_prefix_free.

(* the output contains no line feed and no carriage return (no hypothesis on s at all) *)
Theorem C12R_repr_no_newline : forall printable s,
  Forall (fun x => x <> 10 /\ x <> 13) (py_repr printable s).
Proof. exact repr_no_newline. Qed.
Print Assumptions C12R_repr_no_newline.

(* ... and no other control character *)
Theorem C12R_repr_no_control : forall printable s,
  Forall (fun x => 32 <= x /\ x <> 127) (py_repr printable s).
Proof. exact repr_no_control. Qed.
Print Assumptions C12R_repr_no_control.

(* every code point of the output is printable ASCII or a non-ASCII code point of s that the
   Unicode database calls printable *)
Theorem C12R_repr_output_chars : forall printable s,
  Forall (fun x => (32 <= x < 127) \/ (127 < x /\ printable x = true /\ In x s)) (py_repr printable s).
Proof. exact repr_output_chars. Qed.
Print Assumptions C12R_repr_output_chars.

Theorem C12R_repr_ascii_when_nothing_printable : forall printable s,
  (forall c, In c s -> 127 < c -> printable c = false) ->
  Forall (fun x => 32 <= x < 127) (py_repr printable s).
Proof. exact repr_ascii_when_nothing_printable. Qed.
Print Assumptions C12R_repr_ascii_when_nothing_printable.

(* quote choice: the literal starts and ends with the same quote character, the double quote
   exactly when s contains a single quote and no double quote *)
Theorem C12R_repr_delimited : forall printable s, exists body,
  py_repr printable s = quote_of s :: body ++ [quote_of s] /\ (quote_of s = SQ \/ quote_of s = DQ).
Proof. exact repr_delimited. Qed.
Print Assumptions C12R_repr_delimited.

Theorem C12R_quote_choice : forall s,
  quote_of s = (if in_dec N.eq_dec SQ s then if in_dec N.eq_dec DQ s then SQ else DQ else SQ).
Proof. exact quote_of_spec. Qed.
Print Assumptions C12R_quote_choice.

(* whatever the lexer accepts is a prefix of its input (it never invents or reorders text) *)
Theorem C12R_lex_consumes_prefix : forall input out rest,
  py_lex_string input = Some (out, rest) -> exists lit, input = lit ++ rest /\ (2 <= length lit)%nat.
Proof. exact py_lex_string_suffix. Qed.
Print Assumptions C12R_lex_consumes_prefix.

(* every literal the lexer accepts is  quote, body, the same quote  where the body contains no line
   feed, carriage return, NUL, surrogate or out-of-range code point, and denotes valid code points *)
Theorem C12R_lex_literal_shape : forall input out rest,
  py_lex_string input = Some (out, rest) ->
  exists q body, input = q :: body ++ q :: rest /\ (q = SQ \/ q = DQ) /\
                 Forall (fun c => bad_raw c = false) body /\ Forall (fun c => c < MAXCP) out.
Proof. exact py_lex_string_shape. Qed.
Print Assumptions C12R_lex_literal_shape.

(* in particular an accepted literal never spans lines *)
Theorem C12R_lex_one_line : forall input out rest,
  py_lex_string input = Some (out, rest) ->
  exists lit, input = lit ++ rest /\ Forall (fun c => c <> 10 /\ c <> 13) lit.
Proof. exact py_lex_string_one_line. Qed.
Print Assumptions C12R_lex_one_line.

(* non-vacuity: a hostile string of valid code points (quotes of both kinds, backslash, line feed,
   NUL, U+2028, an astral code point) followed by hostile text; the literal has the expected
   spelling and lexes back to the string *)
Example C12R_nonvacuous :
  let s := [39; 41; 34; 92; 10; 0; 8232; 1114111] in
  let rest := [41; 39] in
  surrogates_unprintable (fun _ => false) /\ valid s /\ no_triple s rest /\
  py_repr (fun _ => false) s = [39; 92;39; 41; 34; 92;92; 92;110; 92;120;48;48; 92;117;50;48;50;56;
                                92;85;48;48;49;48;102;102;102;102; 39] /\
  py_lex_string (py_repr (fun _ => false) s ++ rest) = Some (s, rest).
Proof.
  cbv zeta. split; [|split; [|split; [|split]]].
  - intros c _. reflexivity.
  - repeat constructor.
  - left. discriminate.
  - vm_compute. reflexivity.
  - vm_compute. reflexivity.
Qed.
