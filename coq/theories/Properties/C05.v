(* C05 - cut commits the clause and nothing else.  Statements (each proved by `exact <lemma>` of the layer files) and
   evaluated examples that show them non-vacuous on the model of the compiled code. *)
From Coq Require Import String.
From Coq Require Import List Arith ZArith.
Import ListNotations.
From YP Require Import Base.Str Term.Term Unify.Unify Lang.Ast Comp.IR Comp.CompileBody Comp.CompileClause Comp.CompileTotal
  Sem.Res Sem.RefSem Sem.IRSem Sem.ControlCorrect Sem.Machine Sem.ClauseSem Sem.ProgramCorrect Sem.SpecLemmas Sem.CutBranchSpec.
From YP Require Import Sem.Consumers Sem.Native Sem.NativeChain.
From YP Require Import Sem.UntakenCut.

(* For every clause body (cuts at top level, in branches of a disjunction, in then/else branches; a cut inside
   a condition or under \+ is local to it), for every interpretation of the called goals (all solution counts) and
   whatever the label counter is: the emitted code (for-loops, `return` for cut, the doBreak protocol)
   yields exactly the answers of the reference semantics in order and ends by `return` exactly when the
   reference ends by cut. *)
Theorem C05_cut_code_correct : forall (S : Type) (I : str -> list sterm -> S -> list S * bool)
  (J : expr -> S -> list S * bool) (assign : str -> expr -> S -> S),
  (forall f args s, J (query_expr f args) s = I f args s) ->
  forall n b cnt code cnt',
  comp n b cnt = Some (code, cnt') -> nomark b = true ->
  forall s, (let '(ys, k) := run_function J assign code s in (ys, fin_of_compl k)) = sem I b s.
Proof. exact control_correct_function. Qed.
Print Assumptions C05_cut_code_correct.

(* whole programs: the compiled program computes the clause-level reference semantics, in which ... *)
Theorem C05_compiled_program_computes_reference : forall n p ir,
  compile_program p = Some ir -> good_program p ->
  forall name args s, query n ir name args s = solveA n p name args s.
Proof. exact machine_computes_clause_semantics. Qed.
Print Assumptions C05_compiled_program_computes_reference.

(* ... a cut reached in a clause discards the later clauses of the predicate (the answers so far stay), *)
Theorem C05_cut_prunes_later_clauses : forall call c rest cf ys,
  clause_res call c (clause_enter c cf) = (ys, FCut) -> clausesA call (c :: rest) cf = (ys, FCut).
Proof. exact cut_prunes_later_clauses. Qed.
Print Assumptions C05_cut_prunes_later_clauses.

(* ... while without a cut the later clauses are tried, *)
Theorem C05_no_cut_continues : forall call c rest cf ys,
  clause_res call c (clause_enter c cf) = (ys, FNorm) ->
  clausesA call (c :: rest) cf = (ys ++ fst (clausesA call rest (clause_enter c cf)), snd (clausesA call rest (clause_enter c cf))).
Proof. exact no_cut_continues. Qed.
Print Assumptions C05_no_cut_continues.

(* ... the caller's own alternatives are untouched: a call ends normally (or by an error), never by cut, *)
Theorem C05_cut_local_to_predicate : forall call f args c,
  snd (sem (leafA call) (BCall f args) c) = FNorm \/ snd (sem (leafA call) (BCall f args) c) = FErr.
Proof. exact call_never_cuts. Qed.
Print Assumptions C05_cut_local_to_predicate.

Theorem C05_query_result_after_cut : forall n p name args s c cs ys,
  clauses_for p name (length args) = c :: cs ->
  clausesA (solveA n p) (c :: cs) (bind_args 0 args, s) = (ys, FCut) ->
  solveA (S n) p name args s = (map snd ys, false).
Proof. exact solveA_cut_local. Qed.
Print Assumptions C05_query_result_after_cut.

(* ... and the reference is the textbook one: (A, !), B = the FIRST answer of A continued with ALL
   answers of B (goals right of the cut backtrack normally), after which the clause is cut. *)
Theorem C05_cut_spec_readable : forall (S : Type) (I : str -> list sterm -> S -> list S * bool) A B s,
  sem I (BAnd (BAnd A BCut) B) s =
  match sem I A s with
  | (x :: _, _) => let '(ys, g) := sem I B x in (ys, match g with FNorm => FCut | _ => g end)
  | ([], g) => ([], g)
  end.
Proof. exact cut_spec_readable. Qed.
Print Assumptions C05_cut_spec_readable.

Theorem C05_cut_first : forall (S : Type) (I : str -> list sterm -> S -> list S * bool) B s,
  sem I (BAnd BCut B) s = let '(ys, g) := sem I B s in (ys, match g with FNorm => FCut | _ => g end).
Proof. exact cut_first. Qed.
Print Assumptions C05_cut_first.

(* A cut that is not a top-level goal of the body.  ( A, ! ; B ): the first answer of A only, B is not tried, the
   clause is cut (FCut is what stops the clause loop: C05_cut_prunes_later_clauses); B runs iff A has no answer. *)
Theorem C05_cut_in_disjunction_branch : forall (S : Type) (I : str -> list sterm -> S -> list S * bool) A B s,
  sem I (BOr (BAnd A BCut) B) s =
  match sem I A s with
  | (x :: _, _) => ([x], FCut)
  | ([], FNorm) => sem I B s
  | ([], g) => ([], g)
  end.
Proof. exact cut_in_disjunction_branch. Qed.
Print Assumptions C05_cut_in_disjunction_branch.

(* ( C -> ! ; E ): commit to the first answer of C and cut the clause; E runs iff C has no answer *)
Theorem C05_cut_in_then_branch : forall (S : Type) (I : str -> list sterm -> S -> list S * bool) C E s,
  sem I (BOr (BIf C BCut) E) s =
  match opaque (sem I C s) with
  | (x :: _, _) => ([x], FCut)
  | ([], FNorm) => sem I E s
  | ([], f) => ([], f)
  end.
Proof. exact cut_in_then_branch. Qed.
Print Assumptions C05_cut_in_then_branch.

(* ( C -> T ; ! ): the cut is reached iff C has no answer *)
Theorem C05_cut_in_else_branch : forall (S : Type) (I : str -> list sterm -> S -> list S * bool) C T s,
  sem I (BOr (BIf C T) BCut) s =
  match opaque (sem I C s) with
  | (x :: _, _) => sem I T x
  | ([], FNorm) => ([s], FCut)
  | ([], f) => ([], f)
  end.
Proof. exact cut_in_else_branch. Qed.
Print Assumptions C05_cut_in_else_branch.

(* whatever construct A ended by cut (a cut nested in branches, at any depth), the goals B to its right do not make
   the cut forgotten: the body never ends normally, so the later clauses are never tried, ... *)
Theorem C05_cut_survives_continuation : forall (S : Type) (I : str -> list sterm -> S -> list S * bool) A B s xs,
  sem I A s = (xs, FCut) -> snd (sem I (BAnd A B) s) <> FNorm.
Proof. exact cut_survives_continuation. Qed.
Print Assumptions C05_cut_survives_continuation.

(* ... and the goals to the right still backtrack normally: all their answers, for every answer of A, in order *)
Theorem C05_cut_continuation_backtracks : forall (S : Type) (I : str -> list sterm -> S -> list S * bool) A B s xs,
  sem I A s = (xs, FCut) -> (forall x, In x xs -> snd (sem I B x) = FNorm) ->
  sem I (BAnd A B) s = (flat_map (fun x => fst (sem I B x)) xs, FCut).
Proof. exact cut_continuation_backtracks. Qed.
Print Assumptions C05_cut_continuation_backtracks.

(* non-vacuity:  t(X,Y) :- q(X), !, q(Y).   t(z,z).   q(a). q(b).   gives (a,a), (a,b) only *)
Local Open Scope string_scope.
Definition cut_prog : program :=
  [ {| c_name := d "t"; c_args := [SVar (d "X"); SVar (d "Y")];
       c_body := BAnd (BCall (d "q") [SVar (d "X")]) (BAnd BCut (BCall (d "q") [SVar (d "Y")])) |};
    {| c_name := d "t"; c_args := [SAtom (d "z"); SAtom (d "z")]; c_body := BTrue |};
    {| c_name := d "q"; c_args := [SAtom (d "a")]; c_body := BTrue |};
    {| c_name := d "q"; c_args := [SAtom (d "b")]; c_body := BTrue |} ].
Example C05_nonvacuous :
  good_program cut_prog /\
  exists ir, compile_program cut_prog = Some ir /\
  map (fun x => (den (sto x) (TVar 0), den (sto x) (TVar 1)))
      (fst (query 10 ir (d "t") [TVar 0; TVar 1] {| sto := []; nxt := 2 |}))
  = [(TAtom (d "a"), TAtom (d "a")); (TAtom (d "a"), TAtom (d "b"))].
Proof.
  split.
  - repeat constructor.
  - apply some_such_that. vm_compute. reflexivity.
Qed.

(* non-vacuity of the branch theorems, on the compiled-code model: a cut in a then branch behind a long run of goals, and the
   cut of a recursive predicate's base clause that must not touch the callers' alternatives
     t(X,Y) :- s, s, s, s, s, s, s, s, s, s, s, s, q(X), ( X = a -> ! ; true ), q(Y).   t(z,z).       (a,a), (a,b) only
     r(X,X) :- !.   r(X,Z) :- e(X,Y), r(Y,Z).   e(a,b). e(a,c). e(b,d). e(c,d).      ?- r(a,d)  has two answers *)
Definition conj_of (gs : list body) (last : body) : body := fold_right BAnd last gs.
Definition long_prog : program :=
  [ {| c_name := d "t"; c_args := [SVar (d "X"); SVar (d "Y")];
       c_body := conj_of (repeat (BCall (d "s") []) 12 ++
                          [BCall (d "q") [SVar (d "X")];
                           BOr (BIf (BCall (d "=") [SVar (d "X"); SAtom (d "a")]) BCut) BTrue])
                         (BCall (d "q") [SVar (d "Y")]) |};
    {| c_name := d "t"; c_args := [SAtom (d "z"); SAtom (d "z")]; c_body := BTrue |};
    {| c_name := d "s"; c_args := []; c_body := BTrue |};
    {| c_name := d "q"; c_args := [SAtom (d "a")]; c_body := BTrue |};
    {| c_name := d "q"; c_args := [SAtom (d "b")]; c_body := BTrue |} ].
Definition rec_prog : program :=
  [ {| c_name := d "r"; c_args := [SVar (d "X"); SVar (d "X")]; c_body := BCut |};
    {| c_name := d "r"; c_args := [SVar (d "X"); SVar (d "Z")];
       c_body := BAnd (BCall (d "e") [SVar (d "X"); SVar (d "Y")]) (BCall (d "r") [SVar (d "Y"); SVar (d "Z")]) |};
    {| c_name := d "e"; c_args := [SAtom (d "a"); SAtom (d "b")]; c_body := BTrue |};
    {| c_name := d "e"; c_args := [SAtom (d "a"); SAtom (d "c")]; c_body := BTrue |};
    {| c_name := d "e"; c_args := [SAtom (d "b"); SAtom (d "d")]; c_body := BTrue |};
    {| c_name := d "e"; c_args := [SAtom (d "c"); SAtom (d "d")]; c_body := BTrue |} ].
Example C05_nonvacuous_shapes :
  (exists ir, compile_program long_prog = Some ir /\
     map (fun x => (den (sto x) (TVar 0), den (sto x) (TVar 1)))
         (fst (query 10 ir (d "t") [TVar 0; TVar 1] {| sto := []; nxt := 2 |}))
     = [(TAtom (d "a"), TAtom (d "a")); (TAtom (d "a"), TAtom (d "b"))]) /\
  (exists ir, compile_program rec_prog = Some ir /\
     length (fst (query 10 ir (d "r") [TAtom (d "a"); TAtom (d "d")] {| sto := []; nxt := 0 |})) = 2 /\
     length (fst (query 10 ir (d "r") [TAtom (d "a"); TVar 0] {| sto := []; nxt := 1 |})) = 1).
Proof.
  split.
  - apply some_such_that. vm_compute. reflexivity.
  - apply some_such_that. vm_compute. split; reflexivity.
Qed.

(* The cut flag and the consumer APIs (Sem/Consumers.v).
   A clause that ends in `!` yields True ("this clause committed") and returns; the flag travels through `yield from` up to the
   consumer of the query.  The consumers - plain iteration, evaluate_bounded, list(), next()+close() - do not depend on it: *)

Theorem C05_consumers_ignore_cut_flag : forall (St A : Type) (read : St -> A) (r1 r2 : stream St),
  map fst (fst r1) = map fst (fst r2) -> snd r1 = snd r2 ->
  plain_iteration St A read r1 = plain_iteration St A read r2 /\
  evaluate_bounded St A (fun _ => read) r1 = evaluate_bounded St A (fun _ => read) r2 /\
  length (fst (list_query St r1)) = length (fst (list_query St r2)) /\ snd (list_query St r1) = snd (list_query St r2) /\
  next_then_close St A read r1 = next_then_close St A read r2.
Proof. exact consumers_ignore_flags. Qed.
Print Assumptions C05_consumers_ignore_cut_flag.

Theorem C05_evaluate_bounded_is_plain_iteration : forall (St A : Type) (read : St -> A) (r : stream St),
  evaluate_bounded St A (fun _ => read) r = fst (plain_iteration St A read r).
Proof. exact evaluate_bounded_is_plain_iteration. Qed.
Print Assumptions C05_evaluate_bounded_is_plain_iteration.

(* ... and a consumer that treats the flag as "no more answers" (stops after a flagged answer) delivers everything exactly when no
   flagged answer has a successor; as soon as one has (the caller's own alternatives, a later definition of the chain) it loses
   answers: the cut would discard alternatives that are not its clause's. *)
Theorem C05_cut_flag_is_not_the_end_of_the_query : forall (St A : Type) (proj : bool -> St -> A) (r : stream St),
  evaluate_bounded_stopping St A proj r = evaluate_bounded St A proj r <-> flag_only_last St (fst r).
Proof. exact stopping_complete_iff. Qed.
Print Assumptions C05_cut_flag_is_not_the_end_of_the_query.

Theorem C05_stopping_at_the_cut_flag_loses_answers : forall (St A : Type) (proj : bool -> St -> A) (r : stream St) pre s post,
  fst r = (pre ++ (s, true) :: post)%list -> post <> [] ->
  length (evaluate_bounded_stopping St A proj r) < length (evaluate_bounded St A proj r).
Proof. exact stopping_loses_answers. Qed.
Print Assumptions C05_stopping_at_the_cut_flag_loses_answers.

(* non-vacuity, on the engine with chains of definitions (Sem/NativeChain.v): script 1 `m(a) :- !.`, script 2 `m(b).`, both loaded
   with overwrite=False: the cut commits the definition it belongs to, the query m(X) has the answers a and b; and with a caller
   written in Python that passes the flagged answers of an inner query on inside its own loop (colour(C), first_shape(C,S)) the
   stream [(s1,true); (s2,true); (s3,true)] is cut to one answer by the stopping consumer, while evaluate_bounded delivers three. *)
Definition api_m1 : program := [ {| c_name := d "m"; c_args := [SAtom (d "a")]; c_body := BCut |} ].
Definition api_m2 : program := [ {| c_name := d "m"; c_args := [SAtom (d "b")]; c_body := BTrue |} ].
Definition api_f (p : list clause) : func :=
  {| fn_name := d "m"; fn_arity := 1; fn_body := match compile_clauses p 0 with Some (code, _) => code | None => [] end |}.
Example C05_consumers_nonvacuous :
  (let w := build cempty [OLoad [api_f api_m1] false; OLoad [api_f api_m2] false] in
   c_fix w (d "m") 1 = Some [CIr (api_f api_m1); CIr (api_f api_m2)] /\
   map (fun x => den (sto x) (TVar 0)) (fst (cquery 5 w (d "m") [TVar 0] {| sto := []; nxt := 1 |})) = [TAtom (d "a"); TAtom (d "b")]) /\
  (let r : stream nat := ([(1, true); (2, true); (3, true)], false) in
   evaluate_bounded nat nat (fun _ x => x) r = [1; 2; 3] /\ evaluate_bounded_stopping nat nat (fun _ x => x) r = [1] /\
   ~ flag_only_last nat (fst r)).
Proof.
  split.
  - split; [reflexivity|vm_compute; reflexivity].
  - split; [reflexivity|]. split; [reflexivity|].
    intros H. specialize (H [] (1, true) [(2, true); (3, true)] eq_refl). cbn in H. discriminate H. discriminate.
Qed.

(* A cut that is not reached commits nothing (Sem/UntakenCut.v): reasoning statically about a cut ("the alternative behind a
   branch that ends in a cut is dead code", "the clauses behind a catch-all clause that starts with a cut are unreachable") is
   wrong exactly when the cut is not executed on a call. *)

(* ( (C -> T ; !, E) ; B ): with C answered the cut of the else branch is not reached: T runs and, if it ends normally, B IS tried;
   with C unanswered the cut is reached: E runs, B is not tried *)
Theorem C05_untaken_else_cut : forall (S : Type) (I : str -> list sterm -> S -> list S * bool) C T E B s,
  sem I (BOr (BOr (BIf C T) (BAnd BCut E)) B) s =
  match opaque (sem I C s) with
  | (x :: _, _) => por (sem I T x) (sem I B s)
  | ([], FNorm) => seqr (sem I E) [s] FCut
  | ([], f) => ([], f)
  end.
Proof. exact untaken_else_cut. Qed.
Print Assumptions C05_untaken_else_cut.

Theorem C05_untaken_else_cut_alternative_tried : forall (S : Type) (I : str -> list sterm -> S -> list S * bool) C T E B s x r e ts,
  opaque (sem I C s) = (x :: r, e) -> sem I T x = (ts, FNorm) ->
  sem I (BOr (BOr (BIf C T) (BAnd BCut E)) B) s = (ts ++ fst (sem I B s), snd (sem I B s))%list.
Proof. exact untaken_else_cut_alternative_tried. Qed.
Print Assumptions C05_untaken_else_cut_alternative_tried.

(* the mirror image ( (C -> !, T ; E) ; B ) *)
Theorem C05_untaken_then_cut : forall (S : Type) (I : str -> list sterm -> S -> list S * bool) C T E B s,
  sem I (BOr (BOr (BIf C (BAnd BCut T)) E) B) s =
  match opaque (sem I C s) with
  | (x :: _, _) => seqr (sem I T) [x] FCut
  | ([], FNorm) => por (sem I E s) (sem I B s)
  | ([], f) => ([], f)
  end.
Proof. exact untaken_then_cut. Qed.
Print Assumptions C05_untaken_then_cut.

(* ( (G, !, E) ; B ): B is tried iff G fails *)
Theorem C05_guarded_cut_alternative : forall (S : Type) (I : str -> list sterm -> S -> list S * bool) G E B s,
  sem I (BOr (BAnd G (BAnd BCut E)) B) s =
  match sem I G s with
  | ([], FNorm) => sem I B s
  | ([], g) => ([], g)
  | (x :: _, _) => seqr (sem I E) [x] FCut
  end.
Proof. exact guarded_cut_alternative. Qed.
Print Assumptions C05_guarded_cut_alternative.

(* with a continuation K behind the construct (which the compiler duplicates into the branches) *)
Theorem C05_untaken_else_cut_with_continuation : forall (S : Type) (I : str -> list sterm -> S -> list S * bool) C T E B K s x r e,
  opaque (sem I C s) = (x :: r, e) ->
  sem I (BAnd (BOr (BOr (BIf C T) (BAnd BCut E)) B) K) s = bindr (por (sem I T x) (sem I B s)) (sem I K).
Proof. exact untaken_else_cut_with_continuation. Qed.
Print Assumptions C05_untaken_else_cut_with_continuation.

(* a clause whose head does not match the call is not entered: whatever its body (a neck cut included), the later clauses are tried *)
Theorem C05_head_mismatch_skips_clause : forall call c rest cf,
  head_unify 0 (clause_pos c) (c_args c) (fst (clause_enter c cf)) (snd (clause_enter c cf)) = HFail ->
  clausesA call (c :: rest) cf = clausesA call rest (clause_enter c cf).
Proof. exact head_mismatch_skips_clause. Qed.
Print Assumptions C05_head_mismatch_skips_clause.

Theorem C05_head_mismatch_body_irrelevant : forall call name args b1 b2 rest cf,
  let c1 := {| c_name := name; c_args := args; c_body := b1 |} in
  let c2 := {| c_name := name; c_args := args; c_body := b2 |} in
  clause_fv_body c1 = clause_fv_body c2 ->
  head_unify 0 (clause_pos c1) (c_args c1) (fst (clause_enter c1 cf)) (snd (clause_enter c1 cf)) = HFail ->
  clausesA call (c1 :: rest) cf = clausesA call (c2 :: rest) cf.
Proof. exact head_mismatch_body_irrelevant. Qed.
Print Assumptions C05_head_mismatch_body_irrelevant.

(* non-vacuity on the compiled-code model:
     different(X,X) :- !, fail.   different(_,_).          (the head of clause 1 consists of variables only and does not match (a,b))
     p(X,R) :- ( ( q(X) -> R = t ; !, R = e ) ; R = alt ).   p(_,late).   q(a).
   different(a,b) has one answer, different(a,a) none; p(a,R): t, alt, late (cut not reached); p(b,R): e only (cut reached). *)
Definition different_prog : program :=
  [ {| c_name := d "different"; c_args := [SVar (d "X"); SVar (d "X")]; c_body := BAnd BCut BFail |};
    {| c_name := d "different"; c_args := [SVar (d "x1"); SVar (d "x2")]; c_body := BTrue |} ].
Definition untaken_prog : program :=
  [ {| c_name := d "p"; c_args := [SVar (d "X"); SVar (d "R")];
       c_body := BOr (BOr (BIf (BCall (d "q") [SVar (d "X")]) (BCall (d "=") [SVar (d "R"); SAtom (d "t")]))
                          (BAnd BCut (BCall (d "=") [SVar (d "R"); SAtom (d "e")])))
                     (BCall (d "=") [SVar (d "R"); SAtom (d "alt")]) |};
    {| c_name := d "p"; c_args := [SVar (d "x1"); SAtom (d "late")]; c_body := BTrue |};
    {| c_name := d "q"; c_args := [SAtom (d "a")]; c_body := BTrue |} ].
Example C05_untaken_nonvacuous :
  (exists ir, compile_program different_prog = Some ir /\
     length (fst (query 10 ir (d "different") [TAtom (d "a"); TAtom (d "b")] {| sto := []; nxt := 0 |})) = 1 /\
     length (fst (query 10 ir (d "different") [TAtom (d "a"); TAtom (d "a")] {| sto := []; nxt := 0 |})) = 0) /\
  (exists ir, compile_program untaken_prog = Some ir /\
     map (fun x => den (sto x) (TVar 0)) (fst (query 10 ir (d "p") [TAtom (d "a"); TVar 0] {| sto := []; nxt := 1 |}))
       = [TAtom (d "t"); TAtom (d "alt"); TAtom (d "late")] /\
     map (fun x => den (sto x) (TVar 0)) (fst (query 10 ir (d "p") [TAtom (d "b"); TVar 0] {| sto := []; nxt := 1 |}))
       = [TAtom (d "e")]).
Proof.
  split.
  - apply some_such_that. vm_compute. split; reflexivity.
  - apply some_such_that. vm_compute. split; reflexivity.
Qed.
