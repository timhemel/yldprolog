(* The names of the emitted code (C11 emit_lexemes_valid, C12 emit_names_whitelisted / no_capture).

   For a function of the intermediate code:
     func_loads   the names its emitted text READS (Name nodes in Load context, including the callees)
     func_calls   the names it CALLS
     func_locals  the names it BINDS: parameters arg1..argN, assignment targets, loop variables
                  l<n>, labels cutIf<n>, doBreak, _   (Python: a name bound anywhere in a function
                  body is local to the whole function)
   mirroring Emit.v statement by statement.

   Proved for everything compile_program produces:
     every called name is one of the 7 API functions; every read name is an API global or a local;
     every local is  V_<source variable> | arg<n> | l<n> | cutIf<n> | doBreak | _  and none of these
     is a Python keyword, a Python constant, an engine API name, or another local form - so a Prolog
     variable can never capture an engine name or a name the generated code uses for itself. *)
From Coq Require Import String.
From Coq Require Import List Arith Bool NArith Lia.
Import ListNotations.
From YP Require Import Base.Str Lang.Ast Comp.IR Comp.CompileBody Comp.CompileClause Comp.Emit Comp.EmitShape.
From YP Require Engine.Resolve Engine.Keys.
Local Open Scope string_scope.
Local Open Scope list_scope.

Definition api_calls : list str := map s_ ["query"; "unify"; "atom"; "functor"; "listpair"; "makelist"; "variable"].
Definition api_globals : list str := api_calls ++ [ATOM_NIL].
Definition DOBREAK : str := s_ "doBreak".
Definition UNDERSCORE : str := s_ "_".
Definition loopvar (n : nat) : str := s_ "l" ++ dec_of_nat n.

(* Python 3.12: keywords, soft keywords other than _, the constant names, and the engine's API names
   (Engine/Resolve.v api_names = the default eval_context = eval_blacklist) *)
Definition python_reserved : list str := map s_
  ["False"; "None"; "True"; "and"; "as"; "assert"; "async"; "await"; "break"; "class"; "continue"; "def"; "del"; "elif"; "else";
   "except"; "finally"; "for"; "from"; "global"; "if"; "import"; "in"; "is"; "lambda"; "nonlocal"; "not"; "or"; "pass"; "raise";
   "return"; "try"; "while"; "with"; "yield"; "match"; "case"; "type"; "__debug__"; "__builtins__"; "__import__"; "__name__"].
Definition reserved_names : list str := python_reserved ++ Resolve.api_names ++ api_globals.

Fixpoint expr_loads (e : expr) : list str :=
  match e with
  | EVar x => [x]
  | EStr _ | ENum _ => []
  | ECall f args => f :: flat_map expr_loads args
  | EList items => flat_map expr_loads items
  end.

Fixpoint expr_calls (e : expr) : list str :=
  match e with
  | ECall f args => f :: flat_map expr_calls args
  | EList items => flat_map expr_calls items
  | _ => []
  end.

Fixpoint stmt_loads (st : stmt) : list str :=
  match st with
  | SAssign _ e => expr_loads e
  | SForeach it body => expr_loads it ++ DOBREAK :: flat_map stmt_loads body        (* for ..: body; if doBreak: break *)
  | SBlock l body => label_name l :: DOBREAK :: flat_map stmt_loads body            (* if cutIf<l>: ..; if doBreak: break *)
  | _ => []
  end.

Fixpoint stmt_calls (st : stmt) : list str :=
  match st with
  | SAssign _ e => expr_calls e
  | SForeach it body => expr_calls it ++ flat_map stmt_calls body
  | SBlock _ body => flat_map stmt_calls body
  | _ => []
  end.

Fixpoint stmt_stores (lv : nat) (st : stmt) : list str :=
  match st with
  | SAssign x _ => [x]
  | SForeach _ body => loopvar (S lv) :: flat_map (stmt_stores (S lv)) body
  | SBlock l body => label_name l :: DOBREAK :: UNDERSCORE :: flat_map (stmt_stores lv) body
  | SBreakBlock l => [label_name l; DOBREAK]
  | _ => []
  end.

Definition func_loads (f : func) : list str := flat_map stmt_loads (fn_body f).
Definition func_calls (f : func) : list str := flat_map stmt_calls (fn_body f).
Definition func_locals (f : func) : list str :=
  arg_names 0 (fn_arity f) ++ DOBREAK :: UNDERSCORE :: flat_map (stmt_stores 0) (fn_body f).

Fixpoint strip_prefix (pre x : str) : option str :=
  match pre, x with
  | [], _ => Some x
  | c :: pr, d :: xr => if N.eqb c d then strip_prefix pr xr else None
  | _ :: _, [] => None
  end.

Lemma strip_prefix_app pre s : strip_prefix pre (pre ++ s) = Some s.
Proof. induction pre as [|c r IH]; simpl; [reflexivity|]. rewrite N.eqb_refl. exact IH. Qed.

Definition numbered (pre x : str) : bool :=
  match strip_prefix pre x with Some r => Keys.digits_ok r | None => false end.

Lemma numbered_dec pre n : numbered pre (pre ++ dec_of_nat n) = true.
Proof. unfold numbered. rewrite strip_prefix_app. apply Keys.dec_of_nat_digits. Qed.

Definition is_pyvar (x : str) : bool := match strip_prefix (s_ "V_") x with Some _ => true | None => false end.

(* V_... | arg<digits> | l<digits> | cutIf<digits> | doBreak | _      (the regular expression of the check) *)
Definition local_form (x : str) : bool :=
  is_pyvar x || numbered (s_ "arg") x || numbered (s_ "l") x || numbered (s_ "cutIf") x || str_eqb x DOBREAK || str_eqb x UNDERSCORE.

Lemma local_pyvar v : local_form (pyvar v) = true.
Proof. unfold local_form, is_pyvar, pyvar. rewrite strip_prefix_app. reflexivity. Qed.
Lemma local_argvar i : local_form (argvar i) = true.
Proof. unfold local_form, argvar. rewrite numbered_dec. rewrite orb_true_r. reflexivity. Qed.
Lemma local_loopvar n : local_form (loopvar n) = true.
Proof. unfold local_form, loopvar. rewrite (numbered_dec (s_ "l")). rewrite !orb_true_r. reflexivity. Qed.
Lemma local_label l : local_form (label_name l) = true.
Proof. unfold local_form, label_name. rewrite (numbered_dec (s_ "cutIf")). rewrite !orb_true_r. reflexivity. Qed.
Lemma local_dobreak : local_form DOBREAK = true.
Proof. reflexivity. Qed.
Lemma local_underscore : local_form UNDERSCORE = true.
Proof. reflexivity. Qed.

(* no reserved name has the form of a local *)
Lemma reserved_not_local : forallb (fun r => negb (local_form r)) reserved_names = true.
Proof. vm_compute. reflexivity. Qed.

Lemma local_not_reserved x : local_form x = true -> ~ In x reserved_names.
Proof.
  intros H Hin. pose proof reserved_not_local as R. rewrite forallb_forall in R.
  specialize (R x Hin). rewrite H in R. discriminate.
Qed.

Lemma strip_prefix_some pre x r : strip_prefix pre x = Some r -> x = pre ++ r.
Proof.
  revert x; induction pre as [|c p IH]; intros x H; simpl in *; [injection H as ->; reflexivity|].
  destruct x as [|d xr]; [discriminate|]. destruct (N.eqb_spec c d) as [->|]; [|discriminate].
  f_equal. apply IH. exact H.
Qed.

Lemma pyvar_not_generated v :
  (forall i, pyvar v <> argvar i) /\ (forall n, pyvar v <> loopvar n) /\ (forall l, pyvar v <> label_name l) /\
  pyvar v <> DOBREAK /\ pyvar v <> UNDERSCORE.
Proof.
  (* V_.. starts with V, the generated names do not *)
  assert (V : forall x, pyvar v = x -> hd_error x = Some 86%N) by (intros x <-; reflexivity).
  repeat split; intros; intros E; apply V in E; discriminate E.
Qed.

Lemma arg_names_form k n x : In x (arg_names k n) -> exists i, x = argvar i /\ k <= i < k + n.
Proof.
  revert k; induction n as [|n IH]; intros k H; simpl in H; [tauto|].
  destruct H as [<-|H]; [exists k; split; [reflexivity | lia]|].
  destruct (IH _ H) as [i [-> Hi]]. exists i. split; [reflexivity | lia].
Qed.

Lemma arg_names_In k n i : k <= i < k + n -> In (argvar i) (arg_names k n).
Proof.
  revert k; induction n as [|n IH]; intros k H; simpl; [lia|].
  destruct (Nat.eq_dec k i) as [->|Hne]; [left; reflexivity | right; apply IH; lia].
Qed.

(* the name is one of the listed ones: by evaluating the membership test *)
Ltac in_api := apply mem_str_In; reflexivity.

Section Names.
  Variable P : kstr -> Prop.
  Variable A : nat.

  Definition term_load_ok (x : str) : Prop := In x api_globals \/ exists v, P (KVar, v) /\ x = pyvar v.

  Lemma term_expr_loads e : term_expr P e -> Forall term_load_ok (expr_loads e).
  Proof.
    intros H. induction H as [a Ha|v Hv|f es Hf IH|d Hd| |es IH|h t IHh IHt] using term_expr_ind;
      cbn [expr_loads flat_map app]; rewrite ?app_nil_r.
    - constructor; [left; in_api | constructor].
    - constructor; [right; eauto | constructor].
    - constructor; [left; in_api | apply Forall_flat_map; exact IH].
    - constructor.
    - constructor; [left; in_api | constructor].
    - constructor; [left; in_api | apply Forall_flat_map; exact IH].
    - constructor; [left; in_api | apply Forall_app; split; assumption].
  Qed.

  Lemma term_expr_calls e : term_expr P e -> Forall (fun x => In x api_calls) (expr_calls e).
  Proof.
    intros H. induction H as [a Ha|v Hv|f es Hf IH|d Hd| |es IH|h t IHh IHt] using term_expr_ind;
      cbn [expr_calls flat_map app]; rewrite ?app_nil_r.
    - constructor; [in_api | constructor].
    - constructor.
    - constructor; [in_api | apply Forall_flat_map; exact IH].
    - constructor.
    - constructor.
    - constructor; [in_api | apply Forall_flat_map; exact IH].
    - constructor; [in_api | apply Forall_app; split; assumption].
  Qed.

  (* a read name is an API global, a source variable, a parameter, doBreak, or a label bound by the same statement *)
  Definition load_ok (x : str) : Prop :=
    In x api_globals \/ (exists v, P (KVar, v) /\ x = pyvar v) \/ (exists i, i < A /\ x = argvar i) \/ x = DOBREAK.

  Lemma term_load_ok_load x : term_load_ok x -> load_ok x.
  Proof. intros [H|H]; [left | right; left]; exact H. Qed.

  Lemma body_loads lv body (stores : list str) :
    Forall (fun st => forall lv, Forall (fun x => load_ok x \/ In x (stmt_stores lv st)) (stmt_loads st)) body ->
    (forall x, In x (flat_map (stmt_stores lv) body) -> In x stores) ->
    Forall (fun x => load_ok x \/ In x stores) (flat_map stmt_loads body).
  Proof.
    intros IH Hsub. apply Forall_flat_map. apply Forall_forall. intros st Hst.
    rewrite Forall_forall in IH. eapply Forall_impl; [|apply (IH st Hst lv)].
    intros x [Hx|Hx]; [left; exact Hx|]. right. apply Hsub. apply in_flat_map. eauto.
  Qed.

  Lemma stmt_ok_loads st : stmt_ok P A st -> forall lv, Forall (fun x => load_ok x \/ In x (stmt_stores lv st)) (stmt_loads st).
  Proof.
    intros H. induction H as [v i Hv Hi|v Hv|f args body Hf Ha Hb IH|i a body Hi Ha Hb IH| | | |l body Hb IH|l] using stmt_ok_ind';
      intros lv; cbn [stmt_loads stmt_stores expr_loads flat_map app]; rewrite ?app_nil_r; try constructor.
    - left. right. right. left. eauto.
    - constructor.
    - left. left. in_api.
    - constructor.
    - left. left. in_api.
    - apply Forall_app. split.
      + apply Forall_flat_map. eapply Forall_impl; [|exact Ha].
        intros e He. eapply Forall_impl; [|apply term_expr_loads; exact He]. intros x Hx. left. apply term_load_ok_load, Hx.
      + constructor; [left; right; right; right; reflexivity|]. apply (body_loads (S lv)); [exact IH|]. intros x Hx. right. exact Hx.
    - left. left. in_api.
    - constructor; [left; right; right; left; eauto|]. apply Forall_app. split.
      + eapply Forall_impl; [|apply term_expr_loads; exact Ha]. intros x Hx. left. apply term_load_ok_load, Hx.
      + constructor; [left; right; right; right; reflexivity|]. apply (body_loads (S lv)); [exact IH|]. intros x Hx. right. exact Hx.
    - right. left. reflexivity.
    - constructor; [left; right; right; right; reflexivity|]. apply (body_loads lv); [exact IH|]. intros x Hx. right. right. right. exact Hx.
  Qed.

  Lemma stmt_ok_calls st : stmt_ok P A st -> Forall (fun x => In x api_calls) (stmt_calls st).
  Proof.
    intros H. induction H as [v i Hv Hi|v Hv|f args body Hf Ha Hb IH|i a body Hi Ha Hb IH| | | |l body Hb IH|l] using stmt_ok_ind';
      cbn [stmt_calls expr_calls flat_map app]; rewrite ?app_nil_r; try constructor.
    - in_api.
    - constructor.
    - in_api.
    - apply Forall_app. split; [|apply Forall_flat_map; exact IH].
      apply Forall_flat_map. eapply Forall_impl; [|exact Ha]. exact term_expr_calls.
    - in_api.
    - apply Forall_app. split; [apply term_expr_calls; exact Ha | apply Forall_flat_map; exact IH].
    - apply Forall_flat_map. exact IH.
  Qed.

  (* a bound name is a source variable with the prefix, a loop variable, a label, doBreak or _ *)
  Definition store_ok (x : str) : Prop :=
    (exists v, P (KVar, v) /\ x = pyvar v) \/ (exists n, x = loopvar n) \/ (exists l, x = label_name l) \/ x = DOBREAK \/ x = UNDERSCORE.

  Lemma body_stores lv body : Forall (fun st => forall lv, Forall store_ok (stmt_stores lv st)) body ->
    Forall store_ok (flat_map (stmt_stores lv) body).
  Proof. intros IH. apply Forall_flat_map. eapply Forall_impl; [|exact IH]. intros st Hst. apply Hst. Qed.

  Lemma stmt_ok_stores st : stmt_ok P A st -> forall lv, Forall store_ok (stmt_stores lv st).
  Proof.
    intros H. induction H as [v i Hv Hi|v Hv|f args body Hf Ha Hb IH|i a body Hi Ha Hb IH| | | |l body Hb IH|l] using stmt_ok_ind';
      intros lv; cbn [stmt_stores]; try constructor.
    - left. eauto.
    - constructor.
    - left. eauto.
    - constructor.
    - right. left. eauto.
    - apply body_stores. exact IH.
    - right. left. eauto.
    - apply body_stores. exact IH.
    - right. right. left. eauto.
    - constructor; [right; right; right; left; reflexivity|]. constructor; [right; right; right; right; reflexivity|].
      apply body_stores. exact IH.
    - right. right. left. eauto.
    - constructor; [right; right; right; left; reflexivity | constructor].
  Qed.
End Names.

Lemma assigned_stores st : forall lv x, In x (stmt_assigned st) -> In x (stmt_stores lv st).
Proof.
  induction st as [y e|it body IH| | | |l body IH|l] using stmt_ind'; intros lv x H; simpl in *; try tauto.
  - right. apply in_flat_map in H. destruct H as [s [Hs Hx]]. apply in_flat_map. exists s. split; [exact Hs|].
    rewrite Forall_forall in IH. apply IH; assumption.
  - right. right. right. apply in_flat_map in H. destruct H as [s [Hs Hx]]. apply in_flat_map. exists s. split; [exact Hs|].
    rewrite Forall_forall in IH. apply IH; assumption.
Qed.


(* EMIT_NAMES_WHITELISTED.  In every function the compiler produces, every name that is called is one
   of the 7 API functions, and every name that is read is an API global (the 7 functions and ATOM_NIL) or
   is bound in the same function - in particular every Prolog variable that is used is assigned there. *)
Theorem names_whitelisted p f : func_shape p f ->
  (forall x, In x (func_calls f) -> In x api_calls) /\
  (forall x, In x (func_loads f) -> In x api_globals \/ In x (func_locals f)).
Proof.
  intros [cs [Hi [Hk [Hok Hdecl]]]]. unfold func_ok in Hok. split.
  - apply Forall_forall. apply Forall_flat_map. eapply Forall_impl; [|exact Hok]. apply stmt_ok_calls.
  - intros x Hx. apply in_flat_map in Hx. destruct Hx as [s [Hs Hx]].
    rewrite Forall_forall in Hok. pose proof (stmt_ok_loads _ _ s (Hok s Hs) 0) as L.
    rewrite Forall_forall in L. unfold func_locals. rewrite in_app_iff.
    destruct (L x Hx) as [[H|[[v [Hv ->]]|[[i [Hlt ->]] | -> ]]] | H].
    + left. exact H.
    + right. right. right. right.
      specialize (Hdecl v Hv). apply in_flat_map in Hdecl. destruct Hdecl as [s' [Hs' Hx']].
      apply in_flat_map. exists s'. split; [exact Hs' | apply assigned_stores; exact Hx'].
    + right. left. apply arg_names_In. lia.
    + right. right. left. reflexivity.
    + right. right. right. right. apply in_flat_map. eauto.
Qed.

(* NO_CAPTURE.  Every name bound in a function the compiler produces has one of the forms
   V_<source variable> | arg<i> (i < arity) | l<n> | cutIf<n> | doBreak | _ ; no such name is a Python keyword or
   constant, an engine API name, or a whitelisted global: a Prolog variable, whatever it is called in the source,
   can never shadow a name that the generated code or the engine relies on; and a V_ name is never one of the
   generated locals. *)
Theorem locals_forms p f : func_shape p f ->
  forall x, In x (func_locals f) ->
    (exists v, In (KVar, v) (program_strs p) /\ x = pyvar v) \/ (exists i, i < fn_arity f /\ x = argvar i) \/
    (exists n, x = loopvar n) \/ (exists l, x = label_name l) \/ x = DOBREAK \/ x = UNDERSCORE.
Proof.
  intros [cs [Hi [Hk [Hok Hdecl]]]] x Hx. unfold func_ok in Hok.
  unfold func_locals in Hx. apply in_app_iff in Hx. destruct Hx as [Hx|[<-|[<-|Hx]]]; [| tauto | tauto |].
  - apply arg_names_form in Hx. destruct Hx as [i [-> Hlt]]. right. left. exists i. split; [lia | reflexivity].
  - assert (S : Forall (store_ok (inl_ (flat_map clause_strs cs))) (flat_map (stmt_stores 0) (fn_body f))).
    { apply Forall_flat_map. eapply Forall_impl; [|exact Hok]. intros s Hs. apply (stmt_ok_stores _ _ s Hs). }
    rewrite Forall_forall in S. destruct (S x Hx) as [[v [Hv ->]]|[H|[H|[H|H]]]]; try tauto.
    left. exists v. split; [|reflexivity]. unfold inl_ in Hv. unfold program_strs.
    apply in_flat_map in Hv. destruct Hv as [c [Hc Hv]]. apply in_flat_map. exists c. split; [apply Hi; exact Hc | exact Hv].
Qed.

Theorem no_capture p f : func_shape p f ->
  forall x, In x (func_locals f) -> local_form x = true /\ ~ In x reserved_names.
Proof.
  intros Hf x Hx. assert (L : local_form x = true).
  { destruct (locals_forms p f Hf x Hx) as [[v [_ ->]]|[[i [_ ->]]|[[n ->]|[[l ->] | [ -> | -> ]]]]].
    - apply local_pyvar. - apply local_argvar. - apply local_loopvar. - apply local_label. - reflexivity. - reflexivity. }
  split; [exact L | apply local_not_reserved; exact L].
Qed.
