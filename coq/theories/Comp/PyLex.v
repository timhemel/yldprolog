(* The Python lexer for SHORT string literals (one line, one quote character on each side),
   restricted to the escape sequences that repr() produces.

     py_lex_string input = Some (denoted string, rest of the input)   or None (no short
     string literal of the modelled sub-language starts here).

   What CPython's tokenizer + string-literal decoder do and this model restates:
     * the literal starts with a single or a double quote; THREE equal quotes open a
       triple-quoted literal (so two quotes followed by a third are NOT the empty string:
       the model answers None, "not a short literal");
     * the literal ends at the first unescaped occurrence of the opening quote;
     * a raw line feed, a raw carriage return (the tokenizer reads source with universal
       newlines), a raw NUL (CPython 3.12 rejects source text with null bytes), a raw surrogate
       code point (source text must be encodable as UTF-8; the ESCAPE \ud800 is fine) or the
       end of the input inside the literal is an error;
     * backslash followed by: backslash, single quote, double quote -> that character;
       n r t -> LF CR TAB;  x + 2 hex digits, u + 4, U + 8 -> that code point (either case of
       hex digits; a value above 0x10ffff is an error, as is a missing digit).
   Deliberately NOT modelled (the model answers None = error, which is conservative: the
   theorem in PyReprSound.v shows that repr() never produces them): the escapes
   a b f v, octal, N{name}, backslash-newline, and unknown escapes (which CPython keeps
   verbatim with a SyntaxWarning); string prefixes (r b u f).  The correspondence check
   compares this lexer with CPython's own tokenizer/ast on random literal-like texts: whenever
   the model answers Some, CPython must lex exactly the same literal and denote the same string. *)
From Coq Require Import List NArith Bool Lia.
Import ListNotations.
From YP Require Import Base.Str Comp.PyRepr.
Local Open Scope N_scope.

Definition unhex_digit (c : N) : option N :=
  if (48 <=? c) && (c <=? 57) then Some (c - 48)
  else if (97 <=? c) && (c <=? 102) then Some (c - 87)
  else if (65 <=? c) && (c <=? 70) then Some (c - 55)
  else None.

(* lexer state inside the literal *)
Inductive lstate :=
| LNorm                               (* ordinary position *)
| LEsc                                (* just after a backslash *)
| LHex (more : nat) (acc : N).        (* in a hex escape: `more` digits follow the next one *)

Definition MAXCP : N := 1114112.      (* 0x110000 *)

Definition is_surrogate (c : N) : bool := (55296 <=? c) && (c <=? 57343).   (* U+D800..U+DFFF *)

(* raw code points that cannot occur inside a short literal *)
Definition bad_raw (c : N) : bool :=
  (c =? 10) || (c =? 13) || (c =? 0) || is_surrogate c || (MAXCP <=? c).

Definition cons_res (c : N) (r : option (str * str)) : option (str * str) :=
  match r with Some (s, rest) => Some (c :: s, rest) | None => None end.

Fixpoint lex_body (q : N) (st : lstate) (s : str) : option (str * str) :=
  match s with
  | [] => None                                            (* end of input inside the literal *)
  | c :: r =>
      match st with
      | LNorm =>
          if c =? q then Some ([], r)
          else if c =? BS then lex_body q LEsc r
          else if bad_raw c then None
          else cons_res c (lex_body q LNorm r)
      | LEsc =>
          if (c =? BS) || (c =? SQ) || (c =? DQ) then cons_res c (lex_body q LNorm r)
          else if c =? 110 then cons_res 10 (lex_body q LNorm r)
          else if c =? 114 then cons_res 13 (lex_body q LNorm r)
          else if c =? 116 then cons_res 9 (lex_body q LNorm r)
          else if c =? 120 then lex_body q (LHex 1 0) r
          else if c =? 117 then lex_body q (LHex 3 0) r
          else if c =? 85 then lex_body q (LHex 7 0) r
          else None
      | LHex more acc =>
          match unhex_digit c with
          | None => None
          | Some v =>
              let acc' := acc * 16 + v in
              match more with
              | O => if acc' <? MAXCP then cons_res acc' (lex_body q LNorm r) else None
              | S more' => lex_body q (LHex more' acc') r
              end
          end
      end
  end.

(* short literal without the triple-quote rule (the rule the tokenizer applies once it
   knows that the literal is a short one) *)
Definition py_lex_short (input : str) : option (str * str) :=
  match input with
  | q :: r => if (q =? SQ) || (q =? DQ) then lex_body q LNorm r else None
  | [] => None
  end.

Definition opens_triple (input : str) : bool :=
  match input with
  | q :: q1 :: q2 :: _ => (q1 =? q) && (q2 =? q)
  | _ => false
  end.

Definition py_lex_string (input : str) : option (str * str) :=
  if opens_triple input then None else py_lex_short input.

Lemma unhex_hexdigit v : v < 16 -> unhex_digit (hexdigit v) = Some v.
Proof.
  intros Hv. unfold hexdigit, unhex_digit.
  destruct (N.ltb_spec v 10) as [H|H].
  - replace ((48 <=? 48 + v) && (48 + v <=? 57)) with true.
    + f_equal. lia.
    + symmetry. apply andb_true_iff. split; apply N.leb_le; lia.
  - replace ((48 <=? 87 + v) && (87 + v <=? 57)) with false.
    + replace ((97 <=? 87 + v) && (87 + v <=? 102)) with true.
      * f_equal. lia.
      * symmetry. apply andb_true_iff. split; apply N.leb_le; lia.
    + symmetry. apply andb_false_iff. right. apply N.leb_gt. lia.
Qed.

Lemma py_lex_string_short input r : py_lex_string input = Some r -> py_lex_short input = Some r.
Proof. unfold py_lex_string. destruct (opens_triple input); [discriminate | auto]. Qed.

Lemma unhex_digit_range c v : unhex_digit c = Some v -> 48 <= c <= 102.
Proof.
  unfold unhex_digit. intros H.
  assert (R : forall a b, (a <=? c) && (c <=? b) = true -> a <= c <= b).
  { intros a b E. apply andb_true_iff in E. destruct E as [A B]. apply N.leb_le in A, B. split; assumption. }
  destruct ((48 <=? c) && (c <=? 57)) eqn:E1; [apply R in E1; lia|].
  destruct ((97 <=? c) && (c <=? 102)) eqn:E2; [apply R in E2; lia|].
  destruct ((65 <=? c) && (c <=? 70)) eqn:E3; [apply R in E3; lia|].
  discriminate.
Qed.

Lemma unhex_digit_ok c v : unhex_digit c = Some v -> bad_raw c = false.
Proof.
  intros H. apply unhex_digit_range in H. unfold bad_raw, is_surrogate, MAXCP.
  destruct (N.eqb_spec c 10); [lia|]. destruct (N.eqb_spec c 13); [lia|]. destruct (N.eqb_spec c 0); [lia|].
  destruct (N.leb_spec 55296 c); [lia|]. destruct (N.leb_spec 1114112 c); [lia|]. reflexivity.
Qed.

(* Whatever the lexer accepts has the form  body ++ quote :: rest  where no code point of the body
   is a line break, NUL, a surrogate or out of range (so an accepted literal never spans lines),
   and the denoted string consists of valid code points. *)
Definition lit_shape (q : N) (s out rest : str) : Prop :=
  exists body, s = body ++ q :: rest /\ Forall (fun c => bad_raw c = false) body /\
               Forall (fun c => c < MAXCP) out.

Lemma lit_shape_skip q c s out rest : bad_raw c = false -> lit_shape q s out rest -> lit_shape q (c :: s) out rest.
Proof.
  intros Hc [body [-> [Hb Ho]]]. exists (c :: body). split; [reflexivity|]. split; [constructor; assumption | exact Ho].
Qed.

Lemma lit_shape_cons q x s out rest : x < MAXCP -> lit_shape q s out rest -> lit_shape q s (x :: out) rest.
Proof. intros Hx [body [E [Hb Ho]]]. exists body. split; [exact E|]. split; [exact Hb | constructor; assumption]. Qed.

Lemma lex_body_shape q : forall s st out rest, lex_body q st s = Some (out, rest) -> lit_shape q s out rest.
Proof.
  induction s as [|c r IH]; intros st out rest H; cbn [lex_body] in H; [discriminate|].
  assert (Hcons : forall x st', bad_raw c = false -> x < MAXCP ->
             cons_res x (lex_body q st' r) = Some (out, rest) -> lit_shape q (c :: r) out rest).
  { intros x st' Hc Hx Hr. destruct (lex_body q st' r) as [[o' r']|] eqn:E; cbn in Hr; [|discriminate].
    inversion Hr; subst. apply lit_shape_skip; [exact Hc|]. apply lit_shape_cons; [exact Hx|]. exact (IH _ _ _ E). }
  assert (Hstep : forall st', bad_raw c = false -> lex_body q st' r = Some (out, rest) -> lit_shape q (c :: r) out rest).
  { intros st' Hc E. apply lit_shape_skip; [exact Hc | exact (IH _ _ _ E)]. }
  destruct st as [| |more acc].
  - destruct (N.eqb_spec c q) as [->|Hq].
    { inversion H; subst. exists []. split; [reflexivity|]. split; constructor. }
    destruct (N.eqb_spec c BS) as [->|Hb]; [apply (Hstep LEsc); [reflexivity | exact H]|].
    destruct (bad_raw c) eqn:Eb; [discriminate|].
    apply (Hcons c LNorm); auto.
    unfold bad_raw in Eb. apply orb_false_iff in Eb. destruct Eb as [_ Eb]. apply N.leb_gt in Eb. exact Eb.
  - destruct ((c =? BS) || (c =? SQ) || (c =? DQ)) eqn:E0.
    { assert (Hc : c = BS \/ c = SQ \/ c = DQ).
      { apply orb_true_iff in E0. destruct E0 as [E0|E0]; [apply orb_true_iff in E0; destruct E0 as [E0|E0]|];
          apply N.eqb_eq in E0; auto. }
      apply (Hcons c LNorm); auto; destruct Hc as [->|[->| ->]]; reflexivity. }
    destruct (N.eqb_spec c 110) as [->|_]; [apply (Hcons 10 LNorm); auto; reflexivity|].
    destruct (N.eqb_spec c 114) as [->|_]; [apply (Hcons 13 LNorm); auto; reflexivity|].
    destruct (N.eqb_spec c 116) as [->|_]; [apply (Hcons 9 LNorm); auto; reflexivity|].
    destruct (N.eqb_spec c 120) as [->|_]; [apply (Hstep (LHex 1 0)); auto|].
    destruct (N.eqb_spec c 117) as [->|_]; [apply (Hstep (LHex 3 0)); auto|].
    destruct (N.eqb_spec c 85) as [->|_]; [apply (Hstep (LHex 7 0)); auto|].
    discriminate.
  - destruct (unhex_digit c) as [v|] eqn:Eu; [|discriminate].
    pose proof (unhex_digit_ok _ _ Eu) as Hc.
    destruct more as [|more'].
    + destruct (N.ltb_spec (acc * 16 + v) MAXCP) as [Hlt|]; [|discriminate].
      apply (Hcons (acc * 16 + v) LNorm); auto.
    + apply (Hstep (LHex more' (acc * 16 + v))); auto.
Qed.

Theorem py_lex_string_shape input out rest :
  py_lex_string input = Some (out, rest) ->
  exists q body, input = q :: body ++ q :: rest /\ (q = SQ \/ q = DQ) /\
                 Forall (fun c => bad_raw c = false) body /\ Forall (fun c => c < MAXCP) out.
Proof.
  intros H. apply py_lex_string_short in H. unfold py_lex_short in H.
  destruct input as [|q r]; [discriminate|].
  destruct ((q =? SQ) || (q =? DQ)) eqn:Eq; [|discriminate].
  destruct (lex_body_shape _ _ _ _ _ H) as [body [-> [Hb Ho]]].
  exists q, body. split; [reflexivity|]. split; [|split; assumption].
  apply orb_true_iff in Eq. destruct Eq as [E|E]; apply N.eqb_eq in E; auto.
Qed.

(* the lexer consumes a prefix of its input: input = consumed ++ rest *)
Corollary py_lex_string_suffix input out rest :
  py_lex_string input = Some (out, rest) -> exists lit, input = lit ++ rest /\ (2 <= length lit)%nat.
Proof.
  intros H. destruct (py_lex_string_shape _ _ _ H) as [q [body [-> _]]].
  exists (q :: body ++ [q]). split.
  - cbn [app]. rewrite <- app_assoc. reflexivity.
  - cbn [length]. rewrite app_length. cbn [length]. lia.
Qed.

Corollary py_lex_string_one_line input out rest :
  py_lex_string input = Some (out, rest) ->
  exists lit, input = lit ++ rest /\ Forall (fun c => c <> 10 /\ c <> 13) lit.
Proof.
  intros H. destruct (py_lex_string_shape _ _ _ H) as [q [body [-> [Hq [Hb _]]]]].
  exists (q :: body ++ [q]). split.
  - cbn [app]. rewrite <- app_assoc. reflexivity.
  - assert (Hqq : q <> 10 /\ q <> 13) by (destruct Hq; subst; split; discriminate).
    constructor; [exact Hqq|]. apply Forall_app. split; [|constructor; [exact Hqq | constructor]].
    eapply Forall_impl; [|exact Hb]. intros c Hc. cbv beta in Hc. unfold bad_raw in Hc.
    repeat (apply orb_false_iff in Hc; destruct Hc as [Hc ?]).
    apply N.eqb_neq in Hc. split; [exact Hc|]. apply N.eqb_neq. assumption.
Qed.
