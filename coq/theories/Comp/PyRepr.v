(* CPython 3.12 repr() of a str object (Objects/unicodeobject.c, unicode_repr), as an
   executable function over code-point strings.

   This is a MODEL of the substrate: the generator writes every Prolog atom / string that
   reaches the emitted Python text as `repr(text)` (yp_generator.py, generate_expr).  The
   function below restates what unicode_repr does, in the same order of tests:

     first pass   count single and double quotes;
     quote        the single quote, unless the string contains a single quote and no
                  double quote: then the double quote;
     second pass  per code point ch:
                    ch == quote or ch == backslash -> backslash, ch
                    TAB, LF, CR                    -> \t \n \r
                    ch < 0x20 or ch == 0x7f        -> \xhh
                    ch < 0x7f                      -> ch
                    Py_UNICODE_ISPRINTABLE(ch)     -> ch
                    ch <= 0xff                     -> \xhh
                    ch <= 0xffff                   -> \uhhhh
                    otherwise                      -> \Uhhhhhhhh      (lowercase hex digits)

   Py_UNICODE_ISPRINTABLE (the Unicode database: str.isprintable per code point) is the
   Section variable `printable`; nothing is assumed about it.  The correspondence check
   (harness/props/c12repr.py) compares py_repr with the running interpreter's repr() on
   every generated string, with `printable` instantiated by a finite table built from
   str.isprintable for the code points of the case. *)
From Coq Require Import List NArith Bool Lia.
Import ListNotations.
From YP Require Import Base.Str.
Local Open Scope N_scope.

(* Py_hexdigits[v]: 0123456789abcdef *)
Definition hexdigit (v : N) : N := if v <? 10 then 48 + v else 87 + v.

(* k hexadecimal digits of c, most significant first:
   hexdigits[(c >> 4*(k-1)) & 15] ... hexdigits[c & 15] *)
Fixpoint hexN (k : nat) (c : N) : str :=
  match k with
  | O => []
  | S k' => hexdigit ((c / 16 ^ N.of_nat k') mod 16) :: hexN k' c
  end.

Fixpoint count (c : N) (s : str) : N :=
  match s with
  | [] => 0
  | x :: r => (if x =? c then 1 else 0) + count c r
  end.

Definition SQ : N := 39.   (* single quote *)
Definition DQ : N := 34.   (* double quote *)
Definition BS : N := 92.   (* backslash *)

(* quote = SQ; if (squote) { if (dquote) (keep SQ and escape them) else quote = DQ; } *)
Definition quote_of (s : str) : N :=
  if 0 <? count SQ s then (if 0 <? count DQ s then SQ else DQ) else SQ.

Section Repr.
  Variable printable : N -> bool.

  Definition repr_char (q c : N) : str :=
    if (c =? q) || (c =? BS) then [BS; c]
    else if c =? 9 then [BS; 116]                       (* \t *)
    else if c =? 10 then [BS; 110]                      (* \n *)
    else if c =? 13 then [BS; 114]                      (* \r *)
    else if (c <? 32) || (c =? 127) then BS :: 120 :: hexN 2 c     (* \xhh *)
    else if c <? 127 then [c]
    else if printable c then [c]
    else if c <=? 255 then BS :: 120 :: hexN 2 c        (* \xhh *)
    else if c <=? 65535 then BS :: 117 :: hexN 4 c      (* \uhhhh *)
    else BS :: 85 :: hexN 8 c.                          (* \Uhhhhhhhh *)

  Definition repr_body (q : N) (s : str) : str := flat_map (repr_char q) s.

  Definition py_repr (s : str) : str :=
    let q := quote_of s in q :: repr_body q s ++ [q].
End Repr.

Lemma quote_of_cases s : quote_of s = SQ \/ quote_of s = DQ.
Proof. unfold quote_of. destruct (0 <? count SQ s), (0 <? count DQ s); auto. Qed.

Lemma count_pos_In c s : 0 < count c s <-> In c s.
Proof.
  induction s as [|x r IH]; cbn [count In].
  - split; [lia | tauto].
  - destruct (N.eqb_spec x c) as [->|Hne].
    + split; [auto | lia].
    + rewrite N.add_0_l, IH. split; [auto | intros [H|H]; [congruence | exact H]].
Qed.

(* the quote choice, as a specification: double quotes exactly when the text contains a
   single quote and no double quote *)
Lemma quote_of_spec s :
  quote_of s = (if in_dec N.eq_dec SQ s then if in_dec N.eq_dec DQ s then SQ else DQ else SQ).
Proof.
  unfold quote_of.
  destruct (N.ltb_spec 0 (count SQ s)) as [Hs|Hs]; destruct (in_dec N.eq_dec SQ s) as [Is|Is];
    try (apply count_pos_In in Hs; tauto); try (apply count_pos_In in Is; lia); try reflexivity.
  destruct (N.ltb_spec 0 (count DQ s)) as [Hd|Hd]; destruct (in_dec N.eq_dec DQ s) as [Id|Id];
    try (apply count_pos_In in Hd; tauto); try (apply count_pos_In in Id; lia); reflexivity.
Qed.

Lemma hexdigit_range v : v < 16 -> (48 <= hexdigit v <= 57) \/ (97 <= hexdigit v <= 102).
Proof. unfold hexdigit. intros Hv. destruct (N.ltb_spec v 10); lia. Qed.

Lemma hexN_length k c : length (hexN k c) = k.
Proof. induction k as [|k IH]; cbn [hexN length]; congruence. Qed.

Lemma hexN_chars k c : Forall (fun x => (48 <= x <= 57) \/ (97 <= x <= 102)) (hexN k c).
Proof.
  induction k as [|k IH]; cbn [hexN]; constructor; [|exact IH].
  apply hexdigit_range. apply N.mod_lt. lia.
Qed.
