(* C11: the line structure of the emitted module and the lexical classes of its lexemes.

   emit_lines repr ir (EmitPieces.v) is the list of lines of emit_program (emit_program = the lines
   joined by "\n", by definition).
     toplevel_defs      the lines that are not empty, not indented and not a `#` comment are exactly one
                        `def <name>_<arity>(arg1,...,argN):` per function of the code, in order
     function_frame     every function is: def line, `doBreak = False`, `for _ in [1]:`, a NON-EMPTY
                        body of lines indented at least two levels, `if False:`, `yield False`
     def_names_distinct different head keys give different def names (the key can be read back)
     lines_one_line     no line contains a line break (so the lines of the text are these lines), for
                        lexically well-formed programs: variable names [A-Za-z0-9_]+, numerals [0-9]+,
                        clause-head names [A-Za-z_][A-Za-z0-9_]* - what the lexer and the head-name
                        test of the visitor guarantee
     lexemes            str(int(digits)) is a canonical decimal; V_<var> and <name>_<arity> are ASCII
                        Python identifiers; V_<var> has the form of a local and is not reserved *)
From Coq Require Import String.
From Coq Require Import List Arith Bool NArith Lia.
Import ListNotations.
From YP Require Import Base.Str Lang.Ast Lang.Lexer Lang.Unquote Comp.IR Comp.CompileBody Comp.CompileClause Comp.Emit
  Comp.EmitShape Comp.EmitNames Comp.EmitPieces Comp.PyRepr Comp.PyReprSound.
From YP Require Engine.Resolve Engine.Keys.
Local Open Scope string_scope.
Local Open Scope list_scope.

Definition is_top (l : str) : bool :=
  match l with [] => false | c :: _ => negb (N.eqb c 32) && negb (N.eqb c 35) end.

Definition def_name (k : key) : str := fst k ++ s_ "_" ++ dec_of_nat (snd k).
Definition def_line (k : key) : str :=
  s_ "def " ++ def_name k ++ s_ "(" ++ join (s_ ",") (arg_names 0 (snd k)) ++ s_ "):".

Lemma ind_S_not_top j s : is_top (ind (S j) s) = false.
Proof. reflexivity. Qed.

(* a line indented at least k levels *)
Definition at_least (k : nat) (l : str) : Prop := exists i s, k <= i /\ l = ind i s.

Lemma at_least_not_top k l : at_least (S k) l -> is_top l = false.
Proof. intros [i [s [Hk ->]]]. destruct i; [lia | reflexivity]. Qed.

Lemma at_least_mono k k' l : k' <= k -> at_least k l -> at_least k' l.
Proof. intros Hk [i [s [Hi ->]]]. exists i, s. split; [lia | reflexivity]. Qed.

Lemma at_least_ind k i s : k <= i -> at_least k (ind i s).
Proof. intros H. exists i, s. split; [exact H | reflexivity]. Qed.

Ltac al := apply at_least_ind; lia.

Section Lines.
Variable repr : str -> str.

Lemma emit_list_at_least c : Forall (fun st => forall i lv, Forall (at_least i) (emit_stmt repr st i lv)) c ->
  forall i lv, Forall (at_least i) (emit_list repr c i lv).
Proof.
  induction 1 as [|st r Hst _ IH]; intros i lv; [constructor|].
  cbn [emit_list]. apply Forall_app. split; [apply Hst | apply IH].
Qed.

Lemma break_code_at_least i : Forall (at_least i) (break_code i).
Proof. repeat constructor; al. Qed.

Lemma body_at_least c i lv : Forall (fun st => forall i lv, Forall (at_least i) (emit_stmt repr st i lv)) c ->
  Forall (at_least i) (emit_list repr c (S i) lv).
Proof.
  intros IH. eapply Forall_impl; [|apply (emit_list_at_least c IH (S i) lv)].
  intros a Ha. eapply at_least_mono; [|exact Ha]. lia.
Qed.

Lemma emit_stmt_at_least st : forall i lv, Forall (at_least i) (emit_stmt repr st i lv).
Proof.
  induction st as [x e|it body IH| | | |l body IH|l] using stmt_ind'; intros i lv;
    try (repeat constructor; al).
  - rewrite emit_stmt_foreach. constructor; [al|]. apply Forall_app. split; [|apply break_code_at_least].
    destruct body as [|b0 br]; [repeat constructor; al | apply body_at_least; exact IH].
  - rewrite emit_stmt_block. constructor; [al|]. apply Forall_app. split.
    + destruct body as [|b0 br]; [constructor|]. constructor; [al | apply body_at_least; exact IH].
    + constructor; [al|]. constructor; [al|]. apply break_code_at_least.
Qed.

Lemma emit_stmt_nonempty st i lv : emit_stmt repr st i lv <> [].
Proof. destruct st; discriminate. Qed.

(* FUNCTION_FRAME: def line, doBreak = False, the wrapper loop, a NON-EMPTY body indented at least two
   levels, and the trailing `if False: yield False` that makes the function a generator function *)
Theorem function_frame f : exists body,
  emit_function repr f =
    def_line (fn_key f) :: ind 1 (s_ "doBreak = False") :: ind 1 (s_ "for _ in [1]:") :: body
    ++ [ind 1 (s_ "if False:"); ind 3 (s_ "yield False")] /\
  body <> [] /\ Forall (at_least 2) body.
Proof.
  unfold emit_function.
  exists (match fn_body f with [] => [ind 2 (s_ "pass")] | b0 :: br => emit_list repr (b0 :: br) 2 0 end).
  split.
  { apply (f_equal2 cons); [|reflexivity]. unfold def_line, def_name, fn_key. cbn [fst snd]. rewrite <- !app_assoc. reflexivity. }
  destruct (fn_body f) as [|b0 br] eqn:E.
  - split; [discriminate|]. repeat constructor. al.
  - split.
    + cbn [emit_list]. intros H. apply app_eq_nil in H. destruct H as [H _]. exact (emit_stmt_nonempty _ _ _ H).
    + apply emit_list_at_least. apply Forall_forall. intros st _. apply emit_stmt_at_least.
Qed.

Lemma emit_function_top f : filter is_top (emit_function repr f ++ [[]]) = [def_line (fn_key f)].
Proof.
  destruct (function_frame f) as [body [-> [_ Hb]]].
  assert (Hf : filter is_top body = []).
  { induction Hb as [|l r Hl _ IH]; [reflexivity|]. simpl. rewrite (at_least_not_top 1 l Hl). exact IH. }
  cbn [filter app]. change (is_top (def_line (fn_key f))) with true. cbn [ind is_top]. 
  rewrite <- app_assoc, filter_app, Hf. reflexivity.
Qed.

Lemma toplevel_funs l : filter is_top (flat_map (fun f => emit_function repr f ++ [[]]) l) = map (fun f => def_line (fn_key f)) l.
Proof.
  induction l as [|f r IH]; [reflexivity|]. cbn [flat_map map]. rewrite filter_app, emit_function_top, IH. reflexivity.
Qed.

(* TOPLEVEL_DEFS: apart from comment lines, empty lines and indented lines the module consists of
   exactly one def line per function of the code, in order *)
Theorem toplevel_defs p : filter is_top (emit_lines repr p) = map (fun f => def_line (fn_key f)) p.
Proof.
  unfold emit_lines. rewrite !filter_app. change (filter is_top header) with (@nil str). change (filter is_top [[]]) with (@nil str).
  cbn [app]. destruct p as [|f0 fr]; [reflexivity|]. apply toplevel_funs.
Qed.
End Lines.

(* the def name is the engine's context key '<name>_<arity>' (Engine/Resolve.v mkkey): it determines
   name and arity, and is never an API name *)
Lemma def_name_mkkey k : def_name k = Resolve.mkkey (fst k) (Resolve.AFix (snd k)).
Proof. reflexivity. Qed.

Theorem def_name_inj k1 k2 : def_name k1 = def_name k2 -> k1 = k2.
Proof.
  rewrite !def_name_mkkey. intros H. apply Keys.mkkey_inj in H. destruct H as [H1 H2].
  destruct k1, k2. simpl in *. injection H2 as ->. subst. reflexivity.
Qed.

Theorem def_names_distinct p : NoDup (map def_name (head_keys p)).
Proof.
  destruct (head_keys_spec p) as [Hnd _]. induction Hnd as [|k r Hk _ IH]; [constructor|].
  simpl. constructor; [|exact IH]. intros H. apply in_map_iff in H. destruct H as [k' [He Hin]].
  apply def_name_inj in He. subst. contradiction.
Qed.

Theorem def_name_not_api k : ~ In (def_name k) Resolve.api_names.
Proof. rewrite def_name_mkkey. apply Keys.mkkey_not_api. Qed.

(* what the lexer guarantees about variable names and numerals (VARIABLE: (UCLETTER|'_') CHARACTER*, anonymous variables
   are x<n>; NUMERAL: DIGIT+), and the visitor about clause-head names (D12) *)
Definition chars_ok (w : str) : bool := match w with [] => false | _ => forallb is_character w end.
Definition kstr_lex_ok (x : kstr) : bool :=
  match x with (KVar, v) => chars_ok v | (KNum, d) => Keys.digits_ok d | (KAtom, _) => true end.
Definition lexical_ok (p : program) : bool :=
  forallb kstr_lex_ok (program_strs p) && forallb (fun c => valid_pred_name (c_name c)) p.

Lemma forallb_imp {A} (f g : A -> bool) w : (forall c, f c = true -> g c = true) -> forallb f w = true -> forallb g w = true.
Proof.
  intros H. induction w as [|c r IH]; simpl; [auto|]. intros E. apply andb_true_iff in E. destruct E as [E1 E2].
  rewrite (H c E1), (IH E2). reflexivity.
Qed.

Lemma digit_character c : Keys.is_digit c = true -> is_character c = true.
Proof. unfold Keys.is_digit, is_character, is_digit. intros ->. apply orb_true_r. Qed.

Lemma digits_ok_chars w : Keys.digits_ok w = true -> forallb is_character w = true.
Proof. unfold Keys.digits_ok. destruct w; [discriminate|]. apply forallb_imp. exact digit_character. Qed.

(* str(int(digits)) is a canonical decimal: digits only, no leading zero unless it is "0" *)
Definition canonical_dec (w : str) : bool :=
  Keys.digits_ok w && (str_eqb w [48%N] || negb (N.eqb (hd 0%N w) 48)).

Lemma strip_zeros_cons c r : strip_zeros (c :: r) =
  if N.eqb c 48 then match r with [] => [c] | _ => strip_zeros r end else c :: r.
Proof.
  destruct (N.eqb_spec c 48) as [->|Hne]; [destruct r; reflexivity|].
  destruct c as [|pc]; [reflexivity|]. simpl. destruct pc as [pc|pc|]; try reflexivity.
  repeat (destruct pc as [pc|pc|]; try reflexivity). congruence.
Qed.

Theorem strip_zeros_canonical d : Keys.digits_ok d = true -> canonical_dec (strip_zeros d) = true.
Proof.
  induction d as [|c r IH]; [discriminate|]. intros H. rewrite strip_zeros_cons.
  destruct (N.eqb c 48) eqn:E.
  - destruct r as [|c2 r2]; [apply N.eqb_eq in E; subst; reflexivity|].
    apply IH. unfold Keys.digits_ok in *. simpl in H. apply andb_true_iff in H. apply H.
  - unfold canonical_dec. rewrite H. simpl. rewrite E. apply orb_true_r.
Qed.

Lemma strip_zeros_forallb f d : forallb f d = true -> forallb f (strip_zeros d) = true.
Proof.
  induction d as [|c r IH]; [auto|]. intros H. rewrite strip_zeros_cons.
  destruct (N.eqb c 48); [|exact H].
  destruct r as [|c2 r2]; [exact H|]. apply IH. simpl in H. apply andb_true_iff in H. apply H.
Qed.

(* V_<variable> and <name>_<arity> are ASCII Python identifiers: a letter or underscore, then letters, digits, underscores *)
Theorem pyvar_identifier v : chars_ok v = true -> valid_pred_name (pyvar v) = true.
Proof. unfold chars_ok, pyvar. destruct v; [discriminate|]. intros H. simpl in *. exact H. Qed.

Theorem def_name_identifier k : valid_pred_name (fst k) = true -> valid_pred_name (def_name k) = true.
Proof.
  unfold def_name. destruct (fst k) as [|c r]; [discriminate|]. simpl. intros H. apply andb_true_iff in H. destruct H as [H1 H2].
  rewrite H1. simpl. rewrite forallb_app, H2. simpl.
  apply (digits_ok_chars _ (Keys.dec_of_nat_digits (snd k))).
Qed.

Definition safe_char (c : N) : bool := negb (N.eqb c 10) && negb (N.eqb c 13).
Definition no_nlb (w : str) : bool := forallb safe_char w.

Lemma character_safe c : is_character c = true -> safe_char c = true.
Proof.
  unfold is_character, is_lc, is_uc, is_digit, safe_char. intros H.
  destruct (N.eqb_spec c 10) as [->|]; [discriminate|]. destruct (N.eqb_spec c 13) as [->|]; [discriminate|]. reflexivity.
Qed.

Lemma chars_safe w : forallb is_character w = true -> no_nlb w = true.
Proof. apply forallb_imp. exact character_safe. Qed.

Lemma identifier_safe w : valid_pred_name w = true -> no_nlb w = true.
Proof.
  destruct w as [|c r]; [discriminate|]. cbn [valid_pred_name]. intros H. apply andb_true_iff in H. destruct H as [H1 H2].
  apply chars_safe. cbn [forallb]. apply andb_true_iff. split; [unfold is_character; rewrite H1; reflexivity | exact H2].
Qed.

Lemma vocab_safe : forallb no_nlb vocab = true.
Proof. vm_compute. reflexivity. Qed.

Lemma fixed_safe w : fixed_ok w = true -> no_nlb w = true.
Proof.
  unfold fixed_ok. intros H. apply orb_true_iff in H. destruct H as [H|H]; [apply orb_true_iff in H; destruct H as [H|H]; [apply orb_true_iff in H; destruct H as [H|H]|]|].
  - apply existsb_exists in H. destruct H as [x [Hx He]]. apply str_eqb_eq in He. subst.
    pose proof vocab_safe as V. rewrite forallb_forall in V. apply V. exact Hx.
  - unfold all_blank in H. eapply forallb_imp; [|exact H]. intros c Hc. apply N.eqb_eq in Hc. subst. reflexivity.
  - apply chars_safe, digits_ok_chars, H.
  - unfold numbered in H. destruct (strip_prefix (s_ "arg") w) as [r|] eqn:E; [|discriminate].
    apply strip_prefix_some in E. subst. unfold no_nlb. rewrite forallb_app. apply andb_true_iff. split; [reflexivity|].
    apply chars_safe, digits_ok_chars, H.
Qed.

Lemma no_nlb_spec w : no_nlb w = true <-> Forall (fun c => c <> 10%N /\ c <> 13%N) w.
Proof.
  unfold no_nlb. rewrite forallb_forall, Forall_forall. unfold safe_char. split; intros H c Hc; specialize (H c Hc).
  - apply andb_true_iff in H. destruct H as [H1 H2]. apply negb_true_iff in H1, H2. apply N.eqb_neq in H1, H2. tauto.
  - destruct H as [H1 H2]. apply N.eqb_neq in H1, H2. rewrite H1, H2. reflexivity.
Qed.

Section OneLine.
  Variable printable : N -> bool.
  Variable p : program.
  Hypothesis Hlex : lexical_ok p = true.

  Lemma lex_strs x : In x (program_strs p) -> kstr_lex_ok x = true.
  Proof. unfold lexical_ok in Hlex. apply andb_true_iff in Hlex. destruct Hlex as [H _]. rewrite forallb_forall in H. apply H. Qed.

  Lemma lex_keys k : In k (head_keys p) -> valid_pred_name (fst k) = true.
  Proof.
    intros H. apply (proj2 (head_keys_spec p)) in H. apply in_map_iff in H. destruct H as [c [<- Hc]].
    unfold lexical_ok in Hlex. apply andb_true_iff in Hlex. destruct Hlex as [_ H2]. rewrite forallb_forall in H2. apply H2. exact Hc.
  Qed.

  Lemma render_safe pc : piece_ok (inl_ (program_strs p)) (fun k => In k (head_keys p)) pc ->
    no_nlb (render (py_repr printable) pc) = true.
  Proof.
    destruct pc as [w|s|d|v|f n]; cbn [render piece_ok]; intros H.
    - apply fixed_safe. exact H.
    - apply no_nlb_spec. apply repr_no_newline.
    - apply strip_zeros_forallb. apply lex_strs in H. apply chars_safe, digits_ok_chars, H.
    - apply lex_strs in H. apply identifier_safe, pyvar_identifier, H.
    - apply lex_keys in H. apply identifier_safe. exact (def_name_identifier (f, n) H).
  Qed.

  (* LINES_ONE_LINE: no line of the emitted text contains a line feed or carriage return *)
  Theorem lines_one_line ir : compile_program p = Some ir ->
    Forall (fun l => Forall (fun c => c <> 10%N /\ c <> 13%N) l) (emit_lines (py_repr printable) ir).
  Proof.
    intros H. rewrite <- pieces_erasure. pose proof (pieces_ok p ir H) as Hok.
    apply Forall_map. eapply Forall_impl; [|exact Hok]. clear Hok. intros pl Hok. apply no_nlb_spec. unfold no_nlb, flat.
    induction Hok as [|pc r Hpc _ IH]; [reflexivity|]. cbn [flat_map]. rewrite forallb_app.
    apply andb_true_iff. split; [apply render_safe; exact Hpc | exact IH].
  Qed.
End OneLine.

(* splitting the text at line feeds gives back the lines *)
Fixpoint split_nl_acc (acc : str) (s : str) : list str :=
  match s with
  | [] => [rev acc]
  | c :: r => if N.eqb c 10 then rev acc :: split_nl_acc [] r else split_nl_acc (c :: acc) r
  end.
Definition split_nl (s : str) : list str := split_nl_acc [] s.

Lemma split_nl_acc_app acc l rest : Forall (fun c => c <> 10%N) l ->
  split_nl_acc acc (l ++ rest) = split_nl_acc (rev l ++ acc) rest.
Proof.
  revert acc. induction l as [|c r IH]; intros acc H; [reflexivity|]. inversion H; subst.
  simpl. destruct (N.eqb_spec c 10); [contradiction|]. rewrite IH by assumption. rewrite <- app_assoc. reflexivity.
Qed.

Theorem split_join ls : ls <> [] -> Forall (Forall (fun c => c <> 10%N)) ls -> split_nl (join [10%N] ls) = ls.
Proof.
  unfold split_nl. intros Hne H. induction ls as [|l r IH]; [contradiction|]. inversion H; subst.
  destruct r as [|l2 r2].
  - simpl. rewrite <- (app_nil_r l) at 1. rewrite split_nl_acc_app by assumption. simpl. rewrite app_nil_r, rev_involutive. reflexivity.
  - change (join [10%N] (l :: l2 :: r2)) with (l ++ [10%N] ++ join [10%N] (l2 :: r2)).
    rewrite split_nl_acc_app by assumption. simpl. rewrite app_nil_r, rev_involutive. f_equal. apply IH; [discriminate | assumption].
Qed.
