(* What the compiler can produce: a structural characterisation of the intermediate code
   that compile_expression / comp (compile_body) / compile_clause / compile_program build.

   Every string of the source program that reaches the intermediate code does so in one of
   four kinds of position, three of them in statements (`kind`), and nothing else of the code
   depends on source text:
     KAtom  an atom, functor name or goal name  -> EStr s        (emitted as repr(s))
     KNum   a numeral                           -> ENum digits   (emitted as str(int(digits)))
     KVar   a variable name                     -> EVar / SAssign target  pyvar v = "V_" ++ v
     (the fourth, the clause-head name, is the fn_name of the function record)
   All other identifiers of the code are fixed (query unify atom functor listpair makelist
   variable ATOM_NIL) or numbered by the compiler (arg<i>, and in the emitter l<n>, cutIf<n>). *)
From Coq Require Import String.
From Coq Require Import List Arith Bool NArith Lia Setoid.
Import ListNotations.
From YP Require Import Base.Str Lang.Ast Comp.IR Comp.CompileBody Comp.CompileClause Comp.CompileTotal.
Local Open Scope string_scope.
Local Open Scope list_scope.

Section ExprInd.
  Variable P : expr -> Prop.
  Hypothesis Hv : forall x, P (EVar x).
  Hypothesis Hs : forall s, P (EStr s).
  Hypothesis Hn : forall n, P (ENum n).
  Hypothesis Hc : forall f args, Forall P args -> P (ECall f args).
  Hypothesis Hl : forall items, Forall P items -> P (EList items).
  Fixpoint expr_ind' (e : expr) : P e :=
    let go := fix go (l : list expr) : Forall P l :=
      match l with [] => Forall_nil P | x :: r => Forall_cons x (expr_ind' x) (go r) end in
    match e with
    | EVar x => Hv x | EStr s => Hs s | ENum n => Hn n
    | ECall f args => Hc f args (go args)
    | EList items => Hl items (go items)
    end.
End ExprInd.

Section StmtInd.
  Variable P : stmt -> Prop.
  Hypothesis Ha : forall x e, P (SAssign x e).
  Hypothesis Hf : forall it body, Forall P body -> P (SForeach it body).
  Hypothesis Hyf : P SYieldFalse.
  Hypothesis Hyt : P SYieldTrue.
  Hypothesis Hr : P SReturn.
  Hypothesis Hb : forall l body, Forall P body -> P (SBlock l body).
  Hypothesis Hbb : forall l, P (SBreakBlock l).
  Fixpoint stmt_ind' (st : stmt) : P st :=
    let go := fix go (l : list stmt) : Forall P l :=
      match l with [] => Forall_nil P | x :: r => Forall_cons x (stmt_ind' x) (go r) end in
    match st with
    | SAssign x e => Ha x e
    | SForeach it body => Hf it body (go body)
    | SYieldFalse => Hyf | SYieldTrue => Hyt | SReturn => Hr
    | SBlock l body => Hb l body (go body)
    | SBreakBlock l => Hbb l
    end.
End StmtInd.

Inductive kind := KVar | KAtom | KNum.
Definition kstr := (kind * str)%type.

Fixpoint sterm_strs (t : sterm) : list kstr :=
  match t with
  | SAtom a => [(KAtom, a)]
  | SNum n => [(KNum, n)]
  | SVar v => [(KVar, v)]
  | SFun f args => (KAtom, f) :: flat_map sterm_strs args
  | SList items => flat_map sterm_strs items
  | SPair h t => sterm_strs h ++ sterm_strs t
  end.

Fixpoint body_strs (b : body) : list kstr :=
  match b with
  | BTrue | BFail | BCut | BMark _ => []
  | BCall f args => (KAtom, f) :: flat_map sterm_strs args
  | BAnd a b | BOr a b | BIf a b => body_strs a ++ body_strs b
  | BNot a => body_strs a
  end.

Definition clause_strs (c : clause) : list kstr := flat_map sterm_strs (c_args c) ++ body_strs (c_body c).
Definition program_strs (p : program) : list kstr := flat_map clause_strs p.

Definition kvars (l : list kstr) : list str :=
  flat_map (fun x => match x with (KVar, v) => [v] | _ => [] end) l.

Lemma kvars_app a b : kvars (a ++ b) = kvars a ++ kvars b.
Proof. apply flat_map_app. Qed.

Lemma kvars_flat_map {X} (f : X -> list kstr) g l :
  Forall (fun x => g x = kvars (f x)) l -> flat_map g l = kvars (flat_map f l).
Proof.
  induction 1 as [|x r Hx _ IH]; [reflexivity|]. cbn [flat_map]. rewrite kvars_app, Hx, IH. reflexivity.
Qed.

Lemma In_kvars v l : In v (kvars l) <-> In (KVar, v) l.
Proof.
  unfold kvars. rewrite in_flat_map. split.
  - intros [[[] w] [Hx Hv]]; try contradiction. destruct Hv as [->|[]]. exact Hx.
  - intros H. exists (KVar, v). split; [exact H|left; reflexivity].
Qed.

Lemma sterm_vars_strs t : sterm_vars t = kvars (sterm_strs t).
Proof.
  induction t as [a|n|w|f args IH|items IH|h t IHh IHt] using sterm_ind'; cbn [sterm_vars sterm_strs]; try reflexivity.
  - apply (kvars_flat_map sterm_strs). exact IH.
  - apply (kvars_flat_map sterm_strs). exact IH.
  - rewrite kvars_app, IHh, IHt. reflexivity.
Qed.

Lemma args_vars_strs args v : In v (flat_map sterm_vars args) <-> In (KVar, v) (flat_map sterm_strs args).
Proof.
  rewrite (kvars_flat_map sterm_strs sterm_vars args); [apply In_kvars|].
  apply Forall_forall. intros t _. apply sterm_vars_strs.
Qed.

Lemma body_vars_kvars b : body_vars b = kvars (body_strs b).
Proof.
  induction b as [f args| | | |l|a IHa b IHb|a IHa b IHb|a IHa b IHb|a IHa]; cbn [body_vars body_strs];
    rewrite ?kvars_app, ?IHa, ?IHb; try reflexivity.
  apply (kvars_flat_map sterm_strs). apply Forall_forall. intros t _. apply sterm_vars_strs.
Qed.

Lemma body_vars_strs b v : In v (body_vars b) <-> In (KVar, v) (body_strs b).
Proof. rewrite body_vars_kvars. apply In_kvars. Qed.

Definition ATOM_NIL : str := s_ "ATOM_NIL".

Section Shape.
  Variable P : kstr -> Prop.       (* the strings of the source that may occur *)

  (* the image of compile_expression on terms over the allowed strings *)
  Definition term_expr (e : expr) : Prop := exists t, e = compile_expression t /\ Forall P (sterm_strs t).

  Variable A : nat.                (* arity of the function: arg1 .. argA are its parameters *)

  Inductive stmt_ok : stmt -> Prop :=
  | so_alias v i : P (KVar, v) -> i < A -> stmt_ok (SAssign (pyvar v) (EVar (argvar i)))
  | so_decl v : P (KVar, v) -> stmt_ok (SAssign (pyvar v) (ECall (s_ "variable") []))
  | so_query f args body : P (KAtom, f) -> Forall term_expr args -> Forall stmt_ok body ->
      stmt_ok (SForeach (ECall (s_ "query") [EStr f; EList args]) body)
  | so_unify i a body : i < A -> term_expr a -> Forall stmt_ok body ->
      stmt_ok (SForeach (ECall (s_ "unify") [EVar (argvar i); a]) body)
  | so_yf : stmt_ok SYieldFalse
  | so_yt : stmt_ok SYieldTrue
  | so_ret : stmt_ok SReturn
  | so_block l body : Forall stmt_ok body -> stmt_ok (SBlock l body)
  | so_break l : stmt_ok (SBreakBlock l).
End Shape.

Section TermExprInd.
  Variable P : kstr -> Prop.
  Variable Q : expr -> Prop.
  Hypothesis Hatom : forall a, P (KAtom, a) -> Q (ECall (s_ "atom") [EStr a]).
  Hypothesis Hvar : forall v, P (KVar, v) -> Q (EVar (pyvar v)).
  Hypothesis Hfun : forall f es, P (KAtom, f) -> Forall Q es -> Q (ECall (s_ "functor") [EStr f; EList es]).
  Hypothesis Hnum : forall d, P (KNum, d) -> Q (ENum d).
  Hypothesis Hnil : Q (EVar ATOM_NIL).
  Hypothesis Hlist : forall es, Forall Q es -> Q (ECall (s_ "makelist") [EList es]).
  Hypothesis Hpair : forall h t, Q h -> Q t -> Q (ECall (s_ "listpair") [h; t]).

  Lemma term_expr_ind e : term_expr P e -> Q e.
  Proof.
    intros [t [-> Ht]].
    assert (Sub : forall ts, Forall (fun t => Forall P (sterm_strs t) -> Q (compile_expression t)) ts ->
              Forall P (flat_map sterm_strs ts) -> Forall Q (map compile_expression ts)).
    { intros ts IH Hts. apply Forall_flat_map in Hts. apply Forall_map.
      induction IH as [|x r Hx _ IHr]; [constructor|].
      constructor; [apply Hx; exact (Forall_inv Hts) | apply IHr; exact (Forall_inv_tail Hts)]. }
    induction t as [a|n|w|f args IH|items IH|h t IHh IHt] using sterm_ind'; cbn [compile_expression sterm_strs] in *.
    - apply Hatom. exact (Forall_inv Ht).
    - apply Hnum. exact (Forall_inv Ht).
    - apply Hvar. exact (Forall_inv Ht).
    - apply Hfun; [exact (Forall_inv Ht) | apply (Sub args IH); exact (Forall_inv_tail Ht)].
    - destruct items as [|i0 ir]; [exact Hnil|]. apply Hlist. apply (Sub _ IH). exact Ht.
    - apply Forall_app in Ht. apply Hpair; [apply IHh | apply IHt]; tauto.
  Qed.
End TermExprInd.

Section StmtOkInd.
  Variable P : kstr -> Prop.
  Variable A : nat.
  Variable Q : stmt -> Prop.
  Hypothesis Halias : forall v i, P (KVar, v) -> i < A -> Q (SAssign (pyvar v) (EVar (argvar i))).
  Hypothesis Hdecl : forall v, P (KVar, v) -> Q (SAssign (pyvar v) (ECall (s_ "variable") [])).
  Hypothesis Hquery : forall f args body, P (KAtom, f) -> Forall (term_expr P) args ->
    Forall (stmt_ok P A) body -> Forall Q body -> Q (SForeach (ECall (s_ "query") [EStr f; EList args]) body).
  Hypothesis Hunify : forall i a body, i < A -> term_expr P a ->
    Forall (stmt_ok P A) body -> Forall Q body -> Q (SForeach (ECall (s_ "unify") [EVar (argvar i); a]) body).
  Hypothesis Hyf : Q SYieldFalse.
  Hypothesis Hyt : Q SYieldTrue.
  Hypothesis Hret : Q SReturn.
  Hypothesis Hblock : forall l body, Forall (stmt_ok P A) body -> Forall Q body -> Q (SBlock l body).
  Hypothesis Hbreak : forall l, Q (SBreakBlock l).

  Fixpoint stmt_ok_ind' (st : stmt) (H : stmt_ok P A st) : Q st :=
    let go := fix go (c : list stmt) (Hc : Forall (stmt_ok P A) c) : Forall Q c :=
      match Hc with
      | Forall_nil _ => Forall_nil Q
      | @Forall_cons _ _ x r Hx Hr => Forall_cons x (stmt_ok_ind' x Hx) (go r Hr)
      end in
    match H with
    | so_alias _ _ v i Hv Hi => Halias v i Hv Hi
    | so_decl _ _ v Hv => Hdecl v Hv
    | so_query _ _ f args body Hf Ha Hb => Hquery f args body Hf Ha Hb (go body Hb)
    | so_unify _ _ i a body Hi Ha Hb => Hunify i a body Hi Ha Hb (go body Hb)
    | so_yf _ _ => Hyf
    | so_yt _ _ => Hyt
    | so_ret _ _ => Hret
    | so_block _ _ l body Hb => Hblock l body Hb (go body Hb)
    | so_break _ _ l => Hbreak l
    end.
End StmtOkInd.

Lemma term_expr_mono (P Q : kstr -> Prop) : (forall x, P x -> Q x) -> forall e, term_expr P e -> term_expr Q e.
Proof.
  intros PQ e [t [-> H]]. exists t. split; [reflexivity|]. eapply Forall_impl; [|exact H]. exact PQ.
Qed.

Lemma stmt_ok_mono (P Q : kstr -> Prop) A : (forall x, P x -> Q x) -> forall st, stmt_ok P A st -> stmt_ok Q A st.
Proof.
  intros PQ st H. induction H using stmt_ok_ind'; constructor; auto.
  - eapply Forall_impl; [|eassumption]. apply term_expr_mono. exact PQ.
  - eapply term_expr_mono; eassumption.
Qed.

Definition inl_ (l : list kstr) : kstr -> Prop := fun x => In x l.

Lemma body_strs_loc m b : body_strs (loc m b) = body_strs b.
Proof. induction b; cbn [loc body_strs]; try reflexivity; congruence. Qed.

(* x occurs among the strings of one body, hence among those of another that has the same parts *)
Ltac in_strs :=
  cbn [body_strs app In] in *; rewrite ?body_strs_loc in *; rewrite ?in_app_iff in *; cbn [In] in *; tauto.

Lemma rewrites_strs {b b'} : rewrites b b' -> forall x, In x (body_strs b') -> In x (body_strs b).
Proof. intros R x Hx. destruct R; in_strs. Qed.

Lemma compiled_ok (P : kstr -> Prop) A {b cnt code k} : compiled b cnt code k ->
  (forall x, In x (body_strs b) -> P x) -> Forall (stmt_ok P A) code.
Proof.
  induction 1 as [b b' cnt code k R _ IH|l K cnt c k _ IH|f args K cnt c k _ IH|K cnt c k _ IH|K cnt
                 |c t e cnt c1 k1 c2 k2 _ _ IH1 _ IH2|c t e cnt code k _ _ IH|x y cnt c1 k1 c2 k2 _ _ IH1 _ IH2|cnt|cnt];
    intros HP.
  - apply IH. intros x Hx. apply HP. exact (rewrites_strs R x Hx).
  - apply Forall_app. split; [|repeat constructor]. apply IH. intros x Hx. apply HP. in_strs.
  - constructor; [|constructor]. constructor.
    + apply HP. left. reflexivity.
    + apply Forall_map, Forall_forall. intros t Ht.
      exists t. split; [reflexivity|]. apply Forall_forall. intros x Hx. apply HP.
      right. apply in_or_app. left. apply in_flat_map. eauto.
    + apply IH. intros x Hx. apply HP. in_strs.
  - apply Forall_app. split; [|repeat constructor]. apply IH. intros x Hx. apply HP. in_strs.
  - constructor.
  - repeat constructor.
    + apply IH1. intros x Hx. apply HP. in_strs.
    + apply IH2. intros x Hx. apply HP. in_strs.
  - repeat constructor. apply IH. intros x Hx. apply HP. in_strs.
  - apply Forall_app. split.
    + apply IH1. intros z Hz. apply HP. in_strs.
    + apply IH2. intros z Hz. apply HP. in_strs.
  - repeat constructor.
  - repeat constructor.
Qed.

Lemma comp_ok A : forall n b cnt code k, comp n b cnt = Some (code, k) -> Forall (stmt_ok (inl_ (body_strs b)) A) code.
Proof.
  intros n b cnt code k H. apply (compiled_ok _ A (comp_compiled n b cnt code k H)). intros x Hx. exact Hx.
Qed.

Lemma mem_str_In x l : mem_str x l = true <-> In x l.
Proof.
  induction l as [|y r IH]; simpl; [split; [discriminate|tauto]|].
  rewrite orb_true_iff, IH, str_eqb_eq. split; intros [H|H]; auto.
Qed.

Lemma dedup_acc_sub seen l x : In x (dedup_acc seen l) -> In x l.
Proof.
  revert seen; induction l as [|y r IH]; intros seen H; simpl in *; [exact H|].
  destruct (mem_str y seen); [right; eapply IH; eauto|].
  destruct H as [H|H]; [auto | right; eapply IH; eauto].
Qed.

Lemma dedup_acc_cover l : forall seen x, In x l -> In x seen \/ In x (dedup_acc seen l).
Proof.
  induction l as [|y r IH]; intros seen x H; simpl in *; [tauto|].
  destruct (mem_str y seen) eqn:E.
  - destruct H as [<-|H]; [left; apply mem_str_In; exact E | apply IH; exact H].
  - destruct H as [<-|H]; [right; left; reflexivity|].
    destruct (IH (y :: seen) x H) as [[<-|H1]|H1]; [right; left; reflexivity | left; exact H1 | right; right; exact H1].
Qed.

Lemma filter_free_sub bound vars x : In x (filter_free bound vars) -> In x vars.
Proof. unfold filter_free, dedup. intros H. apply dedup_acc_sub in H. apply filter_In in H. tauto. Qed.

Lemma filter_free_cover bound vars x : In x vars -> In x bound \/ In x (filter_free bound vars).
Proof.
  intros H. destruct (mem_str x bound) eqn:E; [left; apply mem_str_In; exact E|]. right.
  unfold filter_free, dedup. destruct (dedup_acc_cover (filter (fun v => negb (mem_str v bound)) vars) [] x) as [[]|H1]; [|exact H1].
  apply filter_In. split; [exact H|]. rewrite E. reflexivity.
Qed.

Lemma head_args_by_pos_length args : length (head_args_by_pos args) = length args.
Proof. unfold head_args_by_pos. apply map_length. Qed.

Lemma head_args_by_pos_sub args v : In (Some v) (head_args_by_pos args) -> In v (flat_map sterm_vars args).
Proof.
  unfold head_args_by_pos. intros H. apply in_map_iff in H. destruct H as [t [Ht Hin]].
  destruct t; simpl in Ht; try discriminate.
  destruct (Nat.eqb _ 1); [|discriminate]. injection Ht as <-.
  apply in_flat_map. exists (SVar v0). split; [exact Hin | simpl; auto].
Qed.

Lemma some_list_In l v : In v (some_list l) <-> In (Some v) l.
Proof.
  unfold some_list. split.
  - intros H. apply in_flat_map in H. destruct H as [[w|] [Hx Hv]]; simpl in Hv; [|tauto]. destruct Hv as [<-|[]]. exact Hx.
  - intros H. apply in_flat_map. exists (Some v). split; [exact H | simpl; auto].
Qed.

Section ClauseShape.
  Variable P : kstr -> Prop.
  Variable A : nat.

  Lemma head_aliases_ok pos : forall i, (forall v, In (Some v) pos -> P (KVar, v)) -> i + length pos <= A ->
    Forall (stmt_ok P A) (head_aliases i pos).
  Proof.
    induction pos as [|[v|] r IH]; intros i Hv Hl; simpl in *; [constructor| |].
    - constructor; [constructor; [apply Hv; auto | lia] | apply IH; [auto | lia]].
    - apply IH; [auto | lia].
  Qed.

  Lemma arg_unifications_ok code : Forall (stmt_ok P A) code ->
    forall pos args i, i + length args <= A -> Forall (fun a => term_expr P (compile_expression a)) args ->
    Forall (stmt_ok P A) (arg_unifications i pos args code).
  Proof.
    intros Hc pos. induction pos as [|[v|] pr IH]; intros args i Hl Ha; destruct args as [|a ar]; simpl in *; try exact Hc.
    - apply IH; [lia | inversion Ha; auto].
    - inversion Ha; subst. constructor; [|constructor]. constructor; [lia | assumption | apply IH; [lia | assumption]].
  Qed.
End ClauseShape.

Lemma compile_clause_ok (P : kstr -> Prop) c cnt code k : compile_clause c cnt = Some (code, k) ->
  (forall x, In x (clause_strs c) -> P x) -> Forall (stmt_ok P (length (c_args c))) code.
Proof.
  unfold compile_clause, clause_strs. intros H HP.
  destruct (comp (fuel_body (c_body c)) (c_body c) cnt) as [[bc k1]|] eqn:E; [|discriminate]. injection H as <- _.
  assert (HV : forall v, In v (flat_map sterm_vars (c_args c)) -> P (KVar, v)).
  { intros v Hv. apply HP. apply in_app_iff. left. apply args_vars_strs. exact Hv. }
  assert (HB : forall v, In v (body_vars (c_body c)) -> P (KVar, v)).
  { intros v Hv. apply HP. apply in_app_iff. right. apply body_vars_strs. exact Hv. }
  repeat (apply Forall_app; split).
  - apply head_aliases_ok; [|rewrite head_args_by_pos_length; lia].
    intros v Hv. apply HV. apply head_args_by_pos_sub. exact Hv.
  - apply Forall_map, Forall_forall. intros v Hv.
    constructor. apply HV. eapply filter_free_sub; eauto.
  - apply Forall_map, Forall_forall. intros v Hv.
    constructor. apply HB. eapply filter_free_sub; eauto.
  - apply arg_unifications_ok; [| lia |].
    + apply (compiled_ok _ _ (comp_compiled _ _ _ _ _ E)).
      intros x Hx. apply HP. apply in_app_iff. right. exact Hx.
    + apply Forall_forall. intros a Ha. exists a. split; [reflexivity|]. apply Forall_forall.
      intros x Hx. apply HP. apply in_app_iff. left. apply in_flat_map. eauto.
Qed.

Lemma key_eqb_eq a b : key_eqb a b = true <-> a = b.
Proof.
  unfold key_eqb. destruct a as [a1 a2], b as [b1 b2]. simpl.
  rewrite andb_true_iff, str_eqb_eq, Nat.eqb_eq. split; [intros [-> ->]; reflexivity | intros H; injection H; auto].
Qed.

(* the head keys of a program: (name, arity) of every clause, first occurrence kept, in order *)
Definition has_key (k : key) (ks : list key) : bool := existsb (fun k' => key_eqb k' k) ks.
Definition head_keys (p : program) : list key :=
  fold_left (fun ks c => if has_key (clause_key c) ks then ks else ks ++ [clause_key c]) p [].

Lemma has_key_In k ks : has_key k ks = true <-> In k ks.
Proof.
  unfold has_key. rewrite existsb_exists. split.
  - intros [x [Hx He]]. apply key_eqb_eq in He. subst. exact Hx.
  - intros H. exists k. split; [exact H | apply key_eqb_eq; reflexivity].
Qed.

Lemma NoDup_snoc {A} (l : list A) x : NoDup l -> ~ In x l -> NoDup (l ++ [x]).
Proof.
  intros Hnd Hn. apply (NoDup_Add (Add_app x l [])). rewrite app_nil_r. split; assumption.
Qed.

Lemma head_keys_snoc p c : head_keys (p ++ [c]) =
  if has_key (clause_key c) (head_keys p) then head_keys p else head_keys p ++ [clause_key c].
Proof. unfold head_keys. rewrite fold_left_app. reflexivity. Qed.

Theorem head_keys_spec p : NoDup (head_keys p) /\ (forall k, In k (head_keys p) <-> In k (map clause_key p)).
Proof.
  induction p as [|c p [Hnd Hin]] using rev_ind; [split; [constructor | intros k; reflexivity]|].
  rewrite head_keys_snoc, map_app. destruct (has_key (clause_key c) (head_keys p)) eqn:E.
  - split; [exact Hnd|]. intros k. rewrite in_app_iff, <- Hin. apply has_key_In in E.
    split; [auto | intros [H|[<-|[]]]; assumption].
  - split.
    + apply NoDup_snoc; [exact Hnd|]. intros H. apply has_key_In in H. congruence.
    + intros k. rewrite !in_app_iff, Hin. reflexivity.
Qed.

(* visitProgram's dictionary after the clauses p: for every head key, in order of first occurrence, the clauses of p
   with that key, in order *)
Definition group_of (p : program) (k : key) : key * list clause :=
  (k, filter (fun c => key_eqb k (clause_key c)) p).

Lemma group_of_snoc p c k : group_of (p ++ [c]) k =
  (k, snd (group_of p k) ++ if key_eqb k (clause_key c) then [c] else []).
Proof. unfold group_of. rewrite filter_app. reflexivity. Qed.

Lemma group_insert_groups p c ks : NoDup ks ->
  (~ In (clause_key c) ks -> snd (group_of p (clause_key c)) = []) ->
  group_insert c (map (group_of p) ks) =
  map (group_of (p ++ [c])) (if has_key (clause_key c) ks then ks else ks ++ [clause_key c]).
Proof.
  intros Hnd Hnew. induction ks as [|k r IH].
  - cbn [map group_insert has_key existsb app]. rewrite group_of_snoc, Hnew by (intros []).
    rewrite (proj2 (key_eqb_eq _ _) eq_refl). reflexivity.
  - inversion Hnd as [|? ? Hk Hr]; subst. cbn [map group_insert group_of fst]. unfold has_key. cbn [existsb].
    destruct (key_eqb k (clause_key c)) eqn:E; cbn [orb].
    + (* the group exists: the later groups have other keys and stay as they are *)
      apply key_eqb_eq in E. subst k. cbn [map]. rewrite group_of_snoc, (proj2 (key_eqb_eq _ _) eq_refl). f_equal.
      apply map_ext_in. intros k' Hk'. rewrite group_of_snoc.
      destruct (key_eqb k' (clause_key c)) eqn:E'; [apply key_eqb_eq in E'; subst; contradiction|].
      rewrite app_nil_r. reflexivity.
    + fold (has_key (clause_key c) r). rewrite IH.
      * destruct (has_key (clause_key c) r); cbn [map app]; rewrite (group_of_snoc p c k), E, app_nil_r; reflexivity.
      * exact Hr.
      * intros Hn. apply Hnew. intros [X|X]; [|contradiction]. subst k. rewrite (proj2 (key_eqb_eq _ _) eq_refl) in E. discriminate.
Qed.

Theorem group_program_groups p : group_program p = map (group_of p) (head_keys p).
Proof.
  unfold group_program. induction p as [|c p IH] using rev_ind; [reflexivity|].
  rewrite fold_left_app. cbn [fold_left]. rewrite IH, head_keys_snoc.
  destruct (head_keys_spec p) as [Hnd Hin]. apply group_insert_groups; [exact Hnd|].
  intros Hn. cbn [group_of snd]. destruct (filter _ p) as [|c0 r] eqn:E; [reflexivity|]. exfalso. apply Hn.
  assert (H0 : In c0 (filter (fun c0 => key_eqb (clause_key c) (clause_key c0)) p)) by (rewrite E; left; reflexivity).
  apply filter_In in H0. destruct H0 as [H0 Ek]. apply key_eqb_eq in Ek. rewrite Ek. apply Hin. apply in_map. exact H0.
Qed.

Lemma group_program_keys p : map fst (group_program p) = head_keys p.
Proof. rewrite group_program_groups, map_map. apply map_id. Qed.

(* every group holds clauses of the program with the group's key *)
Definition group_inv (p : program) (g : key * list clause) : Prop :=
  Forall (fun c => clause_key c = fst g /\ In c p) (snd g).

Lemma group_program_inv p : Forall (group_inv p) (group_program p).
Proof.
  rewrite group_program_groups. apply Forall_map. apply Forall_forall. intros k _.
  apply Forall_forall. intros c Hc. apply filter_In in Hc. destruct Hc as [Hc Ek].
  apply key_eqb_eq in Ek. split; [symmetry; exact Ek | exact Hc].
Qed.

(* the targets of the assignment statements of a piece of code *)
Fixpoint stmt_assigned (st : stmt) : list str :=
  match st with
  | SAssign x _ => [x]
  | SForeach _ body => flat_map stmt_assigned body
  | SBlock _ body => flat_map stmt_assigned body
  | _ => []
  end.
Definition assigned (code : list stmt) : list str := flat_map stmt_assigned code.

Lemma assigned_app a b : assigned (a ++ b) = assigned a ++ assigned b.
Proof. unfold assigned. apply flat_map_app. Qed.

Lemma head_aliases_assigned pos v : forall i, In (Some v) pos -> In (pyvar v) (assigned (head_aliases i pos)).
Proof.
  induction pos as [|[w|] r IH]; intros i H; simpl in *; [tauto| |].
  - destruct H as [H|H]; [injection H as ->; left; reflexivity | right; apply IH; exact H].
  - destruct H as [H|H]; [discriminate | apply IH; exact H].
Qed.

Lemma declare_assigned vs v : In v vs -> In (pyvar v) (assigned (map declare vs)).
Proof.
  intros H. unfold assigned. apply in_flat_map. exists (declare v). split; [apply in_map; exact H | simpl; auto].
Qed.

(* every variable of a clause is assigned at the start of the clause's code: aliased to its
   argument or declared as a fresh variable() *)
Lemma compile_clause_declares c cnt code k : compile_clause c cnt = Some (code, k) ->
  forall v, In (KVar, v) (clause_strs c) -> In (pyvar v) (assigned code).
Proof.
  unfold compile_clause. intros H v Hv.
  destruct (comp (fuel_body (c_body c)) (c_body c) cnt) as [[bc k1]|] eqn:E; [|discriminate]. injection H as <- _.
  rewrite !assigned_app, !in_app_iff.
  set (pos := head_args_by_pos (c_args c)) in *.
  assert (HH : forall v, In v (flat_map sterm_vars (c_args c)) ->
     In (pyvar v) (assigned (head_aliases 0 pos)) \/
     In (pyvar v) (assigned (map declare (filter_free (some_list pos) (flat_map sterm_vars (c_args c)))))).
  { intros w Hw. destruct (filter_free_cover (some_list pos) _ w Hw) as [H|H].
    - left. apply head_aliases_assigned. apply some_list_In. exact H.
    - right. apply declare_assigned. exact H. }
  unfold clause_strs in Hv. apply in_app_iff in Hv. destruct Hv as [Hv|Hv].
  - apply args_vars_strs in Hv. destruct (HH v Hv); tauto.
  - apply body_vars_strs in Hv.
    destruct (filter_free_cover (some_list pos ++ filter_free (some_list pos) (flat_map sterm_vars (c_args c))) _ v Hv) as [H|H].
    + apply in_app_iff in H. destruct H as [H|H].
      * left. apply head_aliases_assigned. apply some_list_In. exact H.
      * right. left. apply declare_assigned. exact H.
    + right. right. left. apply declare_assigned. exact H.
Qed.

Definition func_ok (P : kstr -> Prop) (f : func) : Prop := Forall (stmt_ok P (fn_arity f)) (fn_body f).
Definition fn_key (f : func) : key := (fn_name f, fn_arity f).

(* f is the code of the clauses cs of p (all with f's key): its statements have the shapes of
   stmt_ok over the strings of cs, and every variable of cs is assigned in f *)
Definition func_shape (p : program) (f : func) : Prop :=
  exists cs, incl cs p /\ Forall (fun c => clause_key c = fn_key f) cs /\
    func_ok (inl_ (flat_map clause_strs cs)) f /\
    (forall v, In (KVar, v) (flat_map clause_strs cs) -> In (pyvar v) (assigned (fn_body f))).

Lemma compile_clauses_ok (P : kstr -> Prop) A cs : (forall c, In c cs -> length (c_args c) = A) ->
  (forall x, In x (flat_map clause_strs cs) -> P x) ->
  forall cnt code k, compile_clauses cs cnt = Some (code, k) ->
  Forall (stmt_ok P A) code /\
  (forall v, In (KVar, v) (flat_map clause_strs cs) -> In (pyvar v) (assigned code)).
Proof.
  induction cs as [|c r IH]; intros Hcs HP cnt code k H; cbn [compile_clauses flat_map] in *.
  - injection H as <- _. split; [constructor | intros v []].
  - destruct (compile_clause c cnt) as [[c1 k1]|] eqn:E1; [|discriminate].
    destruct (compile_clauses r k1) as [[c2 k2]|] eqn:E2; [|discriminate]. injection H as <- _.
    destruct (IH (fun c' Hc' => Hcs c' (or_intror Hc')) (fun x Hx => HP x (in_or_app _ _ x (or_intror Hx))) _ _ _ E2) as [I1 I2].
    split.
    + apply Forall_app. split; [|exact I1]. rewrite <- (Hcs c (or_introl eq_refl)).
      apply (compile_clause_ok P _ _ _ _ E1). intros x Hx. apply HP. apply in_or_app. left. exact Hx.
    + intros v Hv. rewrite assigned_app. apply in_app_iff. apply in_app_iff in Hv. destruct Hv as [Hv|Hv].
      * left. eapply compile_clause_declares; eauto.
      * right. apply I2. exact Hv.
Qed.

Lemma compile_groups_ok p gs : Forall (group_inv p) gs ->
  forall cnt fs k, compile_groups gs cnt = Some (fs, k) ->
  Forall (func_shape p) fs /\ map fn_key fs = map fst gs.
Proof.
  induction gs as [|[key cs] r IH]; intros Hinv cnt fs k H; simpl in H.
  - injection H as <- _. split; [constructor | reflexivity].
  - inversion Hinv as [|? ? H1 H2]; subst.
    destruct (compile_clauses cs cnt) as [[code k1]|] eqn:E1; [|discriminate].
    destruct (compile_groups r k1) as [[fs' k2]|] eqn:E2; [|discriminate]. injection H as <- _.
    destruct (IH H2 _ _ _ E2) as [I1 I2]. split.
    + constructor; [|exact I1]. unfold group_inv in H1. simpl in H1. rewrite Forall_forall in H1.
      exists cs. unfold func_ok, fn_key. simpl.
      assert (HA : forall c, In c cs -> length (c_args c) = snd key).
      { intros c Hc. destruct (H1 c Hc) as [Hk _]. rewrite <- Hk. reflexivity. }
      destruct (compile_clauses_ok _ (snd key) cs HA (fun x Hx => Hx) _ _ _ E1) as [J1 J2].
      split; [intros c Hc; apply H1; exact Hc|]. split; [|split; assumption].
      apply Forall_forall. intros c Hc. destruct (H1 c Hc) as [Hk _]. rewrite Hk. destruct key; reflexivity.
    + simpl. rewrite I2. unfold fn_key. simpl. destruct key; reflexivity.
Qed.

(* COMPILE_PROGRAM_SHAPE: the functions of the code are exactly the head keys of the program, in
   first-occurrence order; every function is the code of clauses of the program with its key: all
   its statements have one of the nine shapes of stmt_ok over the strings of those clauses, and
   every Prolog variable of those clauses is assigned in the function *)
Theorem compile_program_shape p ir : compile_program p = Some ir ->
  Forall (func_shape p) ir /\ map fn_key ir = head_keys p.
Proof.
  unfold compile_program. intros H.
  destruct (compile_groups (group_program p) 0) as [[fs k]|] eqn:E; [|discriminate]. injection H as <-.
  destruct (compile_groups_ok p _ (group_program_inv p) _ _ _ E) as [H1 H2].
  split; [exact H1 | rewrite H2; apply group_program_keys].
Qed.
