(* compile_body as a relation, and its termination.
   comp is written with fuel; what it computes is described without fuel by `rewrites` (one step of
   the rewriting cases of the table in CompileBody.v) and `compiled` (the graph of comp), so that a
   property of the compiler's output is proved by induction on `compiled`, one case per line of
   the table.  The fuel computed by fuel_body suffices - and so does every larger fuel, which is
   the form in which the statement goes through the induction.  The inductions are by body_ind'
   (Lang/Ast.v), which like the compiler treats (c -> t ; e) as one construct; isif x says that x is c -> t. *)
From Coq Require Import List Arith Bool Lia.
Import ListNotations.
From YP Require Import Base.Str Lang.Ast Comp.IR Comp.CompileBody Comp.CompileClause.

(* the goals that compile_body first turns into (b, true) *)
Definition alone (b : body) : bool :=
  match b with BIf _ _ | BCall _ _ | BNot _ | BFail | BMark _ => true | _ => false end.

Inductive rewrites : body -> body -> Prop :=
| rw_not x K : rewrites (BAnd (BNot x) K) (BAnd (BOr (BIf x BFail) BTrue) K)
| rw_assoc x y K : rewrites (BAnd (BAnd x y) K) (BAnd x (BAnd y K))
| rw_ite_distr c t e K : rewrites (BAnd (BOr (BIf c t) e) K) (BOr (BIf c (BAnd t K)) (BAnd e K))
| rw_or_distr x y K : isif x = false -> rewrites (BAnd (BOr x y) K) (BOr (BAnd x K) (BAnd y K))
| rw_if c t K : rewrites (BAnd (BIf c t) K) (BAnd (BOr (BIf c t) BFail) K)
| rw_true K : rewrites (BAnd BTrue K) K
| rw_alone b : alone b = true -> rewrites b (BAnd b BTrue).

Lemma comp_rewrites n cnt {b b'} : rewrites b b' -> comp (S n) b cnt = comp n b' cnt.
Proof.
  intros R. destruct R as [x K|x y K|c t e K|x y K Hx|c t K|K|b Hb]; try reflexivity.
  - destruct x; try reflexivity. discriminate.
  - destruct b; try reflexivity; discriminate.
Qed.

Inductive compiled : body -> nat -> list stmt -> nat -> Prop :=
| cp_rewrite b b' cnt code k : rewrites b b' -> compiled b' cnt code k -> compiled b cnt code k
| cp_mark l K cnt c k : compiled K cnt c k -> compiled (BAnd (BMark l) K) cnt (c ++ [SBreakBlock l]) k
| cp_call f args K cnt c k : compiled K cnt c k ->
    compiled (BAnd (BCall f args) K) cnt [SForeach (query_expr f args) c] k
| cp_cut K cnt c k : compiled K cnt c k -> compiled (BAnd BCut K) cnt (c ++ [SReturn]) k
| cp_fail K cnt : compiled (BAnd BFail K) cnt [] cnt
| cp_ite_cut c t e cnt c1 k1 c2 k2 : tcut c = true ->
    compiled (BAnd (loc (S (S cnt)) c) (BAnd (BMark (S cnt)) t)) (S (S cnt)) c1 k1 ->
    compiled e k1 c2 k2 ->
    compiled (BOr (BIf c t) e) cnt [SBlock (S cnt) ([SBlock (S (S cnt)) c1] ++ c2)] k2
| cp_ite c t e cnt code k : tcut c = false ->
    compiled (BOr (BAnd c (BAnd (BMark (S cnt)) t)) e) (S cnt) code k ->
    compiled (BOr (BIf c t) e) cnt [SBlock (S cnt) code] k
| cp_or x y cnt c1 k1 c2 k2 : isif x = false ->
    compiled x cnt c1 k1 -> compiled y k1 c2 k2 -> compiled (BOr x y) cnt (c1 ++ c2) k2
| cp_true cnt : compiled BTrue cnt [SYieldFalse] cnt
| cp_cut_alone cnt : compiled BCut cnt [SYieldTrue; SReturn] cnt.

Lemma comp_or_plain n x y cnt : isif x = false ->
  comp (S n) (BOr x y) cnt =
  match comp n x cnt with
  | Some (c1,k1) => match comp n y k1 with Some (c2,k2) => Some (c1++c2,k2) | None => None end
  | None => None end.
Proof. destruct x; try reflexivity. discriminate. Qed.

Lemma comp_ite n c t e cnt : comp (S n) (BOr (BIf c t) e) cnt =
  if tcut c then
    match comp n (BAnd (loc (S (S cnt)) c) (BAnd (BMark (S cnt)) t)) (S (S cnt)) with
    | Some (c1,k1) =>
        match comp n e k1 with
        | Some (c2,k2) => Some ([SBlock (S cnt) ([SBlock (S (S cnt)) c1] ++ c2)],k2)
        | None => None end
    | None => None end
  else match comp n (BOr (BAnd c (BAnd (BMark (S cnt)) t)) e) (S cnt) with
       | Some (code,k) => Some ([SBlock (S cnt) code],k) | None => None end.
Proof. reflexivity. Qed.

Theorem comp_compiled : forall n b cnt code k, comp n b cnt = Some (code,k) -> compiled b cnt code k.
Proof.
  induction n as [|n IH]; intros b cnt code k H; [discriminate|].
  assert (RW : forall b', rewrites b b' -> compiled b cnt code k).
  { intros b' R. apply cp_rewrite with b'; [exact R|]. apply IH. rewrite <- (comp_rewrites n cnt R). exact H. }
  assert (Alone : alone b = true -> compiled b cnt code k).
  { intros Hb. exact (RW _ (rw_alone b Hb)). }
  assert (Plain : forall x y, b = BOr x y -> isif x = false -> compiled b cnt code k).
  { intros x y -> Hx. rewrite comp_or_plain in H by exact Hx.
    destruct (comp n x cnt) as [[c1 k1]|] eqn:E1; [|discriminate].
    destruct (comp n y k1) as [[c2 k2]|] eqn:E2; [|discriminate].
    injection H as <- <-. apply cp_or with k1; [exact Hx|apply IH; exact E1|apply IH; exact E2]. }
  destruct b as [g ga| | | |l|a K|x y|c t|x].
  - apply Alone; reflexivity.
  - injection H as <- <-. apply cp_true.
  - apply Alone; reflexivity.
  - injection H as <- <-. apply cp_cut_alone.
  - apply Alone; reflexivity.
  - destruct a as [g ga| | | |l|x y|x y|c t|x].
    + cbn [comp] in H. destruct (comp n K cnt) as [[c k0]|] eqn:E; [|discriminate].
      injection H as <- <-. apply cp_call, IH, E.
    + apply (RW _ (rw_true K)).
    + injection H as <- <-. apply cp_fail.
    + cbn [comp] in H. destruct (comp n K cnt) as [[c k0]|] eqn:E; [|discriminate].
      injection H as <- <-. apply cp_cut, IH, E.
    + cbn [comp] in H. destruct (comp n K cnt) as [[c k0]|] eqn:E; [|discriminate].
      injection H as <- <-. apply cp_mark, IH, E.
    + apply (RW _ (rw_assoc x y K)).
    + destruct (isif x) eqn:Hx.
      * destruct x; try discriminate. apply (RW _ (rw_ite_distr _ _ y K)).
      * apply (RW _ (rw_or_distr x y K Hx)).
    + apply (RW _ (rw_if c t K)).
    + apply (RW _ (rw_not x K)).
  - destruct (isif x) eqn:Hx; [|apply (Plain x y eq_refl Hx)].
    destruct x as [| | | | | | |c t|]; try discriminate.
    rewrite comp_ite in H. destruct (tcut c) eqn:Tc.
    + destruct (comp n _ (S (S cnt))) as [[c1 k1]|] eqn:E1; [|discriminate].
      destruct (comp n y k1) as [[c2 k2]|] eqn:E2; [|discriminate].
      injection H as <- <-. apply cp_ite_cut with k1; [exact Tc|apply IH; exact E1|apply IH; exact E2].
    + destruct (comp n _ (S cnt)) as [[c1 k1]|] eqn:E1; [|discriminate].
      injection H as <- <-. apply cp_ite; [exact Tc|apply IH; exact E1].
  - apply Alone; reflexivity.
  - apply Alone; reflexivity.
Qed.

Lemma compiled_counter b cnt code k : compiled b cnt code k -> cnt <= k.
Proof. induction 1; lia. Qed.

Definition total_at (k : nat) (K : body) : Prop := forall cnt, comp k K cnt <> None.

Definition total_from (k : nat) (K : body) : Prop := forall n, k <= n -> total_at n K.

Lemma total_from_S k K : (forall n, k <= n -> total_at (S n) K) -> total_from (S k) K.
Proof. intros H [|n] L; [lia|]. apply H. lia. Qed.

Lemma total_or_plain n x y : isif x = false -> total_at n x -> total_at n y -> total_at (S n) (BOr x y).
Proof.
  intros Hx Tx Ty cnt. rewrite comp_or_plain by exact Hx. specialize (Tx cnt).
  destruct (comp n x cnt) as [[c1 k1]|]; [|congruence]. specialize (Ty k1).
  destruct (comp n y k1) as [[c2 k2]|]; [discriminate|congruence].
Qed.

Lemma total_wrap n b K (f : list stmt -> list stmt) :
  (forall cnt, comp (S n) b cnt = match comp n K cnt with Some (c,k) => Some (f c,k) | None => None end) ->
  total_at n K -> total_at (S n) b.
Proof.
  intros E T cnt. rewrite E. specialize (T cnt).
  destruct (comp n K cnt) as [[c k]|]; [discriminate|congruence].
Qed.

Lemma total_rewrites {n b b'} : rewrites b b' -> total_at n b' -> total_at (S n) b.
Proof. intros R T cnt. rewrite (comp_rewrites n cnt R). apply T. Qed.

Lemma total_from_mark {k} l {t} : total_from k t -> total_from (S k) (BAnd (BMark l) t).
Proof.
  intros T. apply total_from_S. intros n L.
  apply (total_wrap n _ t (fun c => c ++ [SBreakBlock l])); [reflexivity|apply T, L].
Qed.

Lemma fuel_and_or_plain x y k : isif x = false -> fuel_and (BOr x y) k = S (S (max (fuel_and x k) (fuel_and y k))).
Proof. intros H. destruct x; try reflexivity. discriminate. Qed.

Lemma isif_loc m b : isif (loc m b) = isif b.
Proof. destruct b; reflexivity. Qed.

Lemma fuel_and_loc m a : forall k, fuel_and (loc m a) k = fuel_and a k.
Proof.
  induction a as [f ar| | | |l|a b IHa IHb|a b Hif IHa IHb|c t e IHc IHt IHe|c t IHc IHt|a IHa] using body_ind';
    intros k; try reflexivity; cbn [loc].
  - cbn [fuel_and]. rewrite IHb, IHa. reflexivity.
  - rewrite !fuel_and_or_plain by (rewrite ?isif_loc; exact Hif). rewrite IHa, IHb. reflexivity.
  - cbn [fuel_and]. rewrite IHt, IHe. reflexivity.
  - cbn [fuel_and]. rewrite IHt. reflexivity.
Qed.

Definition and_total (a : body) : Prop :=
  forall K k, total_from k K -> total_from (fuel_and a k) (BAnd a K).

Lemma total_ite {a b c T E} : and_total c -> (forall m, and_total (loc m c)) -> total_from a T -> total_from b E ->
  total_from (S (S (max (fuel_and c (S a)) b))) (BOr (BIf c T) E).
Proof.
  intros Ac Al TT TE. apply total_from_S. intros [|n] L; [lia|]. intros cnt. rewrite comp_ite.
  (* the condition is compiled as loc m c or as c, in front of the marker and T; both cost the same fuel *)
  destruct (tcut c).
  - pose proof (Al (S (S cnt)) _ _ (total_from_mark (S cnt) TT) (S n)) as T1.
    rewrite fuel_and_loc in T1. specialize (T1 ltac:(lia) (S (S cnt))).
    destruct (comp (S n) _ (S (S cnt))) as [[c1 k1]|]; [|congruence].
    pose proof (TE (S n) ltac:(lia) k1) as T2.
    destruct (comp (S n) E k1) as [[c2 k2]|]; [discriminate|congruence].
  - assert (T3 : total_at (S n) (BOr (BAnd c (BAnd (BMark (S cnt)) T)) E)).
    { apply total_or_plain; [reflexivity| |apply TE; lia]. apply (Ac _ _ (total_from_mark (S cnt) TT)). lia. }
    specialize (T3 (S cnt)). destruct (comp (S n) _ (S cnt)) as [[code k]|]; [discriminate|congruence].
Qed.

Lemma and_total_ite {c t e} : and_total c -> (forall m, and_total (loc m c)) -> and_total t -> and_total e ->
  and_total (BOr (BIf c t) e).
Proof.
  intros Ac Al At Ae K k TK. cbn [fuel_and]. apply total_from_S. intros n L.
  apply (total_rewrites (rw_ite_distr c t e K)).
  exact (total_ite Ac Al (At K k TK) (Ae K k TK) n L).
Qed.

Lemma and_total_fail : and_total BFail.
Proof. intros K k TK [|n] L cnt; [cbn [fuel_and] in L; lia|]. discriminate. Qed.

Lemma and_total_true : and_total BTrue.
Proof. intros K k TK. apply total_from_S. intros n L. apply (total_rewrites (rw_true K)), TK, L. Qed.

Lemma and_total_wrap a (f : list stmt -> list stmt) :
  (forall n K cnt, comp (S n) (BAnd a K) cnt =
                   match comp n K cnt with Some (c,k) => Some (f c,k) | None => None end) ->
  (forall k, fuel_and a k = S k) -> and_total a.
Proof.
  intros E F K k TK. rewrite F. apply total_from_S. intros n L.
  apply (total_wrap n _ K f); [intros; apply E|apply TK, L].
Qed.

(* Each clause of fuel_and is one more than the fuel of what its goal rewrites to. *)
Lemma and_total_and x y : and_total x -> and_total y -> and_total (BAnd x y).
Proof.
  intros Tx Ty K k TK. cbn [fuel_and]. apply total_from_S. intros n L.
  apply (total_rewrites (rw_assoc x y K)). exact (Tx _ _ (Ty _ _ TK) n L).
Qed.

Lemma and_total_or x y : isif x = false -> and_total x -> and_total y -> and_total (BOr x y).
Proof.
  intros Hx Tx Ty K k TK. rewrite fuel_and_or_plain by exact Hx.
  apply total_from_S. intros [|n] L; [lia|].
  apply (total_rewrites (rw_or_distr x y K Hx)). apply total_or_plain; [reflexivity| |].
  - apply (Tx K k TK). lia.
  - apply (Ty K k TK). lia.
Qed.

Lemma and_total_if c t : and_total c -> (forall m, and_total (loc m c)) -> and_total t -> and_total (BIf c t).
Proof.
  intros Ac Al Tt K k TK. cbn [fuel_and]. apply total_from_S. intros n L.
  apply (total_rewrites (rw_if c t K)).
  apply (and_total_ite Ac Al Tt and_total_fail K k TK). cbn [fuel_and]. lia.
Qed.

Lemma and_total_not a : and_total a -> (forall m, and_total (loc m a)) -> and_total (BNot a).
Proof.
  intros Aa Al K k TK. cbn [fuel_and]. apply total_from_S. intros n L.
  apply (total_rewrites (rw_not a K)).
  apply (and_total_ite Aa Al and_total_fail and_total_true K k TK). cbn [fuel_and]. lia.
Qed.

(* The statement for a and for loc m a together: a condition with a cut is compiled in its
   localized form, which is not a subterm. *)
Theorem and_total_both : forall a, and_total a /\ forall m, and_total (loc m a).
Proof.
  induction a as [f ar| | | |l|a b IHa IHb|a b Hif IHa IHb|c t e IHc IHt IHe|c t IHc IHt|a IHa] using body_ind'.
  - split; [|intros m]; apply (and_total_wrap _ (fun c => [SForeach (query_expr f ar) c])); reflexivity.
  - split; [|intros m]; apply and_total_true.
  - split; [|intros m]; apply and_total_fail.
  - split.
    + apply (and_total_wrap _ (fun c => c ++ [SReturn])); reflexivity.
    + intros m. apply (and_total_wrap _ (fun c => c ++ [SBreakBlock m])); reflexivity.
  - split; [|intros m]; apply (and_total_wrap _ (fun c => c ++ [SBreakBlock l])); reflexivity.
  - split; [|intros m; cbn [loc]]; apply and_total_and; solve [apply IHa | apply IHb].
  - split; [|intros m; cbn [loc]]; apply and_total_or; rewrite ?isif_loc; solve [assumption | apply IHa | apply IHb].
  - split; [|intros m; cbn [loc]]; apply and_total_ite; solve [apply IHc | apply IHt | apply IHe].
  - split; [|intros m; cbn [loc]]; apply and_total_if; solve [apply IHc | apply IHt].
  - split; [|intros m; cbn [loc]]; apply and_total_not; apply IHa.
Qed.

Theorem total_from_body : forall b, total_from (fuel_body b) b.
Proof.
  assert (Alone : forall b, alone b = true -> total_from (S (fuel_and b 1)) b).
  { intros b Hb. apply total_from_S. intros n L. apply (total_rewrites (rw_alone b Hb)).
    apply (proj1 (and_total_both b) BTrue 1); [|exact L]. intros [|m] Lm cnt; [lia|discriminate]. }
  induction b using body_ind'; try (apply Alone; reflexivity).
  - intros [|n] L cnt; [cbn [fuel_body] in L; lia|discriminate].
  - intros [|n] L cnt; [cbn [fuel_body] in L; lia|discriminate].
  - cbn [fuel_body]. apply and_total_both. exact IHb2.
  - assert (F: fuel_body (BOr b1 b2) = S (max (fuel_body b1) (fuel_body b2))).
    { destruct b1; try reflexivity. discriminate. }
    rewrite F. apply total_from_S. intros n L.
    apply total_or_plain; [assumption|apply IHb1; lia|apply IHb2; lia].
  - cbn [fuel_body]. apply total_ite; solve [apply and_total_both | assumption].
Qed.

(* compile_body never gets stuck: for every body and every value of the label counter *)
Theorem comp_total : forall b, total_at (fuel_body b) b.
Proof. intros b. apply total_from_body, le_n. Qed.

Corollary comp_total_exists : forall b cnt, exists code cnt', comp (fuel_body b) b cnt = Some (code, cnt').
Proof.
  intros b cnt. pose proof (comp_total b cnt) as H.
  destruct (comp (fuel_body b) b cnt) as [[code k]|]; [eauto|congruence].
Qed.

Lemma compile_clause_total c cnt : compile_clause c cnt <> None.
Proof.
  unfold compile_clause. destruct (comp_total_exists (c_body c) cnt) as [code [k E]]. rewrite E. discriminate.
Qed.
Lemma compile_clauses_total cs : forall cnt, compile_clauses cs cnt <> None.
Proof.
  induction cs as [|c r IH]; intros cnt; cbn [compile_clauses]; [discriminate|].
  pose proof (compile_clause_total c cnt) as H. destruct (compile_clause c cnt) as [[code k]|]; [|congruence].
  specialize (IH k). destruct (compile_clauses r k) as [[rest k2]|]; [discriminate|congruence].
Qed.
Lemma compile_groups_total gs : forall cnt, compile_groups gs cnt <> None.
Proof.
  induction gs as [|[k cs] r IH]; intros cnt; cbn [compile_groups]; [discriminate|].
  pose proof (compile_clauses_total cs cnt) as H. destruct (compile_clauses cs cnt) as [[code k1]|]; [|congruence].
  specialize (IH k1). destruct (compile_groups r k1) as [[fs k2]|]; [discriminate|congruence].
Qed.
(* the compiler model produces code for every program *)
Theorem compile_program_total p : compile_program p <> None.
Proof.
  unfold compile_program. pose proof (compile_groups_total (group_program p) 0) as H.
  destruct (compile_groups (group_program p) 0) as [[fs k]|]; [discriminate|congruence].
Qed.
