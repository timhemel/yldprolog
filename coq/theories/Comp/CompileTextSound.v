(* The composite statements about compile_text (source text -> Python text) used by Properties/C11.v and
   Properties/C12.v, assembled from EmitShape / EmitNames / EmitPieces / EmitLines / CompileTotal. *)
From Coq Require Import String.
From Coq Require Import List Arith Bool NArith Lia.
Import ListNotations.
From YP Require Import Base.Str Lang.Ast Lang.Lexer Lang.Cst Lang.Unquote Lang.Front Comp.IR Comp.CompileBody Comp.CompileClause Comp.CompileTotal Comp.Emit
  Comp.PyRepr Comp.Limits Comp.NumeralName Comp.CompileText Comp.EmitShape Comp.EmitNames Comp.EmitPieces Comp.EmitLines.
Local Open Scope string_scope.
Local Open Scope list_scope.

(* For evaluated examples `exists text, compile_text .. = CText text /\ P text`: one evaluation of the
   match decides the outcome and P together, and the text is never written out. *)
Lemma text_such_that (c : cresult) (P : str -> Prop) :
  match c with CText t => P t | _ => False end -> exists t, c = CText t /\ P t.
Proof.
  destruct c as [t| | |]; try contradiction.
  intros H. exists t. split; [reflexivity | exact H].
Qed.

(* what an accepted source went through *)
Lemma compile_text_inv printable s text : compile_text printable s = CText text ->
  exists p ir, front s = Some p /\ compile_program p = Some ir /\ ir_bad ir = false /\
    ir_nums_ok ir = true /\ py_limits ir = true /\ text = emit_program (py_repr printable) ir.
Proof.
  unfold compile_text, compile_ast, finish. intros H.
  destruct (front s) as [p|]; [|discriminate]. destruct (compile_program p) as [ir|] eqn:Ec; [|discriminate].
  destruct (ir_bad ir) eqn:Eb; [discriminate|].
  destruct (ir_nums_ok ir) eqn:En; [|discriminate]. simpl in H. destruct (py_limits ir) eqn:El; [|discriminate].
  injection H as <-. exists p, ir. repeat split; auto.
Qed.

Lemma compile_text_accepts printable s text : compile_text printable s = CText text ->
  exists p ir, front s = Some p /\ compile_program p = Some ir /\
    ir_nums_ok ir = true /\ py_limits ir = true /\ text = emit_program (py_repr printable) ir.
Proof.
  intros H. destruct (compile_text_inv _ _ _ H) as [p [ir [Hf [Hc [_ Hr]]]]]. exists p, ir. auto.
Qed.

(* ... and the compiler did not reach a compound term named by a numeral (Comp/NumeralName.v) *)
Lemma compile_text_accepts_good printable s text : compile_text printable s = CText text ->
  exists p ir, front s = Some p /\ compile_program p = Some ir /\ ir_bad ir = false.
Proof.
  intros H. destruct (compile_text_inv _ _ _ H) as [p [ir [Hf [Hc [Hb _]]]]]. exists p, ir. auto.
Qed.

(* the four outcomes, each with its exact cause *)
Theorem compile_text_cases printable s :
  match compile_text printable s with
  | CRejectFront => front s = None \/ exists p ir, front s = Some p /\ compile_program p = Some ir /\ ir_bad ir = true
  | CRejectNumeral => exists p ir, front s = Some p /\ compile_program p = Some ir /\ ir_nums_ok ir = false
  | CTooLarge => exists p ir, front s = Some p /\ compile_program p = Some ir /\ ir_nums_ok ir = true /\ py_limits ir = false
  | CText text => exists p ir, front s = Some p /\ compile_program p = Some ir /\ ir_nums_ok ir = true /\ py_limits ir = true /\
                    text = emit_program (py_repr printable) ir
  end.
Proof.
  unfold compile_text, compile_ast, finish. destruct (front s) as [p|] eqn:Ef; [|left; reflexivity].
  pose proof (compile_program_total p) as T. destruct (compile_program p) as [ir|] eqn:Ec; [|congruence].
  destruct (ir_bad ir) eqn:Eb; [right; exists p, ir; auto|].
  destruct (ir_nums_ok ir) eqn:En; simpl; [|exists p, ir; repeat split; assumption].
  destruct (py_limits ir) eqn:El; exists p, ir; repeat split; try assumption; reflexivity.
Qed.

(* TOO_LARGE_REPORTED: text is returned only for code within the limits: at most 20 nested for statements per function,
   at most 200 nested brackets per expression, numerals of at most 4300 digits; code beyond them is reported *)
Theorem too_large_reported printable s p ir : front s = Some p -> compile_program p = Some ir ->
  (py_limits ir = false \/ ir_nums_ok ir = false) -> forall text, compile_text printable s <> CText text.
Proof.
  intros Hf Hc Hl text H. apply compile_text_accepts in H. destruct H as [p' [ir' [Hf' [Hc' [Hn [Hp _]]]]]].
  rewrite Hf in Hf'. injection Hf' as <-. rewrite Hc in Hc'. injection Hc' as <-. destruct Hl; congruence.
Qed.

Theorem accepted_within_limits printable s text : compile_text printable s = CText text ->
  exists p ir, front s = Some p /\ compile_program p = Some ir /\
    Forall (fun f => func_fdepth f <= CO_MAXBLOCKS /\ func_bdepth f <= MAXLEVEL) ir.
Proof.
  intros H. apply compile_text_accepts in H. destruct H as [p [ir [Hf [Hc [_ [Hp _]]]]]]. exists p, ir. split; [exact Hf|]. split; [exact Hc|].
  unfold py_limits in Hp. rewrite forallb_forall in Hp. apply Forall_forall. intros f Hin. specialize (Hp f Hin).
  unfold func_fits in Hp. apply andb_true_iff in Hp. destruct Hp as [H1 H2]. apply Nat.leb_le in H1, H2. auto.
Qed.

(* the visitor only lets clause-head names through that pass the identifier test (D12) *)
Lemma front_head_names s p : front s = Some p -> Forall (fun c => valid_pred_name (c_name c) = true) p.
Proof.
  intros H. apply front_whole_input in H. destruct H as [items [cst [k [_ [_ [_ [_ [_ [H2 _]]]]]]]]].
  induction H2 as [|cc c l l' Hc _ IH]; constructor; [|exact IH].
  apply clause_image_head in Hc. destruct Hc as [t [k0 [k1 [_ [_ Hv]]]]]. exact Hv.
Qed.

Lemma head_keys_valid p : Forall (fun c => valid_pred_name (c_name c) = true) p ->
  Forall (fun k => valid_pred_name (fst k) = true) (head_keys p).
Proof.
  intros H. apply Forall_forall. intros k Hk. apply (proj2 (head_keys_spec p)) in Hk. apply in_map_iff in Hk.
  destruct Hk as [c [<- Hc]]. rewrite Forall_forall in H. apply H. exact Hc.
Qed.

(* EMIT_DEFS_EXACT: the accepted text is the lines of emit_lines joined by line feeds; its top-level lines (not empty, not
   indented, not a comment) are exactly one `def <name>_<arity>(arg1,...,argN):` per head key of the program, in order of first
   occurrence; different keys have different def names; the keys are the (name, arity) of the clauses; every def name is an
   identifier *)
Theorem emit_defs_exact printable s text : compile_text printable s = CText text ->
  exists p ir, front s = Some p /\ compile_program p = Some ir /\
    text = join [10%N] (emit_lines (py_repr printable) ir) /\
    filter is_top (emit_lines (py_repr printable) ir) = map def_line (head_keys p) /\
    NoDup (map def_name (head_keys p)) /\
    (forall k, In k (head_keys p) <-> In k (map clause_key p)) /\
    Forall (fun k => valid_pred_name (def_name k) = true) (head_keys p).
Proof.
  intros H. apply compile_text_accepts in H. destruct H as [p [ir [Hf [Hc [_ [_ ->]]]]]]. exists p, ir.
  split; [exact Hf|]. split; [exact Hc|]. split; [reflexivity|].
  destruct (compile_program_shape p ir Hc) as [_ Hk]. split.
  - rewrite toplevel_defs, <- Hk, map_map. reflexivity.
  - split; [apply def_names_distinct|]. split; [apply head_keys_spec|].
    eapply Forall_impl; [|apply head_keys_valid; eapply front_head_names; exact Hf].
    intros k Hv. apply def_name_identifier. exact Hv.
Qed.

(* every function of the accepted text has the frame of function_frame: in particular a non-empty body and a yield *)
Theorem emit_functions_framed printable s text : compile_text printable s = CText text ->
  exists p ir, front s = Some p /\ compile_program p = Some ir /\
    text = join [10%N] (emit_lines (py_repr printable) ir) /\
    emit_lines (py_repr printable) ir =
      header ++ [[]] ++ match ir with [] => [[]] | _ => flat_map (fun f => emit_function (py_repr printable) f ++ [[]]) ir end /\
    Forall (fun f => exists body,
      emit_function (py_repr printable) f =
        def_line (fn_key f) :: ind 1 (s_ "doBreak = False") :: ind 1 (s_ "for _ in [1]:") :: body
        ++ [ind 1 (s_ "if False:"); ind 3 (s_ "yield False")] /\ body <> [] /\ Forall (at_least 2) body) ir.
Proof.
  intros H. apply compile_text_accepts in H. destruct H as [p [ir [Hf [Hc [_ [_ ->]]]]]]. exists p, ir.
  split; [exact Hf|]. split; [exact Hc|]. split; [reflexivity|]. split; [reflexivity|].
  apply Forall_forall. intros f _. apply function_frame.
Qed.

(* the lines of the text ARE these lines, for lexically well-formed programs *)
Theorem text_lines printable s text : compile_text printable s = CText text ->
  exists p ir, front s = Some p /\ compile_program p = Some ir /\
    (lexical_ok p = true -> split_nl text = emit_lines (py_repr printable) ir).
Proof.
  intros H. apply compile_text_accepts in H. destruct H as [p [ir [Hf [Hc [_ [_ ->]]]]]]. exists p, ir.
  split; [exact Hf|]. split; [exact Hc|]. intros Hl. rewrite emit_program_lines. apply split_join.
  - unfold emit_lines. discriminate.
  - eapply Forall_impl; [|apply (lines_one_line printable p Hl ir Hc)]. intros l Hall. eapply Forall_impl; [|exact Hall]. intros c [Hc1 _]. exact Hc1.
Qed.

(* EMIT_LEXEMES_VALID for the variables and numerals of a lexically well-formed program *)
Theorem lexemes_valid p : lexical_ok p = true ->
  (forall d, In (KNum, d) (program_strs p) -> canonical_dec (strip_zeros d) = true) /\
  (forall v, In (KVar, v) (program_strs p) ->
     valid_pred_name (pyvar v) = true /\ local_form (pyvar v) = true /\ ~ In (pyvar v) reserved_names /\
     (forall i, pyvar v <> argvar i) /\ (forall n, pyvar v <> loopvar n) /\ (forall l, pyvar v <> label_name l) /\
     pyvar v <> DOBREAK /\ pyvar v <> UNDERSCORE) /\
  (forall k, In k (head_keys p) -> valid_pred_name (def_name k) = true /\ ~ In (def_name k) Engine.Resolve.api_names).
Proof.
  intros Hl. split; [|split].
  - intros d Hd. apply strip_zeros_canonical. apply (lex_strs p Hl _ Hd).
  - intros v Hv. split; [apply pyvar_identifier; apply (lex_strs p Hl _ Hv)|].
    split; [apply local_pyvar|]. split; [apply local_not_reserved; apply local_pyvar|]. apply pyvar_not_generated.
  - intros k Hk. split; [apply def_name_identifier; apply (lex_keys p Hl k Hk) | apply def_name_not_api].
Qed.

Theorem compiled_names_whitelisted p ir : compile_program p = Some ir ->
  Forall (fun f => (forall x, In x (func_calls f) -> In x api_calls) /\
                   (forall x, In x (func_loads f) -> In x api_globals \/ In x (func_locals f))) ir.
Proof.
  intros H. destruct (compile_program_shape p ir H) as [Hs _]. eapply Forall_impl; [|exact Hs].
  intros f Hf. apply (names_whitelisted p f Hf).
Qed.

Theorem compiled_no_capture p ir : compile_program p = Some ir ->
  Forall (fun f => forall x, In x (func_locals f) ->
     local_form x = true /\ ~ In x reserved_names /\
     ((exists v, In (KVar, v) (program_strs p) /\ x = pyvar v) \/ (exists i, i < fn_arity f /\ x = argvar i) \/
      (exists n, x = loopvar n) \/ (exists l, x = label_name l) \/ x = DOBREAK \/ x = UNDERSCORE)) ir.
Proof.
  intros H. destruct (compile_program_shape p ir H) as [Hs _]. eapply Forall_impl; [|exact Hs].
  intros f Hf x Hx. destruct (no_capture p f Hf x Hx) as [H1 H2]. split; [exact H1|]. split; [exact H2|].
  apply (locals_forms p f Hf x Hx).
Qed.

(* SOURCE_TEXT_POSITIONS *)
Theorem source_text_positions p ir : compile_program p = Some ir ->
  forall repr, map (flat repr) (program_pieces ir) = emit_lines repr ir /\
    emit_program repr ir = join [10%N] (emit_lines repr ir) /\
    Forall (Forall (piece_ok (inl_ (program_strs p)) (fun k => In k (head_keys p)))) (program_pieces ir).
Proof.
  intros H repr. split; [apply pieces_erasure|]. split; [reflexivity | apply pieces_ok; exact H].
Qed.
