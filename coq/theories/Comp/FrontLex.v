(* FRONT_LEXICAL: every program the front end returns is lexically well-formed in the sense of
   Comp/EmitLines.v lexical_ok: variable names are non-empty words over [A-Za-z0-9_] (VARIABLE tokens, or the
   visitor's x<n> for anonymous variables), numerals are non-empty digit strings (NUMERAL tokens), clause-head
   names passed the identifier test.  Proof: the parse tree's leaves are the tokens (parse_yield), every token
   is in the language of its lexer rule (lex_exact), and the visitor copies token texts. *)
From Coq Require Import String.
From Coq Require Import List Arith Bool NArith Lia.
Import ListNotations.
From YP Require Import Base.Str Lang.Ast Lang.Lexer Lang.Cst Lang.Parser Lang.ParserSound Lang.Unquote Lang.Literals Lang.Front
  Comp.EmitShape Comp.EmitLines Comp.CompileTextSound.
From YP Require Engine.Keys.
Local Open Scope list_scope.

Definition tok_ok (t : tok) : Prop :=
  match fst t with
  | R_VARIABLE => chars_ok (snd t) = true
  | R_NUMERAL => Keys.digits_ok (snd t) = true
  | _ => True
  end.

Definition lexed (x : kstr) : Prop := kstr_lex_ok x = true.

Lemma rule_lang_tok_ok it : rule_lang (fst it) (snd it) -> tok_ok (norm it).
Proof.
  destruct it as [r w]. unfold norm. simpl. destruct r; simpl; try exact (fun _ => Logic.I); unfold tok_ok; simpl.
  - intros [c [w' [-> [Hc Hw]]]]. simpl. rewrite Hw. unfold is_varstart in Hc. unfold is_character, is_lc.
    apply orb_true_iff in Hc. destruct Hc as [Hc|Hc]; rewrite Hc; rewrite ?orb_true_r; reflexivity.
  - intros [c [w' [-> [Hc Hw]]]]. unfold Keys.digits_ok. simpl. change Keys.is_digit with is_digit. rewrite Hc, Hw. reflexivity.
Qed.

Lemma sep_commas_Forall (Q : tok -> Prop) ls : Forall Q (sep_commas ls) -> Forall (Forall Q) ls.
Proof.
  induction ls as [|x r IH]; intros H; [constructor|]. destruct r as [|y r'].
  - constructor; [exact H | constructor].
  - change (sep_commas (x :: y :: r')) with (x ++ fx R_COMMA :: sep_commas (y :: r')) in H.
    apply Forall_app in H. destruct H as [H1 H2]. inversion H2; subst. constructor; [exact H1 | apply IH; assumption].
Qed.

Lemma anon_name_ok k : chars_ok (anon_name k) = true.
Proof.
  unfold anon_name, chars_ok. simpl. apply (digits_ok_chars _ (Keys.dec_of_nat_digits (S k))).
Qed.

Lemma v_var_lexed v k x k' : v_var v k = (x, k') -> tok_ok (R_VARIABLE, v) -> Forall lexed (sterm_strs x).
Proof.
  unfold v_var. destruct (is_anon v); intros H Hv; injection H as <- <-; simpl; constructor; try constructor.
  - apply anon_name_ok.
  - exact Hv.
Qed.

Lemma sterm_strs_fold_pairs items x :
  sterm_strs (fold_pairs items x) = flat_map sterm_strs items ++ sterm_strs x.
Proof.
  unfold fold_pairs. induction items as [|a r IH]; cbn [fold_right flat_map sterm_strs app]; [reflexivity|].
  rewrite IH, app_assoc. reflexivity.
Qed.

Definition term_lexed (t : cterm) : Prop :=
  forall k st k', v_term t k = (Some st, k') -> Forall tok_ok (y_term t) -> Forall lexed (sterm_strs st).

Lemma v_terms_lexed l : Forall term_lexed l ->
  forall k sts k', v_terms l k = (Some sts, k') -> Forall (fun t => Forall tok_ok (y_term t)) l -> Forall lexed (flat_map sterm_strs sts).
Proof.
  induction 1 as [|t l Ht _ IH]; intros k sts k' H Hy; cbn [v_terms] in H.
  - injection H as <- <-. constructor.
  - destruct (v_term t k) as [x' k1] eqn:Et. destruct (v_terms l k1) as [r' k2] eqn:Er.
    destruct x' as [x'|]; destruct r' as [r'|]; simpl in H; try discriminate.
    injection H as <- <-. inversion Hy; subst. simpl. apply Forall_app. split; [eapply Ht; eauto | eapply IH; eauto].
Qed.

(* the tokens of a part of a yield; the inclusion is given as the path to the part *)
Lemma Forall_sub {A} {Q : A -> Prop} {l l'} : Forall Q l -> incl l' l -> Forall Q l'.
Proof. intros H I. exact (incl_Forall I H). Qed.

Lemma terms_tok_ok l : Forall tok_ok (sep_commas (map y_term l)) -> Forall (fun t => Forall tok_ok (y_term t)) l.
Proof. intros H. apply sep_commas_Forall in H. rewrite Forall_map in H. exact H. Qed.

Lemma v_term_lexed : forall t, term_lexed t.
Proof.
  induction t as [a|a args IH|a n|v|op t IH|l op r IHl IHr|op l r IHl IHr|t IH|items IH|h v IH|h rest v IHh IHr]
    using cterm_ind'; intros k st k' H Hy.
  - destruct a; simpl in H; injection H as <- <-; simpl; constructor; try constructor; try reflexivity.
    inversion Hy; subst. assumption.
  - rewrite v_term_functor in H. destruct (v_terms args k) as [args' k1] eqn:E.
    destruct (atom_name a); destruct args' as [args'|]; simpl in H; try discriminate.
    injection H as <- <-. simpl. constructor; [reflexivity|].
    cbn [y_term] in Hy. eapply v_terms_lexed; eauto. apply terms_tok_ok. apply (Forall_sub Hy). apply incl_tl, incl_tl, incl_appl, incl_refl.
  - simpl in H. discriminate.
  - simpl in H. destruct (v_var v k) as [x k1] eqn:E. injection H as <- <-. eapply v_var_lexed; eauto.
    inversion Hy; subst. assumption.
  - simpl in H. destruct (v_term t k) as [t' k1] eqn:E. destruct t' as [t'|]; simpl in H; [|discriminate].
    injection H as <- <-. simpl. constructor; [reflexivity|]. rewrite app_nil_r. eapply IH; eauto.
    cbn [y_term] in Hy. inversion Hy; subst. assumption.
  - simpl in H. destruct (v_term l k) as [l' k1] eqn:El. destruct (v_term r k1) as [r' k2] eqn:Er.
    destruct l' as [l'|]; destruct r' as [r'|]; simpl in H; try discriminate.
    injection H as <- <-. simpl. constructor; [reflexivity|]. rewrite app_nil_r.
    cbn [y_term] in Hy. apply Forall_app in Hy. destruct Hy as [Hy1 Hy2]. inversion Hy2; subst.
    apply Forall_app. split; [eapply IHl | eapply IHr]; eauto.
  - simpl in H. destruct (v_term l k) as [l' k1] eqn:El. destruct (v_term r k1) as [r' k2] eqn:Er.
    destruct l' as [l'|]; destruct r' as [r'|]; simpl in H; try discriminate.
    injection H as <- <-. simpl. constructor; [reflexivity|]. rewrite app_nil_r.
    cbn [y_term] in Hy. apply Forall_app. split.
    + eapply IHl; eauto. apply (Forall_sub Hy). apply incl_tl, incl_tl, incl_appl, incl_refl.
    + eapply IHr; eauto. apply (Forall_sub Hy). apply incl_tl, incl_tl, incl_appr, incl_tl, incl_appl, incl_refl.
  - simpl in H. cbn [y_term] in Hy. eapply IH; eauto. apply (Forall_sub Hy). apply incl_tl, incl_appl, incl_refl.
  - rewrite v_term_list in H. destruct (v_terms items k) as [l k1] eqn:E.
    destruct l as [l|]; simpl in H; [|discriminate]. injection H as <- <-. simpl.
    cbn [y_term] in Hy. eapply v_terms_lexed; eauto. apply terms_tok_ok. apply (Forall_sub Hy). apply incl_tl, incl_appl, incl_refl.
  - simpl in H. destruct (v_term h k) as [h' k1] eqn:Eh. destruct (v_var v k1) as [x k2] eqn:Ev.
    destruct h' as [h'|]; simpl in H; [|discriminate]. injection H as <- <-.
    cbn [y_term] in Hy. simpl. apply Forall_app. split.
    + eapply IH; eauto. apply (Forall_sub Hy). apply incl_tl, incl_appl, incl_refl.
    + eapply v_var_lexed; eauto. apply (Forall_inv (l := [])). apply (Forall_sub Hy).
      apply incl_tl, incl_appr, incl_tl, incl_cons; [left; reflexivity | apply incl_nil_l].
  - rewrite v_term_listpair2 in H. destruct (v_term h k) as [h' k1] eqn:Eh.
    destruct (v_terms rest k1) as [l k2] eqn:Er. destruct (v_var v k2) as [x k3] eqn:Ev.
    destruct h' as [h'|]; destruct l as [l|]; cbn [opt2] in H; try discriminate. injection H as <- <-.
    cbn [y_term] in Hy. cbn [sterm_strs]. rewrite sterm_strs_fold_pairs. apply Forall_app. split; [|apply Forall_app; split].
    + eapply IHh; eauto. apply (Forall_sub Hy). apply incl_tl, incl_appl, incl_refl.
    + eapply v_terms_lexed; eauto. apply terms_tok_ok. apply (Forall_sub Hy).
      apply incl_tl, incl_appr, incl_tl, incl_appl, incl_refl.
    + eapply v_var_lexed; eauto. apply (Forall_inv (l := [])). apply (Forall_sub Hy).
      apply incl_tl, incl_appr, incl_tl, incl_appr, incl_tl, incl_cons; [left; reflexivity | apply incl_nil_l].
Qed.

Lemma v_callable_lexed t k f args k1 : v_callable t k = Some (f, args, k1) -> Forall tok_ok (y_term t) ->
  Forall lexed (flat_map sterm_strs args).
Proof.
  unfold v_callable. destruct (callable_shape t); [|discriminate]. destruct (v_term t k) as [o k'] eqn:E.
  destruct o as [st|]; [|discriminate]. destruct st; try discriminate; intros H Hy; injection H as <- <- <-.
  - constructor.
  - pose proof (v_term_lexed t _ _ _ E Hy) as L. simpl in L. inversion L; assumption.
Qed.

Lemma v_goal_lexed sp k b k1 : v_goal sp k = Some (b, k1) -> Forall tok_ok (y_simple sp) -> Forall lexed (body_strs b).
Proof.
  destruct sp as [| | |t]; simpl; intros H Hy; try (injection H as <- <-; constructor).
  destruct (v_callable t k) as [[[f args] k2]|] eqn:E; [|discriminate]. injection H as <- <-.
  simpl. constructor; [reflexivity | eapply v_callable_lexed; eauto].
Qed.

Lemma v_pe_lexed p : forall k b k1, v_pe p k = Some (b, k1) -> Forall tok_ok (y_pe p) -> Forall lexed (body_strs b).
Proof.
  induction p as [sp|a IH|a IHa b IHb|a IHa b IHb|a IHa b IHb|a IH]; intros k bd k1 H Hy; cbn [v_pe y_pe] in *.
  - eapply v_goal_lexed; eauto.
  - destruct (v_pe a k) as [[a' k2]|] eqn:E; [|discriminate]. injection H as <- <-. simpl.
    inversion Hy; subst. eapply IH; eauto.
  - destruct (v_pe a k) as [[a' k2]|] eqn:Ea; [|discriminate]. destruct (v_pe b k2) as [[b' k3]|] eqn:Eb; [|discriminate].
    injection H as <- <-. apply Forall_app in Hy. destruct Hy as [Hy1 Hy2]. inversion Hy2; subst.
    simpl. apply Forall_app. split; [eapply IHa | eapply IHb]; eauto.
  - destruct (v_pe a k) as [[a' k2]|] eqn:Ea; [|discriminate]. destruct (v_pe b k2) as [[b' k3]|] eqn:Eb; [|discriminate].
    injection H as <- <-. apply Forall_app in Hy. destruct Hy as [Hy1 Hy2]. inversion Hy2; subst.
    simpl. apply Forall_app. split; [eapply IHa | eapply IHb]; eauto.
  - destruct (v_pe a k) as [[a' k2]|] eqn:Ea; [|discriminate]. destruct (v_pe b k2) as [[b' k3]|] eqn:Eb; [|discriminate].
    injection H as <- <-. apply Forall_app in Hy. destruct Hy as [Hy1 Hy2]. inversion Hy2; subst.
    simpl. apply Forall_app. split; [eapply IHa | eapply IHb]; eauto.
  - eapply IH; eauto. apply (Forall_sub Hy). apply incl_tl, incl_appl, incl_refl.
Qed.

Lemma v_head_lexed sp k f args k1 : v_head sp k = Some (f, args, k1) -> Forall tok_ok (y_simple sp) ->
  Forall lexed (flat_map sterm_strs args).
Proof.
  destruct sp as [| | |t]; simpl; try discriminate. intros H Hy.
  destruct (v_callable t k) as [[[f' args'] k2]|] eqn:E; [|discriminate].
  destruct (valid_pred_name f'); [|discriminate]. injection H as <- <- <-. eapply v_callable_lexed; eauto.
Qed.

Lemma v_clause_lexed c k cl k1 : v_clause c k = Some (cl, k1) -> Forall tok_ok (y_clause c) -> Forall lexed (clause_strs cl).
Proof.
  destruct c as [h|h b]; simpl; intros H Hy.
  - destruct (v_head h k) as [[[f args] k2]|] eqn:E; [|discriminate]. injection H as <- <-.
    apply Forall_app in Hy. destruct Hy as [Hy1 _]. unfold clause_strs. simpl. rewrite app_nil_r. eapply v_head_lexed; eauto.
  - destruct (v_head h k) as [[[f args] k2]|] eqn:E; [|discriminate].
    destruct (v_pe b k2) as [[b' k3]|] eqn:Eb; [|discriminate]. injection H as <- <-.
    apply Forall_app in Hy. destruct Hy as [Hy1 Hy2]. inversion Hy2 as [|? ? _ Hy3]; subst. apply Forall_app in Hy3. destruct Hy3 as [Hy3 _].
    unfold clause_strs. simpl. apply Forall_app. split; [eapply v_head_lexed; eauto | eapply v_pe_lexed; eauto].
Qed.

Lemma v_program_lexed cst : forall k p k1, v_program cst k = Some (p, k1) -> Forall tok_ok (yield cst) -> Forall lexed (program_strs p).
Proof.
  induction cst as [|c r IH]; intros k p k1 H Hy; simpl in H.
  - injection H as <- <-. constructor.
  - unfold yield in Hy. cbn [flat_map] in Hy. apply Forall_app in Hy. destruct Hy as [Hy1 Hy2]. destruct c as [cc|sp].
    + destruct (v_clause cc k) as [[cl k2]|] eqn:E; [|discriminate].
      destruct (v_program r k2) as [[l k3]|] eqn:Er; [|discriminate]. injection H as <- <-.
      unfold program_strs. cbn [flat_map]. apply Forall_app. split; [eapply v_clause_lexed; eauto | eapply IH; eauto].
    + destruct (v_directive sp k) as [k2|]; [|discriminate]. eapply IH; eauto.
Qed.

Theorem front_lexical s p : front s = Some p -> lexical_ok p = true.
Proof.
  intros H. pose proof (front_head_names s p H) as Hn.
  apply front_whole_input in H. destruct H as [items [cst [k [_ [_ [Hl [Hy [Hv _]]]]]]]].
  assert (Ht : Forall tok_ok (yield cst)).
  { rewrite Hy. apply Forall_map, Forall_forall. intros it Hit.
    apply filter_In in Hit. destruct Hit as [Hit _]. apply rule_lang_tok_ok. rewrite Forall_forall in Hl. apply Hl. exact Hit. }
  pose proof (v_program_lexed cst 0 p k Hv Ht) as L.
  unfold lexical_ok. apply andb_true_iff. split.
  - apply forallb_forall, Forall_forall. exact L.
  - apply forallb_forall, Forall_forall. exact Hn.
Qed.

Theorem text_lines_exact printable s text : CompileText.compile_text printable s = CompileText.CText text ->
  exists p ir, front s = Some p /\ CompileClause.compile_program p = Some ir /\
    split_nl text = EmitPieces.emit_lines (PyRepr.py_repr printable) ir.
Proof.
  intros H. destruct (text_lines printable s text H) as [p [ir [Hf [Hc Hl]]]]. exists p, ir.
  split; [exact Hf|]. split; [exact Hc|]. apply Hl. eapply front_lexical; eauto.
Qed.
