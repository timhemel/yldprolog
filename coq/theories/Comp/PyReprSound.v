(* repr() output cannot escape its quotes: the Python string-literal lexer (Comp/PyLex.v),
   started on  py_repr s ++ rest,  consumes exactly  py_repr s  and denotes exactly  s.
   Proved for every string of valid code points and every `printable` oracle (Section variable)
   that calls no surrogate code point printable (surrogates_unprintable): nothing else is
   assumed about the Unicode database. *)
From Coq Require Import List NArith Bool Lia.
Import ListNotations.
From YP Require Import Base.Str Comp.PyRepr Comp.PyLex.
Local Open Scope N_scope.

Definition p16 (k : nat) : N := 16 ^ N.of_nat k.

Lemma p16_0 : p16 0 = 1.
Proof. reflexivity. Qed.

Lemma p16_S k : p16 (S k) = p16 k * 16.
Proof. unfold p16. rewrite Nat2N.inj_succ, N.pow_succ_r'. lia. Qed.

Lemma p16_pos k : 0 < p16 k.
Proof. induction k as [|k IH]; [rewrite p16_0 | rewrite p16_S]; lia. Qed.

Lemma mod_p16_S c k : c mod p16 (S k) = c mod p16 k + p16 k * ((c / p16 k) mod 16).
Proof.
  rewrite p16_S. apply N.mod_mul_r; [|lia]. pose proof (p16_pos k). lia.
Qed.

(* reading the k+1 digits that hexN wrote, with `acc` already accumulated *)
Lemma lex_hex q : forall k acc c tail,
  lex_body q (LHex k acc) (hexN (S k) c ++ tail) =
  (let v := acc * p16 (S k) + c mod p16 (S k) in
   if v <? MAXCP then cons_res v (lex_body q LNorm tail) else None).
Proof.
  induction k as [|k IH]; intros acc c tail.
  - cbn [hexN app lex_body].
    rewrite unhex_hexdigit by (apply N.mod_lt; lia).
    cbv zeta. fold (p16 0). rewrite p16_S, p16_0, N.div_1_r, N.mul_1_l. reflexivity.
  - change (hexN (S (S k)) c) with (hexdigit ((c / p16 (S k)) mod 16) :: hexN (S k) c).
    cbn [app lex_body].
    rewrite unhex_hexdigit by (apply N.mod_lt; lia).
    cbv zeta. rewrite IH. cbv zeta.
    rewrite (mod_p16_S c (S k)). rewrite (p16_S (S k)).
    replace ((acc * 16 + (c / p16 (S k)) mod 16) * p16 (S k) + c mod p16 (S k))
      with (acc * (p16 (S k) * 16) + (c mod p16 (S k) + p16 (S k) * ((c / p16 (S k)) mod 16))) by lia.
    reflexivity.
Qed.

Lemma lex_hex0 q k c tail :
  c < p16 (S k) -> c < MAXCP ->
  lex_body q (LHex k 0) (hexN (S k) c ++ tail) = cons_res c (lex_body q LNorm tail).
Proof.
  intros Hk Hc. rewrite lex_hex. cbv zeta.
  rewrite N.mul_0_l, N.add_0_l, N.mod_small by exact Hk.
  apply N.ltb_lt in Hc. rewrite Hc. reflexivity.
Qed.

(* the one fact about the Unicode database that is needed: surrogate code points (category
   Cs) are not printable, so repr() always escapes them.  Checked against the running
   interpreter for all 2048 surrogates on every run of the check. *)
Definition surrogates_unprintable (printable : N -> bool) : Prop :=
  forall c, is_surrogate c = true -> printable c = false.

Section Sound.
  Variable printable : N -> bool.
  Hypothesis Hsurr : surrogates_unprintable printable.

  Definition valid (s : str) : Prop := Forall (fun c => c < MAXCP) s.

  Lemma lex_escape_hex q c k tail e :
    (e = 120 /\ k = 1%nat) \/ (e = 117 /\ k = 3%nat) \/ (e = 85 /\ k = 7%nat) ->
    q = SQ \/ q = DQ -> c < p16 (S k) -> c < MAXCP ->
    lex_body q LNorm ((BS :: e :: hexN (S k) c) ++ tail) = cons_res c (lex_body q LNorm tail).
  Proof.
    intros He Hq Hk Hc.
    assert (Hbq : BS =? q = false) by (destruct Hq; subst; reflexivity).
    transitivity (lex_body q (LHex k 0) (hexN (S k) c ++ tail)); [|apply lex_hex0; assumption].
    change ((BS :: e :: hexN (S k) c) ++ tail) with (BS :: e :: (hexN (S k) c ++ tail)).
    generalize (hexN (S k) c ++ tail). intros r.
    cbn [lex_body]. rewrite Hbq, N.eqb_refl.
    destruct He as [[-> ->]|[[-> ->]|[-> ->]]]; reflexivity.
  Qed.

  Inductive repr_form (q c : N) : str -> Prop :=
  | rf_quote : c = q \/ c = BS -> repr_form q c [BS; c]
  | rf_ctl e : (c = 9 /\ e = 116) \/ (c = 10 /\ e = 110) \/ (c = 13 /\ e = 114) -> repr_form q c [BS; e]
  | rf_hex e k : (e = 120 /\ k = 1%nat) \/ (e = 117 /\ k = 3%nat) \/ (e = 85 /\ k = 7%nat) ->
      k = 7%nat \/ c < p16 (S k) -> repr_form q c (BS :: e :: hexN (S k) c)
  | rf_raw : c <> q -> c <> BS -> 32 <= c -> c <> 127 -> c < 127 \/ printable c = true -> repr_form q c [c].

  Lemma repr_char_form q c : repr_form q c (repr_char printable q c).
  Proof.
    unfold repr_char.
    destruct ((c =? q) || (c =? BS)) eqn:E1.
    { apply rf_quote. apply orb_true_iff in E1. destruct E1 as [E|E]; apply N.eqb_eq in E; auto. }
    apply orb_false_iff in E1. destruct E1 as [Nq Nb]. apply N.eqb_neq in Nq, Nb.
    destruct (N.eqb_spec c 9) as [->|N9]; [apply rf_ctl; auto|].
    destruct (N.eqb_spec c 10) as [->|N10]; [apply rf_ctl; auto|].
    destruct (N.eqb_spec c 13) as [->|N13]; [apply rf_ctl; auto|].
    destruct ((c <? 32) || (c =? 127)) eqn:E2.
    { apply (rf_hex _ _ 120 1); [auto|]. right. change (c < 256).
      apply orb_true_iff in E2. destruct E2 as [E|E]; [apply N.ltb_lt in E | apply N.eqb_eq in E]; lia. }
    apply orb_false_iff in E2. destruct E2 as [L32 N127]. apply N.ltb_ge in L32. apply N.eqb_neq in N127.
    destruct (N.ltb_spec c 127) as [L|L]; [apply rf_raw; auto|].
    destruct (printable c) eqn:Ep; [apply rf_raw; auto|].
    destruct (N.leb_spec c 255); [apply (rf_hex _ _ 120 1); [auto|]; right; change (c < 256); lia|].
    destruct (N.leb_spec c 65535); [apply (rf_hex _ _ 117 3); [auto|]; right; change (c < 65536); lia|].
    apply (rf_hex _ _ 85 7); auto.
  Qed.

  Lemma lex_repr_char q c tail :
    q = SQ \/ q = DQ -> c < MAXCP ->
    lex_body q LNorm (repr_char printable q c ++ tail) = cons_res c (lex_body q LNorm tail).
  Proof.
    intros Hq Hc.
    assert (Hbq : BS =? q = false) by (destruct Hq; subst; reflexivity).
    destruct (repr_char_form q c) as [E|e E|e k He Hk|Nq Nb L32 N127 Hp].
    - cbn [app lex_body]. rewrite Hbq, N.eqb_refl.
      replace ((c =? BS) || (c =? SQ) || (c =? DQ)) with true; [reflexivity|].
      symmetry. destruct E as [-> | ->]; [destruct Hq as [-> | ->]|]; reflexivity.
    - cbn [app lex_body]. rewrite Hbq, N.eqb_refl. destruct E as [[-> ->]|[[-> ->]|[-> ->]]]; reflexivity.
    - apply lex_escape_hex; auto. destruct Hk as [->|Hk]; [|exact Hk].
      change (c < 4294967296). unfold MAXCP in Hc. lia.
    - (* a raw code point: printable, hence not a surrogate *)
      assert (Hs : is_surrogate c = false).
      { destruct (is_surrogate c) eqn:Es; [|reflexivity]. destruct Hp as [L|Ep].
        - unfold is_surrogate in Es. apply andb_true_iff in Es. rewrite !N.leb_le in Es. lia.
        - rewrite (Hsurr c Es) in Ep. discriminate. }
      apply N.eqb_neq in Nq, Nb. cbn [app lex_body]. rewrite Nq, Nb.
      replace (bad_raw c) with false; [reflexivity|].
      symmetry. unfold bad_raw. rewrite Hs.
      repeat (apply orb_false_iff; split); try reflexivity; try (apply N.eqb_neq; lia).
      apply N.leb_gt. exact Hc.
  Qed.

  Lemma lex_repr_body q s rest :
    q = SQ \/ q = DQ -> valid s ->
    lex_body q LNorm (repr_body printable q s ++ q :: rest) = Some (s, rest).
  Proof.
    intros Hq Hv. induction Hv as [|c s Hc Hv IH].
    - cbn [repr_body flat_map app lex_body]. rewrite N.eqb_refl. reflexivity.
    - unfold repr_body in *. cbn [flat_map]. rewrite <- app_assoc.
      rewrite lex_repr_char by assumption. rewrite IH. reflexivity.
  Qed.

  (* the first character of a non-empty body is not the quote *)
  Lemma repr_char_head q c : q = SQ \/ q = DQ ->
    exists x r, repr_char printable q c = x :: r /\ x <> q.
  Proof.
    intros Hq. assert (Hb : BS <> q) by (destruct Hq; subst; discriminate).
    destruct (repr_char_form q c) as [E|e E|e k He Hk|Nq Nb L32 N127 Hp]; eauto.
  Qed.

  (* without the triple-quote rule: unconditional in `rest` *)
  Theorem repr_cannot_escape_short : forall s rest,
    valid s -> py_lex_short (py_repr printable s ++ rest) = Some (s, rest).
  Proof.
    intros s rest Hv. unfold py_repr, py_lex_short. cbv zeta.
    cbn [app]. rewrite <- app_assoc. cbn [app].
    pose proof (quote_of_cases s) as Hq. set (q := quote_of s) in *.
    replace ((q =? SQ) || (q =? DQ)) with true by (destruct Hq as [-> | ->]; reflexivity).
    apply lex_repr_body; assumption.
  Qed.

  (* Python reads two quotes followed by a third one as the opening of a triple-quoted
     literal; repr of the EMPTY string followed directly by a single quote is the only way to
     get there *)
  Definition no_triple (s rest : str) : Prop := s <> [] \/ hd_error rest <> Some SQ.

  Lemma repr_not_triple s rest :
    no_triple s rest -> opens_triple (py_repr printable s ++ rest) = false.
  Proof.
    intros Hn. unfold py_repr. cbv zeta. cbn [app]. rewrite <- app_assoc. cbn [app].
    destruct s as [|c s].
    - unfold quote_of, repr_body. cbn [count flat_map app N.ltb N.compare].
      destruct Hn as [Hn|Hn]; [congruence|].
      destruct rest as [|x rest]; [reflexivity|]. cbn [opens_triple].
      rewrite N.eqb_refl. cbn [andb]. apply N.eqb_neq. intros ->. apply Hn. reflexivity.
    - unfold repr_body. cbn [flat_map].
      destruct (repr_char_head (quote_of (c :: s)) c (quote_of_cases _)) as [x [r [-> Hx]]].
      cbn [app opens_triple]. apply N.eqb_neq in Hx. rewrite Hx.
      destruct ((r ++ _) ++ _); reflexivity.
  Qed.

  Theorem repr_cannot_escape : forall s rest,
    valid s -> no_triple s rest ->
    py_lex_string (py_repr printable s ++ rest) = Some (s, rest).
  Proof.
    intros s rest Hv Hn. unfold py_lex_string. rewrite repr_not_triple by exact Hn.
    apply repr_cannot_escape_short. exact Hv.
  Qed.

  (* the hypothesis no_triple is necessary: the unconditional statement is false *)
  Theorem repr_cannot_escape_unconditional_refuted :
    exists s rest, valid s /\ py_lex_string (py_repr printable s ++ rest) <> Some (s, rest).
  Proof. exists [], [SQ]. split; [constructor | cbn; discriminate]. Qed.

  (* the case of the emitted program, where `,` or `)` follows a literal (Emit.v: an EStr is a call argument) *)
  Corollary repr_cannot_escape_before c s rest :
    valid s -> c <> SQ -> py_lex_string (py_repr printable s ++ c :: rest) = Some (s, c :: rest).
  Proof.
    intros Hv Hc. apply repr_cannot_escape; [exact Hv|]. right. cbn. congruence.
  Qed.

  (* consequently repr is injective on valid strings, and no literal is a prefix of another
     one followed by anything *)
  Theorem repr_prefix_free : forall s1 s2 r1 r2,
    valid s1 -> valid s2 ->
    py_repr printable s1 ++ r1 = py_repr printable s2 ++ r2 -> s1 = s2 /\ r1 = r2.
  Proof.
    intros s1 s2 r1 r2 H1 H2 E.
    pose proof (repr_cannot_escape_short s1 r1 H1) as L1.
    pose proof (repr_cannot_escape_short s2 r2 H2) as L2.
    rewrite E in L1. rewrite L1 in L2. inversion L2. auto.
  Qed.

  Corollary repr_injective : forall s1 s2,
    valid s1 -> valid s2 -> py_repr printable s1 = py_repr printable s2 -> s1 = s2.
  Proof.
    intros s1 s2 H1 H2 E. apply (repr_prefix_free s1 s2 [] [] H1 H2). rewrite E. reflexivity.
  Qed.

  (* every code point of the output is printable ASCII, or a non-ASCII code point of the
     input that the oracle calls printable *)
  Definition out_ok (s : str) (x : N) : Prop :=
    (32 <= x < 127) \/ (127 < x /\ printable x = true /\ In x s).

  Lemma repr_char_out q c s : q = SQ \/ q = DQ -> In c s -> Forall (out_ok s) (repr_char printable q c).
  Proof.
    intros Hq Hin.
    assert (Hl : forall x, 32 <= x < 127 -> out_ok s x) by (intros x Hxx; left; exact Hxx).
    assert (Hb : out_ok s BS) by (apply Hl; unfold BS; lia).
    assert (Hqo : out_ok s q) by (apply Hl; destruct Hq; subst; unfold SQ, DQ; lia).
    destruct (repr_char_form q c) as [E|e E|e k He Hk|Nq Nb L32 N127 Hp].
    - constructor; [exact Hb|]. constructor; [|constructor]. destruct E as [-> | ->]; assumption.
    - constructor; [exact Hb|]. constructor; [|constructor]. apply Hl. destruct E as [[_ ->]|[[_ ->]|[_ ->]]]; lia.
    - constructor; [exact Hb|]. constructor; [apply Hl; destruct He as [[-> _]|[[-> _]|[-> _]]]; lia|].
      eapply Forall_impl; [|apply hexN_chars]. intros x Hr. apply Hl. cbv beta in Hr. lia.
    - constructor; [|constructor]. destruct (N.ltb_spec c 127) as [L|L]; [apply Hl; lia|].
      right. split; [lia|]. split; [destruct Hp; [lia|assumption] | exact Hin].
  Qed.

  Theorem repr_output_chars : forall s, Forall (out_ok s) (py_repr printable s).
  Proof.
    intros s. unfold py_repr. cbv zeta.
    assert (Hqo : out_ok s (quote_of s)).
    { left. destruct (quote_of_cases s) as [-> | ->]; unfold SQ, DQ; lia. }
    constructor; [exact Hqo|]. apply Forall_app. split; [|apply Forall_cons; [exact Hqo | apply Forall_nil]].
    unfold repr_body. apply Forall_flat_map, Forall_forall. intros c Hc.
    exact (repr_char_out (quote_of s) c s (quote_of_cases s) Hc).
  Qed.

  (* no line break (and no other control character) in the output: a literal never starts a
     new logical or physical line of the emitted program *)
  Theorem repr_no_newline : forall s, Forall (fun x => x <> 10 /\ x <> 13) (py_repr printable s).
  Proof.
    intros s. eapply Forall_impl; [|apply repr_output_chars].
    intros x [H|[H _]]; lia.
  Qed.

  Theorem repr_no_control : forall s, Forall (fun x => 32 <= x /\ x <> 127) (py_repr printable s).
  Proof.
    intros s. eapply Forall_impl; [|apply repr_output_chars].
    intros x [H|[H _]]; lia.
  Qed.

  Theorem repr_ascii_when_nothing_printable : forall s,
    (forall c, In c s -> 127 < c -> printable c = false) ->
    Forall (fun x => 32 <= x < 127) (py_repr printable s).
  Proof.
    intros s Hnp. eapply Forall_impl; [|apply repr_output_chars].
    intros x [H|[H1 [H2 H3]]]; [exact H|]. rewrite (Hnp x H3 H1) in H2. discriminate.
  Qed.

  (* the delimiters: first and last code point are the same quote character *)
  Theorem repr_delimited : forall s, exists body,
    py_repr printable s = quote_of s :: body ++ [quote_of s] /\ (quote_of s = SQ \/ quote_of s = DQ).
  Proof. intros s. exists (repr_body printable (quote_of s) s). split; [reflexivity | apply quote_of_cases]. Qed.
End Sound.
