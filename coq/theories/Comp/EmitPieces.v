(* C12 source_text_positions: where source text can occur in the emitted Python text.

   The emitted text is cut into PIECES, line by line.  A piece is
     PFix w      text that does not come from the source: a word of a fixed finite vocabulary, a run of
                 blanks (indentation), a decimal number (loop level, label number, arity), or arg<n>
     PRepr s     repr(s)                         - s an atom / functor name / goal name of the source
     PNum d      str(int(d))                     - d a numeral of the source
     PVar v      "V_" ++ v                       - v a variable name of the source
     PDef f n    f ++ "_" ++ <n>                 - f/n a clause-head name and arity of the source
   pieces_erasure:  rendering the pieces gives exactly the lines of emit_program (for every code)
   pieces_ok:       for everything compile_program produces, every PFix piece is fixed text in the sense
                    above (fixed_ok, a closed boolean test) and the other pieces carry strings of the
                    program of the right kind.
   So every character of the output that depends on the source lies inside one of the four renderings. *)
From Coq Require Import String.
From Coq Require Import List Arith Bool NArith Lia.
Import ListNotations.
From YP Require Import Base.Str Lang.Ast Comp.IR Comp.CompileBody Comp.CompileClause Comp.Emit Comp.EmitShape Comp.EmitNames.
From YP Require Engine.Keys.
Local Open Scope string_scope.
Local Open Scope list_scope.

(* emit_stmt on the two statements with a body: its inner loop over the body is emit_list (stated here, where they are
   first needed: Emit.v holds the definitions only) *)
Lemma emit_stmt_foreach repr it body i lv : emit_stmt repr (SForeach it body) i lv =
  ind i (s_ "for l" ++ dec_of_nat (S lv) ++ s_ " in " ++ emit_expr repr it ++ s_ ":")
  :: (match body with [] => [ind (S i) (s_ "pass")] | _ => emit_list repr body (S i) (S lv) end) ++ break_code i.
Proof. reflexivity. Qed.

Lemma emit_stmt_block repr l body i lv : emit_stmt repr (SBlock l body) i lv =
  ind i (label_name l ++ s_ " = False")
  :: (match body with [] => [] | _ => ind i (s_ "for _ in [1]:") :: emit_list repr body (S i) lv end)
  ++ [ind i (s_ "if " ++ label_name l ++ s_ ":"); ind (S i) (s_ "doBreak = False")] ++ break_code i.
Proof. reflexivity. Qed.

Inductive piece :=
| PFix (w : str)
| PRepr (s : str)
| PNum (digits : str)
| PVar (v : str)
| PDef (f : str) (n : nat).

Definition F (s : string) : piece := PFix (s_ s).

Section Pieces.
Variable repr : str -> str.

Definition render (p : piece) : str :=
  match p with
  | PFix w => w
  | PRepr s => repr s
  | PNum d => strip_zeros d
  | PVar v => pyvar v
  | PDef f n => f ++ s_ "_" ++ dec_of_nat n
  end.
Definition flat (l : list piece) : str := flat_map render l.

Lemma flat_app a b : flat (a ++ b) = flat a ++ flat b.
Proof. apply flat_map_app. Qed.

(* an identifier of the code: a prefixed source variable, or generated text *)
Definition classify (x : str) : piece :=
  match strip_prefix (s_ "V_") x with Some v => PVar v | None => PFix x end.

Lemma render_classify x : render (classify x) = x.
Proof.
  unfold classify. destruct (strip_prefix (s_ "V_") x) as [v|] eqn:E; [|reflexivity].
  apply strip_prefix_some in E. subst. reflexivity.
Qed.

Fixpoint pjoin (sep : list piece) (l : list (list piece)) : list piece :=
  match l with
  | [] => []
  | [x] => x
  | x :: r => x ++ sep ++ pjoin sep r
  end.

Lemma flat_pjoin sep l : flat (pjoin sep l) = join (flat sep) (map flat l).
Proof.
  induction l as [|x r IH]; [reflexivity|]. destruct r as [|y r']; [reflexivity|].
  change (pjoin sep (x :: y :: r')) with (x ++ sep ++ pjoin sep (y :: r')).
  change (map flat (x :: y :: r')) with (flat x :: map flat (y :: r')).
  change (join (flat sep) (flat x :: map flat (y :: r'))) with (flat x ++ flat sep ++ join (flat sep) (map flat (y :: r'))).
  rewrite !flat_app, IH. reflexivity.
Qed.

Fixpoint expr_pieces (e : expr) : list piece :=
  match e with
  | EVar x => [classify x]
  | EStr s => [PRepr s]
  | ENum d => [PNum d]
  | ECall f args => PFix f :: F "(" :: pjoin [F ","] (map expr_pieces args) ++ [F ")"]
  | EList items => F "[" :: pjoin [F ","] (map expr_pieces items) ++ [F "]"]
  end.

Lemma expr_pieces_flat e : flat (expr_pieces e) = emit_expr repr e.
Proof.
  assert (Args : forall es, Forall (fun e => flat (expr_pieces e) = emit_expr repr e) es ->
            map flat (map expr_pieces es) = map (emit_expr repr) es).
  { intros es IH. rewrite map_map. apply map_ext_Forall. exact IH. }
  induction e as [x|s|n|f args IH|items IH] using expr_ind'; cbn [expr_pieces emit_expr].
  - cbn [flat flat_map]. rewrite app_nil_r. apply render_classify.
  - apply app_nil_r.
  - apply app_nil_r.
  - cbn [flat flat_map render F]. fold (flat (pjoin [F ","] (map expr_pieces args) ++ [F ")"])).
    rewrite flat_app, flat_pjoin, (Args args IH). reflexivity.
  - cbn [flat flat_map render F]. fold (flat (pjoin [F ","] (map expr_pieces items) ++ [F "]"])).
    rewrite flat_app, flat_pjoin, (Args items IH). reflexivity.
Qed.

Definition pind (n : nat) (l : list piece) : list piece := PFix (repeat 32%N (2 * n)) :: l.
Definition plabel (l : nat) : list piece := [F "cutIf"; PFix (dec_of_nat l)].
Definition pbreak_code (i : nat) : list (list piece) := [pind i [F "if doBreak:"]; pind (S i) [F "break"]].

Lemma flat_pind n l : flat (pind n l) = ind n (flat l).
Proof. reflexivity. Qed.

Fixpoint stmt_pieces (st : stmt) (i lv : nat) {struct st} : list (list piece) :=
  let list_pieces := fix list_pieces (c : list stmt) (i lv : nat) {struct c} : list (list piece) :=
      match c with [] => [] | st :: r => stmt_pieces st i lv ++ list_pieces r i lv end in
  match st with
  | SAssign x e => [pind i (classify x :: F " = " :: expr_pieces e)]
  | SYieldFalse => [pind i [F "yield False"]]
  | SYieldTrue => [pind i [F "yield True"]]
  | SReturn => [pind i [F "return"]]
  | SBreakBlock l => [pind i (plabel l ++ [F " = True"]); pind i [F "doBreak = True"]; pind i [F "break"]]
  | SForeach it body =>
      pind i (F "for l" :: PFix (dec_of_nat (S lv)) :: F " in " :: expr_pieces it ++ [F ":"])
      :: (match body with [] => [pind (S i) [F "pass"]] | _ => list_pieces body (S i) (S lv) end)
      ++ pbreak_code i
  | SBlock l body =>
      pind i (plabel l ++ [F " = False"])
      :: (match body with [] => [] | _ => pind i [F "for _ in [1]:"] :: list_pieces body (S i) lv end)
      ++ [pind i (F "if " :: plabel l ++ [F ":"]); pind (S i) [F "doBreak = False"]]
      ++ pbreak_code i
  end.

Fixpoint list_pieces (c : list stmt) (i lv : nat) : list (list piece) :=
  match c with [] => [] | st :: r => stmt_pieces st i lv ++ list_pieces r i lv end.

Lemma stmt_pieces_foreach it body i lv : stmt_pieces (SForeach it body) i lv =
  pind i (F "for l" :: PFix (dec_of_nat (S lv)) :: F " in " :: expr_pieces it ++ [F ":"])
  :: (match body with [] => [pind (S i) [F "pass"]] | _ => list_pieces body (S i) (S lv) end) ++ pbreak_code i.
Proof. reflexivity. Qed.

Lemma stmt_pieces_block l body i lv : stmt_pieces (SBlock l body) i lv =
  pind i (plabel l ++ [F " = False"])
  :: (match body with [] => [] | _ => pind i [F "for _ in [1]:"] :: list_pieces body (S i) lv end)
  ++ [pind i (F "if " :: plabel l ++ [F ":"]); pind (S i) [F "doBreak = False"]] ++ pbreak_code i.
Proof. reflexivity. Qed.

Lemma list_pieces_flat c : Forall (fun st => forall i lv, map flat (stmt_pieces st i lv) = emit_stmt repr st i lv) c ->
  forall i lv, map flat (list_pieces c i lv) = emit_list repr c i lv.
Proof.
  induction 1 as [|st r Hst _ IH]; intros i lv; [reflexivity|].
  cbn [list_pieces emit_list]. rewrite map_app, Hst, IH. reflexivity.
Qed.

Lemma stmt_pieces_flat st : forall i lv, map flat (stmt_pieces st i lv) = emit_stmt repr st i lv.
Proof.
  induction st as [x e|it body IH| | | |l body IH|l] using stmt_ind'; intros i lv; try reflexivity.
  - cbn [stmt_pieces emit_stmt map]. rewrite flat_pind. cbn [flat flat_map].
    fold (flat (expr_pieces e)). rewrite render_classify, expr_pieces_flat. reflexivity.
  - rewrite stmt_pieces_foreach, emit_stmt_foreach. cbn [map]. rewrite map_app, flat_pind. f_equal.
    + cbn [flat flat_map app render F]. fold (flat (expr_pieces it ++ [F ":"])).
      rewrite flat_app, expr_pieces_flat. reflexivity.
    + f_equal. destruct body as [|b0 br]; [reflexivity|]. apply list_pieces_flat. exact IH.
  - rewrite stmt_pieces_block, emit_stmt_block. cbn [map]. rewrite map_app. f_equal. f_equal.
    destruct body as [|b0 br]; [reflexivity|]. cbn [map]. f_equal. apply list_pieces_flat. exact IH.
Qed.

Definition parg_names (n : nat) : list (list piece) := map (fun x => [PFix x]) (arg_names 0 n).

Definition function_pieces (f : func) : list (list piece) :=
  (F "def " :: PDef (fn_name f) (fn_arity f) :: F "(" :: pjoin [F ","] (parg_names (fn_arity f)) ++ [F "):"])
  :: pind 1 [F "doBreak = False"]
  :: pind 1 [F "for _ in [1]:"]
  :: (match fn_body f with [] => [pind 2 [F "pass"]] | b => list_pieces b 2 0 end)
  ++ [pind 1 [F "if False:"]; pind 3 [F "yield False"]].

Lemma parg_names_flat n : map flat (parg_names n) = arg_names 0 n.
Proof.
  unfold parg_names. rewrite map_map. rewrite <- (map_id (arg_names 0 n)) at 2.
  apply map_ext. intros a. apply app_nil_r.
Qed.

Lemma function_pieces_flat f : map flat (function_pieces f) = emit_function repr f.
Proof.
  unfold function_pieces, emit_function. cbn [map]. rewrite map_app. apply (f_equal2 cons).
  - cbn [flat flat_map render F]. fold (flat (pjoin [F ","] (parg_names (fn_arity f)) ++ [F "):"])).
    rewrite flat_app, flat_pjoin, parg_names_flat, <- !app_assoc. reflexivity.
  - do 2 (apply (f_equal2 cons); [reflexivity|]). apply (f_equal2 (@app str)); [|reflexivity].
    destruct (fn_body f) as [|b0 br]; [reflexivity|].
    apply list_pieces_flat. apply Forall_forall. intros st _. apply stmt_pieces_flat.
Qed.

Definition pheader : list (list piece) := [[F "#"]; [F "# This code is generated by the yldprolog compiler."]; [F "#"]].

Definition program_pieces (p : ir_program) : list (list piece) :=
  pheader ++ [[]] ++ match p with [] => [[]] | _ => flat_map (fun f => function_pieces f ++ [[]]) p end.

Definition emit_lines (p : ir_program) : list str :=
  header ++ [[]] ++ match p with [] => [[]] | _ => flat_map (fun f => emit_function repr f ++ [[]]) p end.

Lemma emit_program_lines p : emit_program repr p = join [10%N] (emit_lines p).
Proof. reflexivity. Qed.

Theorem pieces_erasure p : map flat (program_pieces p) = emit_lines p.
Proof.
  unfold program_pieces, emit_lines. rewrite !map_app. f_equal. f_equal.
  destruct p as [|f0 fr]; [reflexivity|].
  generalize (f0 :: fr). intros l. induction l as [|f r IH]; [reflexivity|].
  cbn [flat_map]. rewrite !map_app, IH, function_pieces_flat. reflexivity.
Qed.
End Pieces.

Definition vocab : list str := map s_
  ["("; ")"; "["; "]"; ","; ":"; " = "; "for l"; " in "; "cutIf"; " = True"; " = False"; "doBreak = True"; "doBreak = False"; "break";
   "if doBreak:"; "yield False"; "yield True"; "return"; "pass"; "for _ in [1]:"; "if "; "if False:"; "def "; "):"; "#";
   "# This code is generated by the yldprolog compiler.";
   "query"; "unify"; "atom"; "functor"; "listpair"; "makelist"; "variable"; "ATOM_NIL"].

Definition all_blank (w : str) : bool := forallb (N.eqb 32) w.

(* text that does not come from the source: a vocabulary word, blanks, a decimal number, arg<n> *)
Definition fixed_ok (w : str) : bool :=
  existsb (str_eqb w) vocab || all_blank w || Keys.digits_ok w || numbered (s_ "arg") w.

Lemma fixed_blank n : fixed_ok (repeat 32%N n) = true.
Proof.
  unfold fixed_ok. assert (H : all_blank (repeat 32%N n) = true) by (induction n; simpl; auto).
  rewrite H. rewrite orb_true_r. reflexivity.
Qed.
Lemma fixed_dec n : fixed_ok (dec_of_nat n) = true.
Proof. unfold fixed_ok. rewrite Keys.dec_of_nat_digits. rewrite orb_true_r. reflexivity. Qed.
Lemma fixed_argvar i : fixed_ok (argvar i) = true.
Proof. unfold fixed_ok, argvar. rewrite numbered_dec. rewrite orb_true_r. reflexivity. Qed.

Section PieceOk.
  Variable P : kstr -> Prop.
  Variable K : key -> Prop.

  Definition piece_ok (pc : piece) : Prop :=
    match pc with
    | PFix w => fixed_ok w = true
    | PRepr s => P (KAtom, s)
    | PNum d => P (KNum, d)
    | PVar v => P (KVar, v)
    | PDef f n => K (f, n)
    end.

  Lemma pjoin_ok sep l : Forall piece_ok sep -> Forall (Forall piece_ok) l -> Forall piece_ok (pjoin sep l).
  Proof.
    intros Hs Hl. induction l as [|x r IH]; [constructor|]. inversion Hl; subst.
    destruct r as [|y r']; [assumption|].
    change (pjoin sep (x :: y :: r')) with (x ++ sep ++ pjoin sep (y :: r')).
    apply Forall_app. split; [assumption|]. apply Forall_app. split; [assumption | apply IH; assumption].
  Qed.

  Lemma classify_pyvar v : classify (pyvar v) = PVar v.
  Proof. unfold classify, pyvar. rewrite strip_prefix_app. reflexivity. Qed.
  Lemma classify_argvar i : classify (argvar i) = PFix (argvar i).
  Proof. reflexivity. Qed.

  Lemma pind_ok n l : Forall piece_ok l -> Forall piece_ok (pind n l).
  Proof. intros H. constructor; [apply fixed_blank | exact H]. Qed.

  Lemma plabel_ok l : Forall piece_ok (plabel l).
  Proof. constructor; [reflexivity|]. constructor; [apply fixed_dec | constructor]. Qed.

  Lemma pbreak_ok i : Forall (Forall piece_ok) (pbreak_code i).
  Proof. repeat constructor; apply fixed_blank. Qed.

  Lemma args_pieces_ok es : Forall (fun e => Forall piece_ok (expr_pieces e)) es ->
    Forall piece_ok (pjoin [F ","] (map expr_pieces es)).
  Proof.
    intros H. apply pjoin_ok; [constructor; [reflexivity | constructor]|]. apply Forall_map. exact H.
  Qed.

  Lemma call_pieces_ok f args : fixed_ok f = true -> Forall (fun e => Forall piece_ok (expr_pieces e)) args ->
    Forall piece_ok (expr_pieces (ECall f args)).
  Proof.
    intros Hf H. cbn [expr_pieces]. constructor; [exact Hf|]. constructor; [reflexivity|].
    apply Forall_app. split; [apply args_pieces_ok; exact H | repeat constructor].
  Qed.

  Lemma elist_pieces_ok items : Forall (fun e => Forall piece_ok (expr_pieces e)) items ->
    Forall piece_ok (expr_pieces (EList items)).
  Proof.
    intros H. cbn [expr_pieces]. constructor; [reflexivity|].
    apply Forall_app. split; [apply args_pieces_ok; exact H | repeat constructor].
  Qed.

  Lemma term_expr_pieces_ok e : term_expr P e -> Forall piece_ok (expr_pieces e).
  Proof.
    intros H. induction H as [a Ha|v Hv|f es Hf IH|d Hd| |es IH|h t IHh IHt] using term_expr_ind.
    - apply call_pieces_ok; [reflexivity|]. repeat constructor. exact Ha.
    - cbn [expr_pieces]. rewrite classify_pyvar. repeat constructor. exact Hv.
    - apply call_pieces_ok; [reflexivity|]. constructor; [repeat constructor; exact Hf|].
      constructor; [apply elist_pieces_ok; exact IH | constructor].
    - repeat constructor. exact Hd.
    - repeat constructor.
    - apply call_pieces_ok; [reflexivity|]. constructor; [apply elist_pieces_ok; exact IH | constructor].
    - apply call_pieces_ok; [reflexivity|]. repeat (constructor; [assumption|]). constructor.
  Qed.

  Lemma foreach_pieces_ok it body i lv : Forall piece_ok (expr_pieces it) ->
    Forall (Forall piece_ok) (list_pieces body (S i) (S lv)) ->
    Forall (Forall piece_ok) (stmt_pieces (SForeach it body) i lv).
  Proof.
    intros Hit Hb. rewrite stmt_pieces_foreach. constructor.
    - apply pind_ok. constructor; [reflexivity|]. constructor; [apply fixed_dec|]. constructor; [reflexivity|].
      apply Forall_app. split; [exact Hit | repeat constructor].
    - apply Forall_app. split; [|apply pbreak_ok].
      destruct body as [|b0 br]; [repeat constructor; apply fixed_blank | exact Hb].
  Qed.

  Lemma block_pieces_ok l body i lv : Forall (Forall piece_ok) (list_pieces body (S i) lv) ->
    Forall (Forall piece_ok) (stmt_pieces (SBlock l body) i lv).
  Proof.
    intros Hb. rewrite stmt_pieces_block.
    constructor; [apply pind_ok; apply Forall_app; split; [apply plabel_ok | repeat constructor]|].
    apply Forall_app. split.
    - destruct body as [|b0 br]; [constructor|]. constructor; [repeat constructor; apply fixed_blank | exact Hb].
    - constructor; [apply pind_ok; constructor; [reflexivity|]; apply Forall_app; split; [apply plabel_ok | repeat constructor]|].
      constructor; [repeat constructor; apply fixed_blank | apply pbreak_ok].
  Qed.

  Lemma list_pieces_ok c : Forall (fun st => forall i lv, Forall (Forall piece_ok) (stmt_pieces st i lv)) c ->
    forall i lv, Forall (Forall piece_ok) (list_pieces c i lv).
  Proof.
    induction 1 as [|st r Hst _ IH]; intros i lv; [constructor|].
    cbn [list_pieces]. apply Forall_app. split; [apply Hst | apply IH].
  Qed.

  Variable A : nat.

  Lemma stmt_pieces_ok st : stmt_ok P A st -> forall i lv, Forall (Forall piece_ok) (stmt_pieces st i lv).
  Proof.
    intros H. induction H as [v j Hv Hj|v Hv|f args body Hf Ha Hb IH|j a body Hj Ha Hb IH| | | |l body Hb IH|l] using stmt_ok_ind';
      intros i lv.
    - cbn [stmt_pieces]. rewrite classify_pyvar. constructor; [|constructor]. apply pind_ok.
      constructor; [exact Hv|]. constructor; [reflexivity|]. constructor; [apply fixed_argvar | constructor].
    - cbn [stmt_pieces]. rewrite classify_pyvar. constructor; [|constructor]. apply pind_ok.
      constructor; [exact Hv|]. constructor; [reflexivity|]. apply call_pieces_ok; [reflexivity | constructor].
    - apply foreach_pieces_ok; [|apply list_pieces_ok; exact IH].
      apply call_pieces_ok; [reflexivity|]. constructor; [repeat constructor; exact Hf|].
      constructor; [|constructor]. apply elist_pieces_ok. eapply Forall_impl; [|exact Ha]. exact term_expr_pieces_ok.
    - apply foreach_pieces_ok; [|apply list_pieces_ok; exact IH].
      apply call_pieces_ok; [reflexivity|]. constructor; [repeat constructor; apply fixed_argvar|].
      constructor; [apply term_expr_pieces_ok; exact Ha | constructor].
    - repeat constructor; apply fixed_blank.
    - repeat constructor; apply fixed_blank.
    - repeat constructor; apply fixed_blank.
    - apply block_pieces_ok. apply list_pieces_ok. exact IH.
    - cbn [stmt_pieces]. constructor; [apply pind_ok; apply Forall_app; split; [apply plabel_ok | repeat constructor]|].
      repeat constructor; apply fixed_blank.
  Qed.
End PieceOk.

Lemma parg_names_ok P K n : Forall (Forall (piece_ok P K)) (parg_names n).
Proof.
  unfold parg_names. apply Forall_map, Forall_forall. intros x Hx.
  apply arg_names_form in Hx. destruct Hx as [i [-> _]]. constructor; [apply fixed_argvar | constructor].
Qed.

Lemma function_pieces_ok (P : kstr -> Prop) (K : key -> Prop) f : func_ok P f -> K (fn_key f) -> Forall (Forall (piece_ok P K)) (function_pieces f).
Proof.
  intros Hok Hk. unfold function_pieces.
  constructor.
  { constructor; [reflexivity|]. constructor; [exact Hk|]. constructor; [reflexivity|].
    apply Forall_app. split; [|repeat constructor]. apply pjoin_ok; [repeat constructor | apply parg_names_ok]. }
  constructor; [repeat constructor; apply fixed_blank|]. constructor; [repeat constructor; apply fixed_blank|].
  apply Forall_app. split; [|repeat constructor; apply fixed_blank].
  destruct (fn_body f) as [|b0 br] eqn:E; [repeat constructor; apply fixed_blank|].
  unfold func_ok in Hok. rewrite E in Hok. apply list_pieces_ok.
  eapply Forall_impl; [|exact Hok]. intros st. apply stmt_pieces_ok.
Qed.

(* PIECES_OK (C12 source_text_positions): in the text of every program the compiler produces, every
   piece that is not one of the four renderings of a source string is fixed text *)
Theorem pieces_ok p ir : compile_program p = Some ir ->
  Forall (Forall (piece_ok (inl_ (program_strs p)) (fun k => In k (head_keys p)))) (program_pieces ir).
Proof.
  intros H. destruct (compile_program_shape p ir H) as [Hs Hk].
  unfold program_pieces. apply Forall_app. split; [repeat constructor|]. apply Forall_app. split; [repeat constructor|].
  destruct ir as [|f0 fr]; [repeat constructor|].
  apply Forall_flat_map, Forall_forall. intros f Hf. apply Forall_app. split; [|repeat constructor].
  rewrite Forall_forall in Hs. destruct (Hs f Hf) as [cs [Hi [Hkk [Hok _]]]].
  apply function_pieces_ok.
  - unfold func_ok in *. eapply Forall_impl; [|exact Hok]. apply stmt_ok_mono. intros x Hx. unfold inl_ in *.
    apply in_flat_map in Hx. destruct Hx as [c [Hc Hx]]. unfold program_strs. apply in_flat_map. exists c. split; [apply Hi; exact Hc | exact Hx].
  - rewrite <- Hk. apply in_map. exact Hf.
Qed.
