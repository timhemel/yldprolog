(* Relational parametricity of the reference control semantics: if two interpretations of the calls
   take related states to pairwise related answers (same number, same order, same way of ending), then so
   does every body.  With R = equality this is extensionality (the answers of a body depend on the called
   predicates only through their answer sequences); with other relations it transports a simulation
   between two engines / two representations of the binding store through all control constructs. *)
From Coq Require Import List Arith Bool.
Import ListNotations.
From YP Require Import Base.Str Lang.Ast Sem.Res Sem.RefSem Sem.SemLemmas.

Section Rel.
Variables S1 S2 : Type.
Variable R : S1 -> S2 -> Prop.
Variable I1 : str -> list sterm -> S1 -> list S1 * bool.
Variable I2 : str -> list sterm -> S2 -> list S2 * bool.

Definition rel_res (r1 : res S1) (r2 : res S2) : Prop := Forall2 R (fst r1) (fst r2) /\ snd r1 = snd r2.

Hypothesis Hleaf : forall f a s1 s2, R s1 s2 ->
  Forall2 R (fst (I1 f a s1)) (fst (I2 f a s2)) /\ snd (I1 f a s1) = snd (I2 f a s2).

Lemma seqr_rel (f1 : S1 -> res S1) (f2 : S2 -> res S2) xs1 xs2 e :
  Forall2 R xs1 xs2 -> (forall x1 x2, R x1 x2 -> rel_res (f1 x1) (f2 x2)) -> rel_res (seqr f1 xs1 e) (seqr f2 xs2 e).
Proof.
  intros HX Hf. induction HX as [|x1 x2 r1 r2 Hx Hr IH]; [split; [constructor|reflexivity]|].
  cbn [seqr]. destruct (Hf x1 x2 Hx) as [A B]. destruct (f1 x1) as [ys1 g1], (f2 x2) as [ys2 g2]. cbn [fst snd] in *. subst g2.
  destruct g1; try (split; [exact A|reflexivity]).
  destruct IH as [C D]. destruct (seqr f1 r1 e) as [zs1 h1], (seqr f2 r2 e) as [zs2 h2]. cbn [fst snd] in *.
  split; [apply Forall2_app; assumption|exact D].
Qed.

Lemma opaque_rel r1 r2 : rel_res r1 r2 -> rel_res (opaque r1) (opaque r2).
Proof. destruct r1 as [xs1 g1], r2 as [xs2 g2]. intros [A B]. cbn [fst snd] in *. subst g2. destruct g1; split; auto. Qed.

Lemma ite_rel rc1 rc2 (t1 : S1 -> res S1) (t2 : S2 -> res S2) e1 e2 :
  rel_res rc1 rc2 -> (forall x1 x2, R x1 x2 -> rel_res (t1 x1) (t2 x2)) -> rel_res e1 e2 -> rel_res (ite rc1 t1 e1) (ite rc2 t2 e2).
Proof.
  destruct rc1 as [xs1 g1], rc2 as [xs2 g2]. intros [A B] Ht He. cbn [fst snd] in *. subst g2.
  destruct A as [|x1 x2 r1 r2 Hx Hr]; cbn [ite].
  - destruct g1; auto; split; cbn [fst snd]; solve [apply Forall2_nil|reflexivity].
  - apply Ht; exact Hx.
Qed.

Lemma por_rel ra1 ra2 rb1 rb2 : rel_res ra1 ra2 -> rel_res rb1 rb2 -> rel_res (por ra1 rb1) (por ra2 rb2).
Proof.
  destruct ra1 as [xs1 g1], ra2 as [xs2 g2], rb1 as [ys1 h1], rb2 as [ys2 h2]. intros [A B] [C D]. cbn [fst snd] in *. subst g2 h2.
  destruct g1; cbn [por]; try (split; [exact A|reflexivity]).
  split; [apply Forall2_app; assumption|reflexivity].
Qed.

Theorem sem_rel : forall b s1 s2, R s1 s2 -> rel_res (sem I1 b s1) (sem I2 b s2).
Proof.
  induction b as [f a| | | |l|a b IHa IHb|a b Hif IHa IHb|c t e IHc IHt IHe|c t IHc IHt|a IHa] using body_ind'; intros s1 s2 Hs.
  - cbn [sem]. destruct (Hleaf f a s1 s2 Hs) as [A B]. destruct (I1 f a s1) as [xs1 e1], (I2 f a s2) as [xs2 e2].
    cbn [fst snd] in *. subst e2. split; [exact A|reflexivity].
  - split; [repeat constructor; exact Hs|reflexivity].
  - split; [constructor|reflexivity].
  - split; [repeat constructor; exact Hs|reflexivity].
  - split; [repeat constructor; exact Hs|reflexivity].
  - cbn [sem]. destruct (IHa s1 s2 Hs) as [A B]. destruct (sem I1 a s1) as [xs1 e1], (sem I2 a s2) as [xs2 e2].
    cbn [fst snd] in *. subst e2. apply seqr_rel; [exact A|exact IHb].
  - rewrite !sem_or_plain by exact Hif. apply por_rel; auto.
  - rewrite !sem_or_if. apply ite_rel; [apply opaque_rel; auto|exact IHt|auto].
  - cbn [sem]. apply ite_rel; [apply opaque_rel; auto|exact IHt|split; [constructor|reflexivity]].
  - cbn [sem]. apply ite_rel; [apply opaque_rel; auto|intros; split; [constructor|reflexivity]|split; [repeat constructor; exact Hs|reflexivity]].
Qed.
End Rel.

Lemma Forall2_diag {A} (R : A -> A -> Prop) l : (forall x, In x l -> R x x) -> Forall2 R l l.
Proof.
  induction l as [|a l IH]; intros H; constructor.
  - apply H. left; reflexivity.
  - apply IH. intros x Hx. apply H. right; exact Hx.
Qed.

Lemma Forall2_eq_In {A} (R : A -> Prop) l l' x : Forall2 (fun a b => a = b /\ R a) l l' -> In x l -> R x.
Proof.
  induction 1 as [|a b l l' [_ Ra] _ IH]; intros Hx; [contradiction|].
  destruct Hx as [<-|Hx]; [exact Ra|exact (IH Hx)].
Qed.

Section SemInv.
Variable S : Type.
Variable I : str -> list sterm -> S -> list S * bool.
Variable P : S -> Prop.
Variable Q : S -> S -> Prop.
Hypothesis Qrefl : forall s, Q s s.
Hypothesis Qtrans : forall a b c, Q a b -> Q b c -> Q a c.
Hypothesis Hleaf : forall f a s, P s -> forall x, In x (fst (I f a s)) -> P x /\ Q s x.

Theorem sem_good b s0 : P s0 -> forall x, In x (fst (sem I b s0)) -> P x /\ Q s0 x.
Proof.
  intros P0.
  set (R := fun x y : S => x = y /\ (P x /\ Q s0 x)).
  assert (H : rel_res S S R (sem I b s0) (sem I b s0)).
  { apply (sem_rel S S R I I).
    - intros f a s1 s2 [<- [P1 Q1]]. split; [|reflexivity].
      apply Forall2_diag. intros x Hx. destruct (Hleaf f a s1 P1 x Hx) as [Px Qx].
      split; [reflexivity|]. split; [exact Px|exact (Qtrans _ _ _ Q1 Qx)].
    - split; [reflexivity|]. split; [exact P0|apply Qrefl]. }
  intros x Hx. exact (Forall2_eq_In _ _ _ x (proj1 H) Hx).
Qed.
End SemInv.
