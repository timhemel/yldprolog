(* The compiled program computes the clause-level reference semantics:
     query n (compile_program P) name args st = solveA n P name args st
   for every program (a cut inside a condition or under \+ is local to it), every call depth n, every predicate name, argument list and state. *)
From Coq Require Import String.
From Coq Require Import List Arith Bool ZArith NArith Lia.
Import ListNotations.
From YP Require Import Base.Str Term.Term Term.Fast Unify.Unify Unify.Fast Lang.Ast Comp.IR Comp.CompileBody Comp.CompileClause
  Sem.Res Sem.RefSem Sem.SemLemmas Sem.IRSem Sem.ControlCorrect Sem.Machine Sem.ClauseSem.
Local Open Scope string_scope.
Local Open Scope list_scope.

Lemma evals_map r xs :
  (fix evals (l : list expr) : list term :=
     match l with [] => [] | x :: t => eval_expr r x :: evals t end) xs = map (eval_expr r) xs.
Proof. induction xs as [|x l IH]; simpl; [reflexivity|]. rewrite IH. reflexivity. Qed.

Lemma eval_atom r a : eval_expr r (ECall (s_ "atom") [EStr a]) = TAtom a.
Proof. reflexivity. Qed.
Lemma eval_functor r g xs : eval_expr r (ECall (s_ "functor") [EStr g; EList xs]) = TFun g (map (eval_expr r) xs).
Proof. change (eval_expr r (ECall (s_ "functor") [EStr g; EList xs])) with
  (TFun g ((fix evals (l : list expr) : list term :=
     match l with [] => [] | x :: t => eval_expr r x :: evals t end) xs)). rewrite evals_map. reflexivity. Qed.
Lemma eval_makelist r xs : eval_expr r (ECall (s_ "makelist") [EList xs]) = mk_list (map (eval_expr r) xs).
Proof. change (eval_expr r (ECall (s_ "makelist") [EList xs])) with
  (mk_list ((fix evals (l : list expr) : list term :=
     match l with [] => [] | x :: t => eval_expr r x :: evals t end) xs)). rewrite evals_map. reflexivity. Qed.
Lemma eval_listpair r h t : eval_expr r (ECall (s_ "listpair") [h; t]) = cons_term (eval_expr r h) (eval_expr r t).
Proof. reflexivity. Qed.
Lemma eval_pyvar r v : eval_expr r (EVar (pyvar v)) = match env_get (pyvar v) r with Some t => t | None => bad_term end.
Proof. reflexivity. Qed.
Lemma eval_argvar r i : eval_expr r (EVar (argvar i)) = argval i r.
Proof. reflexivity. Qed.

Lemma eval_compile r t : eval_expr r (compile_expression t) = instA r t.
Proof.
  induction t as [a|n|v|f args IH|items IH|h t IHh IHt] using sterm_ind'.
  - apply eval_atom.
  - reflexivity.
  - apply eval_pyvar.
  - cbn [compile_expression instA]. rewrite eval_functor, map_map. f_equal.
    apply map_ext_Forall. exact IH.
  - destruct items as [|x l]; [reflexivity|].
    cbn [compile_expression instA]. rewrite eval_makelist, map_map. f_equal.
    apply map_ext_Forall. exact IH.
  - cbn [compile_expression instA]. rewrite eval_listpair, IHh, IHt. reflexivity.
Qed.

Section Body.
Variable call : str -> list term -> st -> list st * bool.
Notation J := (iter call).
Notation I := (leafA call).
Notation exec_list := (@exec_list cfg J assign).
Notation exec_stmt := (@exec_stmt cfg J assign).

Lemma HJ f args c : J (query_expr f args) c = I f args c.
Proof.
  destruct c as [r s]. unfold query_expr, leafA.
  change (iter call (ECall (s_ "query") [EStr f; EList (map compile_expression args)]) (r, s))
    with (let '(xs, e) := call f (map (eval_expr r) (map compile_expression args)) s in (map (fun x => (r, x)) xs, e)).
  rewrite map_map. rewrite (map_ext _ _ (eval_compile r)). reflexivity.
Qed.

Lemma iter_unify a b r s : J (ECall (s_ "unify") [a; b]) (r, s) =
  let '(xs, e) := unify_st s (eval_expr r a) (eval_expr r b) in (map (fun x => (r, x)) xs, e).
Proof. reflexivity. Qed.

(* what it means for a piece of code (without assignments) to compute R *)
Definition computes (R : cfg -> res cfg) (code : list stmt) : Prop :=
  noasg code = true /\
  forall c f, doBreak f = false ->
    exists f', exec_list code c f = (fst (R c), cof (snd (R c)), f') /\
               (snd (R c) = FNorm -> doBreak f' = false) /\
               (forall l, snd (R c) <> FExit l).

Lemma computes_body n b cnt code cnt' :
  comp n b cnt = Some (code, cnt') -> nomark b = true -> computes (sem I b) code.
Proof.
  intros H M. destruct (@control_correct cfg I J assign HJ n b cnt code cnt' H M) as [NA O].
  split; [exact NA|]. exact O.
Qed.

(* the head-unification loop around a piece of code *)
Definition after_unify (i : nat) (a : sterm) (R : cfg -> res cfg) (c : cfg) : res cfg :=
  let '(r, s) := c in
  match unify_fast ufuel (sto s) (argval i r) (instA r a) with
  | UOk s' => R (r, {| sto := s'; nxt := nxt s |})
  | UFail => ([], FNorm)
  | UOof | UCyc => ([], FErr)
  end.

Lemma computes_unify i a R code : computes R code ->
  computes (after_unify i a R) [SForeach (ECall (s_ "unify") [EVar (argvar i); compile_expression a]) code].
Proof.
  intros [NA H]. split; [reflexivity|]. intros [r s] f Hf.
  rewrite exec_list_single by reflexivity. rewrite exec_stmt_eq, iter_unify, eval_argvar, eval_compile.
  unfold after_unify, unify_st.
  destruct (unify_fast ufuel (sto s) (argval i r) (instA r a)) as [s'| | |].
  - cbn [map loop]. destruct (H (r, {| sto := s'; nxt := nxt s |}) f Hf) as [f' [E [D X]]].
    change (IRSem.exec_list J assign code) with (exec_list code). rewrite E.
    destruct (R (r, {| sto := s'; nxt := nxt s |})) as [ys g]. cbn [fst snd] in *.
    exists f'. destruct g; cbn [cof loop after_loop].
    + rewrite (D eq_refl), app_nil_r. split; [reflexivity|]. split; [reflexivity|exact X].
    + split; [reflexivity|]. split; [exact D|exact X].
    + split; [reflexivity|]. split; [exact D|exact X].
    + exfalso. exact (X l eq_refl).
  - exists f. cbn [map loop after_loop]. rewrite Hf. split; [reflexivity|]. split; [reflexivity|discriminate].
  - exists f. split; [reflexivity|]. split; discriminate.
  - exists f. split; [reflexivity|]. split; discriminate.
Qed.

Definition after_head (i : nat) (pos : list (option str)) (args : list sterm) (R : cfg -> res cfg) (c : cfg) : res cfg :=
  let '(r, s) := c in
  match head_unify i pos args r s with
  | HOk s' => R (r, s')
  | HFail => ([], FNorm)
  | HErr => ([], FErr)
  end.

Lemma after_head_step i pr a ar R c :
  after_head i (None :: pr) (a :: ar) R c = after_unify i a (after_head (S i) pr ar R) c.
Proof.
  destruct c as [r s]. unfold after_head, after_unify. cbn [head_unify].
  destruct (unify_fast ufuel (sto s) (argval i r) (instA r a)); reflexivity.
Qed.

Lemma computes_ext R R' code : (forall c, R c = R' c) -> computes R' code -> computes R code.
Proof.
  intros E [NA H]. split; [exact NA|]. intros c f Hf. rewrite E. exact (H c f Hf).
Qed.

Lemma st_eta (s : st) : {| sto := sto s; nxt := nxt s |} = s.
Proof. destruct s; reflexivity. Qed.

Lemma computes_head pos : forall i args R code, computes R code ->
  computes (after_head i pos args R) (arg_unifications i pos args code).
Proof.
  induction pos as [|o pr IH]; intros i args R code H.
  - cbn [arg_unifications]. eapply computes_ext; [|exact H]. intros [r s]. reflexivity.
  - destruct o as [v|]; destruct args as [|a ar].
    + cbn [arg_unifications]. eapply computes_ext; [|exact H]. intros [r s]. reflexivity.
    + cbn [arg_unifications]. eapply computes_ext; [|apply IH; exact H]. intros [r s]. reflexivity.
    + cbn [arg_unifications]. eapply computes_ext; [|exact H]. intros [r s]. reflexivity.
    + cbn [arg_unifications]. eapply computes_ext; [intros c; apply after_head_step|].
      apply computes_unify. apply IH. exact H.
Qed.

(* the assignments at the start of a clause *)
Lemma exec_aliases pos : forall i rest r s f,
  exec_list (head_aliases i pos ++ rest) (r, s) f = exec_list rest (alias_env i pos r, s) f.
Proof.
  induction pos as [|o pr IH]; intros i rest r s f; [reflexivity|].
  destruct o as [v|]; cbn [head_aliases alias_env].
  - rewrite <- app_comm_cons.
    change (exec_list (SAssign (pyvar v) (EVar (argvar i)) :: head_aliases (S i) pr ++ rest) (r, s) f)
      with (exec_list (head_aliases (S i) pr ++ rest) ((pyvar v, argval i r) :: r, s) f).
    apply IH.
  - apply IH.
Qed.

Lemma exec_declares vars : forall rest r s f,
  exec_list (map declare vars ++ rest) (r, s) f =
  exec_list rest (let '(r2, k) := fresh_env vars r (nxt s) in (r2, {| sto := sto s; nxt := k |})) f.
Proof.
  induction vars as [|v l IH]; intros rest r s f.
  - cbn [map app fresh_env]. rewrite st_eta. reflexivity.
  - cbn [map fresh_env]. rewrite <- app_comm_cons.
    change (exec_list (declare v :: map declare l ++ rest) (r, s) f)
      with (exec_list (map declare l ++ rest) ((pyvar v, TVar (nxt s)) :: r, {| sto := sto s; nxt := S (nxt s) |}) f).
    rewrite IH. reflexivity.
Qed.

(* a clause that can come from source text: no $CUTIF marker in its body *)
Definition good_clause (c : clause) : Prop := nomark (c_body c) = true.

Lemma clause_code c cnt code cnt' : compile_clause c cnt = Some (code, cnt') ->
  exists bcode, comp (fuel_body (c_body c)) (c_body c) cnt = Some (bcode, cnt') /\
    code = head_aliases 0 (clause_pos c) ++ map declare (clause_fv_head c ++ clause_fv_body c)
           ++ arg_unifications 0 (clause_pos c) (c_args c) bcode.
Proof.
  unfold compile_clause. destruct (comp (fuel_body (c_body c)) (c_body c) cnt) as [[bcode k]|]; [|discriminate].
  intros H. injection H as <- <-. exists bcode. split; [reflexivity|].
  rewrite map_app, <- !app_assoc. reflexivity.
Qed.

Lemma clause_ok c cnt code cnt' rest cf f :
  compile_clause c cnt = Some (code, cnt') -> good_clause c -> doBreak f = false ->
  let cf1 := clause_enter c cf in
  let R := clause_res call c cf1 in
  exists f',
    exec_list (code ++ rest) cf f =
      match snd R with
      | FNorm => let '(zs, k, f2) := exec_list rest cf1 f' in (fst R ++ zs, k, f2)
      | g => (fst R, cof g, f')
      end /\
    (snd R = FNorm -> doBreak f' = false) /\ (forall l, snd R <> FExit l).
Proof.
  intros HC M Hf cf1 R.
  destruct (clause_code _ _ _ _ HC) as [bcode [HB ->]].
  pose proof (computes_head (clause_pos c) 0 (c_args c) _ _ (computes_body _ _ _ _ _ HB M)) as [NA H].
  destruct cf as [r s].
  rewrite <- !app_assoc, exec_aliases, exec_declares.
  match goal with |- context [IRSem.exec_list _ _ (arg_unifications _ _ _ _ ++ _) ?X f] => change X with cf1 end.
  rewrite exec_list_app by exact NA.
  destruct (H cf1 f Hf) as [f' [E [D X]]].
  change (after_head 0 (clause_pos c) (c_args c) (sem I (c_body c)) cf1) with R in *.
  change (IRSem.exec_list J assign (arg_unifications 0 (clause_pos c) (c_args c) bcode)) with
    (exec_list (arg_unifications 0 (clause_pos c) (c_args c) bcode)).
  rewrite E. exists f'. split; [|split; assumption].
  destruct (snd R); reflexivity.
Qed.

Lemma clauses_ok cs : forall cnt code cnt' cf f,
  compile_clauses cs cnt = Some (code, cnt') -> Forall good_clause cs -> doBreak f = false ->
  exists f', exec_list code cf f = (fst (clausesA call cs cf), cof (snd (clausesA call cs cf)), f') /\
             (forall l, snd (clausesA call cs cf) <> FExit l).
Proof.
  induction cs as [|c rest IH]; intros cnt code cnt' cf f HC G Hf.
  - injection HC as <- _. exists f. split; [reflexivity|]. intros l; discriminate.
  - cbn [compile_clauses] in HC.
    destruct (compile_clause c cnt) as [[code1 cnt1]|] eqn:E1; [|discriminate].
    destruct (compile_clauses rest cnt1) as [[code2 cnt2]|] eqn:E2; [|discriminate].
    injection HC as <- _. pose proof (Forall_inv G) as Gc. pose proof (Forall_inv_tail G) as Gr.
    destruct (clause_ok c cnt code1 cnt1 code2 cf f E1 Gc Hf) as [f' [E [D X]]].
    cbn zeta in E, D, X. rewrite E. cbn [clausesA].
    destruct (clause_res call c (clause_enter c cf)) as [ys g]. cbn [fst snd] in *.
    destruct g.
    + destruct (IH _ _ _ (clause_enter c cf) f' E2 Gr (D eq_refl)) as [f2 [E3 X3]]. rewrite E3.
      destruct (clausesA call rest (clause_enter c cf)) as [zs h]. cbn [fst snd] in *.
      exists f2. split; [reflexivity|exact X3].
    + exists f'. split; [reflexivity|]. intros l; discriminate.
    + exists f'. split; [reflexivity|]. intros l; discriminate.
    + exfalso. exact (X l eq_refl).
Qed.
End Body.

Lemma sem_ext S (I I' : str -> list sterm -> S -> list S * bool) :
  (forall f a s, I f a s = I' f a s) -> forall b s, sem I b s = sem I' b s.
Proof.
  intros H b. induction b as [f a| | | |l|a b IHa IHb|a b Hif IHa IHb|c t e IHc IHt IHe|c t IHc IHt|a IHa] using body_ind'; intros s.
  - cbn [sem]. rewrite H. reflexivity.
  - reflexivity.
  - reflexivity.
  - reflexivity.
  - reflexivity.
  - cbn [sem]. rewrite IHa. destruct (sem I' a s) as [xs e]. apply seqr_ext. exact IHb.
  - rewrite !sem_or_plain by exact Hif. rewrite IHa, IHb. reflexivity.
  - rewrite !sem_or_if, IHc, IHe. apply ite_ext. exact IHt.
  - rewrite !sem_if, IHc. apply ite_ext. exact IHt.
  - rewrite !sem_not, IHa. reflexivity.
Qed.

Lemma builtin_cases call s (Q : str -> list term -> option (list st * bool) -> Prop) :
  (forall a b, Q (s_ "=") [a; b] (Some (unify_st s a b))) ->
  (forall a b, Q (s_ "\=") [a; b]
     (Some (match unify_fast ufuel (sto s) a b with UOk _ => ([], false) | UFail => ([s], false) | _ => ([], true) end))) ->
  Q (s_ "call") [] (Some ([], true)) ->
  (forall g extra, Q (s_ "call") (g :: extra) (Some (call_goal call g extra s))) ->
  (forall g, Q (s_ "once") [g]
     (Some (match call_goal call g [] s with (x :: _, _) => ([x], false) | ([], e) => ([], e) end))) ->
  (forall t g l, Q (s_ "findall") [t; g; l]
     (Some (let '(xs, e) := call_goal call g [] s in
            if e then ([], true) else
            let '(es, b) := collect 0 (nxt s) t xs in unify_st {| sto := sto s; nxt := b |} l (mk_list es)))) ->
  (forall name args, (forall c s', builtin c name args s' = None) -> Q name args None) ->
  forall name args, Q name args (builtin call name args s).
Proof.
  intros Heq Hneq Hcall0 Hcall Honce Hfindall Hnone name args.
  assert (Unknown: (forall c s', builtin c name args s' = None) -> Q name args (builtin call name args s)).
  { intros N. rewrite N. apply Hnone. exact N. }
  destruct (str_eqb name (s_ "=")) eqn:E1.
  { apply str_eqb_eq in E1. subst name.
    destruct args as [|a [|b [|? ?]]]; try (apply Unknown; reflexivity). apply Heq. }
  destruct (str_eqb name (s_ "\=")) eqn:E2.
  { apply str_eqb_eq in E2. subst name.
    destruct args as [|a [|b [|? ?]]]; try (apply Unknown; reflexivity). apply Hneq. }
  destruct (str_eqb name (s_ "call")) eqn:E3.
  { apply str_eqb_eq in E3. subst name. destruct args as [|g extra]; [apply Hcall0|apply Hcall]. }
  destruct (str_eqb name (s_ "once")) eqn:E4.
  { apply str_eqb_eq in E4. subst name.
    destruct args as [|g [|? ?]]; try (apply Unknown; reflexivity). apply Honce. }
  destruct (str_eqb name (s_ "findall")) eqn:E5.
  { apply str_eqb_eq in E5. subst name.
    destruct args as [|t [|g [|l [|? ?]]]]; try (apply Unknown; reflexivity). apply Hfindall. }
  apply Unknown. intros c s'. unfold builtin. rewrite E1, E2, E3, E4, E5. reflexivity.
Qed.

Section Ext.
Variables call call' : str -> list term -> st -> list st * bool.
Hypothesis Hcall : forall f a s, call f a s = call' f a s.

Lemma leafA_ext f a c : leafA call f a c = leafA call' f a c.
Proof. destruct c as [r s]. unfold leafA. rewrite Hcall. reflexivity. Qed.

Lemma clause_res_ext c cf : clause_res call c cf = clause_res call' c cf.
Proof.
  destruct cf as [r s]. unfold clause_res. destruct (head_unify 0 (clause_pos c) (c_args c) r s); try reflexivity.
  apply sem_ext. exact leafA_ext.
Qed.

Lemma clausesA_ext cs : forall cf, clausesA call cs cf = clausesA call' cs cf.
Proof.
  induction cs as [|c rest IH]; intros cf; cbn [clausesA]; [reflexivity|].
  rewrite clause_res_ext, IH. reflexivity.
Qed.

Lemma call_goal_ext g extra s : call_goal call g extra s = call_goal call' g extra s.
Proof. unfold call_goal. destruct (den_fast (sto s) g); auto. Qed.

Lemma builtin_ext name args s : builtin call name args s = builtin call' name args s.
Proof.
  apply (builtin_cases call s (fun name args r => r = builtin call' name args s)).
  - reflexivity.
  - reflexivity.
  - reflexivity.
  - intros g extra. rewrite call_goal_ext. reflexivity.
  - intros g. rewrite call_goal_ext. reflexivity.
  - intros t g l. rewrite call_goal_ext. reflexivity.
  - intros name0 args0 N. symmetry. apply N.
Qed.
End Ext.

Lemma key_eqb_spec (a b : key) : reflect (a = b) (key_eqb a b).
Proof.
  destruct a as [x n], b as [y m]. unfold key_eqb. cbn [fst snd].
  destruct (str_eqb_spec x y) as [->|Hn]; cbn [andb].
  - destruct (Nat.eqb_spec n m) as [->|Hm]; constructor; congruence.
  - constructor; congruence.
Qed.

Fixpoint lookup_group (gs : list (key * list clause)) (k : key) : option (list clause) :=
  match gs with
  | [] => None
  | (k', cs) :: r => if key_eqb k' k then Some cs else lookup_group r k
  end.

Definition addg (o : option (list clause)) (cs : list clause) : option (list clause) :=
  match cs with
  | [] => o
  | _ => Some (match o with Some c0 => c0 ++ cs | None => cs end)
  end.

Lemma lookup_insert c gs k :
  lookup_group (group_insert c gs) k =
  if key_eqb (clause_key c) k then addg (lookup_group gs k) [c] else lookup_group gs k.
Proof.
  induction gs as [|[k' cs] r IH]; cbn [group_insert lookup_group].
  - destruct (key_eqb (clause_key c) k); reflexivity.
  - destruct (key_eqb_spec k' (clause_key c)) as [E|NE]; cbn [lookup_group].
    + subst k'. destruct (key_eqb (clause_key c) k); reflexivity.
    + destruct (key_eqb_spec k' k) as [E2|NE2].
      * subst k'. destruct (key_eqb_spec (clause_key c) k) as [E3|_]; [congruence|reflexivity].
      * exact IH.
Qed.

Lemma lookup_fold p : forall gs k,
  lookup_group (fold_left (fun g c => group_insert c g) p gs) k =
  addg (lookup_group gs k) (filter (fun c => key_eqb (clause_key c) k) p).
Proof.
  induction p as [|c r IH]; intros gs k; cbn [fold_left filter]; [reflexivity|].
  rewrite IH, lookup_insert. destruct (key_eqb (clause_key c) k); [|reflexivity].
  destruct (lookup_group gs k) as [c0|]; destruct (filter (fun c1 => key_eqb (clause_key c1) k) r) as [|y q];
    cbn [addg]; try reflexivity.
  rewrite <- app_assoc. reflexivity.
Qed.

Lemma lookup_program p name ar :
  lookup_group (group_program p) (name, ar) = match clauses_for p name ar with [] => None | cs => Some cs end.
Proof.
  unfold group_program, clauses_for. rewrite lookup_fold. cbn [lookup_group].
  destruct (filter (fun c => key_eqb (clause_key c) (name, ar)) p); reflexivity.
Qed.

Lemma find_func_groups gs : forall cnt fs cnt', compile_groups gs cnt = Some (fs, cnt') ->
  forall name ar,
  match lookup_group gs (name, ar) with
  | None => find_func fs name ar = None
  | Some cs => exists f c0 c1, find_func fs name ar = Some f /\ compile_clauses cs c0 = Some (fn_body f, c1)
  end.
Proof.
  induction gs as [|[k cs] r IH]; intros cnt fs cnt' H name ar.
  - injection H as <- _. reflexivity.
  - cbn [compile_groups] in H.
    destruct (compile_clauses cs cnt) as [[code cnt1]|] eqn:E1; [|discriminate].
    destruct (compile_groups r cnt1) as [[fs' cnt2]|] eqn:E2; [|discriminate].
    injection H as <- _. cbn [lookup_group find_func fn_name fn_arity].
    change (str_eqb (fst k) name && Nat.eqb (snd k) ar) with (key_eqb k (name, ar)).
    destruct (key_eqb k (name, ar)).
    + eexists _, cnt, cnt1. split; [reflexivity|exact E1].
    + exact (IH _ _ _ E2 name ar).
Qed.

Definition good_program (p : program) : Prop := Forall good_clause p.

(* the witness of the evaluated examples *)
Definition ir_of (p : program) : ir_program := match compile_program p with Some ir => ir | None => [] end.

Lemma good_filter p q : good_program p -> Forall good_clause (filter q p).
Proof.
  intros G. apply Forall_forall. intros c Hc. apply filter_In in Hc as [Hc _].
  exact (proj1 (Forall_forall _ _) G c Hc).
Qed.

Theorem machine_computes_clause_semantics : forall n p ir,
  compile_program p = Some ir -> good_program p ->
  forall name args s, query n ir name args s = solveA n p name args s.
Proof.
  induction n as [|n IH]; intros p ir HC G name args s; [reflexivity|].
  cbn [query solveA].
  assert (HG: exists cnt', compile_groups (group_program p) 0 = Some (ir, cnt')).
  { unfold compile_program in HC. destruct (compile_groups (group_program p) 0) as [[fs c]|]; [|discriminate].
    injection HC as <-. exists c; reflexivity. }
  destruct HG as [cnt' HG].
  pose proof (find_func_groups _ _ _ _ HG name (length args)) as HF.
  rewrite lookup_program in HF.
  pose proof (good_filter p (fun c => key_eqb (clause_key c) (name, length args)) G) as GF.
  fold (clauses_for p name (length args)) in GF.
  destruct (clauses_for p name (length args)) as [|c cs] eqn:EC.
  - rewrite HF. rewrite (builtin_ext _ _ (IH p ir HC G)). reflexivity.
  - destruct HF as [f [c0 [c1 [HF HB]]]]. rewrite HF.
    unfold run_function.
    destruct (clauses_ok (query n ir) (c :: cs) c0 (fn_body f) c1 (bind_args 0 args, s) flags0 HB GF eq_refl) as [f' [E X]].
    rewrite E.
    rewrite (clausesA_ext _ _ (IH p ir HC G)).
    destruct (clausesA (solveA n p) (c :: cs) (bind_args 0 args, s)) as [ys g]. cbn [fst snd] in *.
    destruct g; reflexivity.
Qed.
