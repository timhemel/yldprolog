(* The consumer APIs of a query (C05, C20).

   YP.query returns a Python generator: a stream of answers (the bindings in force while the generator is suspended), each
   with the value that was yielded - False, or True for "the clause that produced this answer committed with a final cut" (a
   registered Python predicate may yield anything) -, ending normally or with an exception.  The documented ways of consuming
   it are modelled here over such a stream, whatever engine produced it (Sem/Native.v nquery with the flags of the top-level
   definition, Sem/NativeChain.v, a re-entrant Python predicate that passes the answers of an inner query on):

     for x in q: read()                                    plain_iteration
     yp.evaluate_bounded(q, projection, recursion_limit)   evaluate_bounded   (for x in q: result.append(projection(x));
                                                                               a RuntimeError ends the loop silently)
     list(q)                                               list_query         (the flags only; the bindings are undone)
     next(q); q.close()                                    next_then_close

   Proved: none of them depends on the flags (streams that agree after dropping the flags are indistinguishable for a projection
   that does not look at the flag: the number of answers, every answer, the first answer, the end), evaluate_bounded is plain
   iteration with the end dropped; and the consumer that STOPS at a flagged answer (evaluate_bounded_stopping: `if x is True:
   break`) delivers a prefix, which is everything exactly when no flagged answer has a successor - so it loses answers as soon
   as a flagged answer is followed by another one (a caller with alternatives of its own, a second definition chained behind
   the cutting one): the flag means "the clause committed", never "the query has no more answers". *)
From Coq Require Import List Bool Arith Lia.
Import ListNotations.
From YP Require Import Sem.Machine Sem.Native.

Section Consumers.
  Variables St A : Type.

  Definition stream := (list (St * bool) * bool)%type.      (* answers with the yielded flag; ended by an exception? *)

  Definition plain_iteration (read : St -> A) (r : stream) : list A * bool :=
    (map (fun a => read (fst a)) (fst r), snd r).

  Definition evaluate_bounded (proj : bool -> St -> A) (r : stream) : list A :=
    map (fun a => proj (snd a) (fst a)) (fst r).

  Definition list_query (r : stream) : list bool * bool := (map snd (fst r), snd r).

  Definition next_then_close (read : St -> A) (r : stream) : option A * bool :=
    match fst r with
    | a :: _ => (Some (read (fst a)), false)      (* the rest of the search is never run *)
    | [] => (None, snd r)
    end.

  (* a consumer that stops after an answer that arrives flagged (`if x is True: break`) *)
  Fixpoint until_flag (l : list (St * bool)) : list (St * bool) :=
    match l with
    | [] => []
    | a :: rest => if snd a then [a] else a :: until_flag rest
    end.

  Definition evaluate_bounded_stopping (proj : bool -> St -> A) (r : stream) : list A :=
    map (fun a => proj (snd a) (fst a)) (until_flag (fst r)).

  Lemma evaluate_bounded_is_plain_iteration : forall read r,
    evaluate_bounded (fun _ => read) r = fst (plain_iteration read r).
  Proof. intros read r. reflexivity. Qed.

  (* streams that agree after dropping the flags are indistinguishable *)
  Lemma consumers_ignore_flags : forall (read : St -> A) (r1 r2 : stream),
    map fst (fst r1) = map fst (fst r2) -> snd r1 = snd r2 ->
    plain_iteration read r1 = plain_iteration read r2 /\
    evaluate_bounded (fun _ => read) r1 = evaluate_bounded (fun _ => read) r2 /\
    length (fst (list_query r1)) = length (fst (list_query r2)) /\ snd (list_query r1) = snd (list_query r2) /\
    next_then_close read r1 = next_then_close read r2.
  Proof.
    intros read [l1 e1] [l2 e2] Hl He. cbn [fst snd] in *. subst e2.
    assert (Hm : map (fun a : St * bool => read (fst a)) l1 = map (fun a : St * bool => read (fst a)) l2).
    { rewrite <- (map_map fst read l1), <- (map_map fst read l2), Hl. reflexivity. }
    unfold plain_iteration, evaluate_bounded, list_query, next_then_close. cbn [fst snd].
    repeat split.
    - rewrite Hm. reflexivity.
    - exact Hm.
    - rewrite !map_length. rewrite <- (map_length fst l1), <- (map_length fst l2), Hl. reflexivity.
    - destruct l1 as [|a1 t1], l2 as [|a2 t2]; cbn in Hl; try discriminate; [reflexivity|].
      injection Hl as Ha _. rewrite Ha. reflexivity.
  Qed.

  Lemma until_flag_prefix : forall l, exists post, l = until_flag l ++ post.
  Proof.
    induction l as [|a rest IH]; [exists []; reflexivity|].
    cbn [until_flag]. destruct (snd a).
    - exists rest. reflexivity.
    - destruct IH as [post IH]. exists post. cbn. rewrite <- IH. reflexivity.
  Qed.

  Lemma stopping_delivers_a_prefix : forall proj r, exists post,
    evaluate_bounded proj r = evaluate_bounded_stopping proj r ++ post.
  Proof.
    intros proj r. destruct (until_flag_prefix (fst r)) as [post H].
    exists (map (fun a => proj (snd a) (fst a)) post).
    unfold evaluate_bounded, evaluate_bounded_stopping. rewrite <- map_app, <- H. reflexivity.
  Qed.

  (* no flagged answer has a successor *)
  Definition flag_only_last (l : list (St * bool)) : Prop :=
    forall pre a post, l = pre ++ a :: post -> post <> [] -> snd a = false.

  Lemma until_flag_all_iff : forall l, until_flag l = l <-> flag_only_last l.
  Proof.
    induction l as [|a rest IH].
    - split; [|reflexivity]. intros _ pre a post H. destruct pre; discriminate.
    - cbn [until_flag]. destruct (snd a) eqn:Ea.
      + split.
        * intros H. injection H as H. subst rest. intros pre b post Hl Hp.
          destruct pre as [|x [|y pre]]; cbn in Hl.
          -- injection Hl as _ Hl. subst post. contradiction.
          -- injection Hl as _ Hl. discriminate.
          -- injection Hl as _ Hl. discriminate.
        * intros H. destruct rest as [|b rest]; [reflexivity|].
          specialize (H [] a (b :: rest) eq_refl). rewrite Ea in H. discriminate H. discriminate.
      + split.
        * intros H. injection H as H. apply IH in H. intros pre b post Hl Hp.
          destruct pre as [|x pre]; cbn in Hl.
          -- injection Hl as Hb _. subst b. exact Ea.
          -- injection Hl as _ Hl. exact (H pre b post Hl Hp).
        * intros H. f_equal. apply IH. intros pre b post Hl Hp.
          apply (H (a :: pre) b post); [cbn; rewrite Hl; reflexivity|exact Hp].
  Qed.

  Lemma until_flag_length : forall l, length (until_flag l) <= length l.
  Proof.
    intros l. destruct (until_flag_prefix l) as [post H]. rewrite H at 2. rewrite app_length. lia.
  Qed.

  Lemma until_flag_full : forall l, length (until_flag l) = length l -> until_flag l = l.
  Proof.
    intros l Hlen. destruct (until_flag_prefix l) as [post H].
    destruct post as [|x post]; [rewrite app_nil_r in H; symmetry; exact H|].
    rewrite H in Hlen at 2. rewrite app_length in Hlen. cbn in Hlen. lia.
  Qed.

  (* a flagged answer that is followed by another one: the stopping consumer loses answers *)
  Lemma stopping_loses_answers : forall proj (r : stream) pre s post,
    fst r = pre ++ (s, true) :: post -> post <> [] ->
    length (evaluate_bounded_stopping proj r) < length (evaluate_bounded proj r).
  Proof.
    intros proj r pre s post Hl Hp. unfold evaluate_bounded, evaluate_bounded_stopping. rewrite !map_length.
    pose proof (until_flag_length (fst r)) as Hle.
    destruct (Nat.eq_dec (length (until_flag (fst r))) (length (fst r))) as [E|NE]; [|lia].
    apply until_flag_full, until_flag_all_iff in E. specialize (E pre (s, true) post Hl Hp). discriminate E.
  Qed.

  Lemma stopping_complete_iff : forall proj (r : stream),
    evaluate_bounded_stopping proj r = evaluate_bounded proj r <-> flag_only_last (fst r).
  Proof.
    intros proj r. unfold evaluate_bounded_stopping, evaluate_bounded. split.
    - intros H. apply until_flag_all_iff, until_flag_full.
      apply (f_equal (@length A)) in H. rewrite !map_length in H. exact H.
    - intros H. apply until_flag_all_iff in H. rewrite H. reflexivity.
  Qed.
End Consumers.

(* the same for the answers of a registered Python predicate queried at the top level (Sem/Native.v: nres is such a stream):
   predicates that agree after dropping the yielded values are indistinguishable behind every consumer API *)

Lemma native_consumers_yield_value_irrelevant : forall (A : Type) (read : st -> A) (r1 r2 : nres),
  drop r1 = drop r2 ->
  plain_iteration st A read r1 = plain_iteration st A read r2 /\
  evaluate_bounded st A (fun _ => read) r1 = evaluate_bounded st A (fun _ => read) r2 /\
  length (fst (list_query st r1)) = length (fst (list_query st r2)) /\ snd (list_query st r1) = snd (list_query st r2) /\
  next_then_close st A read r1 = next_then_close st A read r2.
Proof.
  intros A read r1 r2 H. unfold drop in H. injection H as H1 H2.
  exact (consumers_ignore_flags st A read r1 r2 H1 H2).
Qed.
