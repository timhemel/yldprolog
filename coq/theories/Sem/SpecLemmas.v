(* Readable consequences of the reference semantics (RefSem.sem, ClauseSem.solveA): sanity
   theorems showing that the specification is the textbook one, the spec-level statements
   of the builtin predicates, and what naming a goal argument (step 1 of solveA) stands for. *)
From Coq Require Import String.
From Coq Require Import List Arith Bool ZArith NArith Lia.
Import ListNotations.
From YP Require Import Base.Str Term.Term Term.Fast Unify.Unify Unify.Fast Unify.Mgu Unify.Base Unify.Rename Lang.Ast Comp.IR Comp.CompileBody Comp.CompileClause
  Sem.Res Sem.RefSem Sem.SemLemmas Sem.IRSem Sem.ControlCorrect Sem.Machine Sem.ClauseSem.
Local Open Scope string_scope.
Local Open Scope list_scope.

Section Control.
Variable S : Type.
Variable I : str -> list sterm -> S -> list S * bool.
Notation sem := (sem I).

(* (A, !), B : the first answer of A, continued with all answers of B; then the clause is cut.
   Goals to the right of the cut backtrack normally (all answers of B are delivered). *)
Lemma cut_spec_readable A B s :
  sem (BAnd (BAnd A BCut) B) s =
  match sem A s with
  | (x :: _, _) => let '(ys, g) := sem B x in (ys, match g with FNorm => FCut | _ => g end)
  | ([], g) => ([], g)
  end.
Proof.
  cbn [RefSem.sem]. destruct (RefSem.sem I A s) as [[|x r] e]; [reflexivity|].
  cbn [seqr RefSem.sem]. destruct (RefSem.sem I B x) as [ys g]. destruct g; try reflexivity.
  rewrite app_nil_r. reflexivity.
Qed.

(* a cut as the first goal: the body behaves like the rest, and the clause is cut afterwards *)
Lemma cut_first B s : sem (BAnd BCut B) s = let '(ys, g) := sem B s in (ys, match g with FNorm => FCut | _ => g end).
Proof. cbn [RefSem.sem seqr]. destruct (RefSem.sem I B s) as [ys g]. destruct g; try reflexivity. rewrite app_nil_r. reflexivity. Qed.

(* A ; B : A's answers, then (unless A ended by cut or error) B's *)
Lemma or_spec A B s : isif A = false ->
  sem (BOr A B) s = match sem A s with (xs, FNorm) => let '(ys, g) := sem B s in (xs ++ ys, g) | r => r end.
Proof. intros H. rewrite sem_or_plain by exact H. unfold por. destruct (RefSem.sem I A s) as [xs f]. destruct f; reflexivity. Qed.

(* C -> T ; E : commit to the first answer of C, else E; a cut inside C is local to C *)
Lemma ite_spec C T E s :
  sem (BOr (BIf C T) E) s =
  match opaque (sem C s) with
  | (x :: _, _) => sem T x
  | ([], FNorm) => sem E s
  | ([], f) => ([], f)
  end.
Proof. rewrite sem_or_if. reflexivity. Qed.

(* \+ G : the unchanged state iff G has no answer; never any other state, never a cut *)
Lemma not_spec G s :
  sem (BNot G) s = match opaque (sem G s) with
                   | (_ :: _, _) => ([], FNorm)
                   | ([], FNorm) => ([s], FNorm)
                   | ([], f) => ([], f)
                   end.
Proof. reflexivity. Qed.

Lemma neg_binds_nothing G s x : In x (fst (sem (BNot G) s)) -> x = s.
Proof.
  rewrite not_spec. destruct (opaque (RefSem.sem I G s)) as [[|y r] f]; [destruct f|]; cbn [fst In]; intros H; try contradiction.
  destruct H as [H|H]; [symmetry; exact H|contradiction].
Qed.
End Control.

Section ClauseLevel.
Variable call : str -> list term -> st -> list st * bool.

(* a cut reached in clause c discards the later clauses; the answers produced so far stay *)
Lemma cut_prunes_later_clauses c rest cf ys :
  clause_res call c (clause_enter c cf) = (ys, FCut) -> clausesA call (c :: rest) cf = (ys, FCut).
Proof. intros H. cbn [clausesA]. rewrite H. reflexivity. Qed.

(* without a cut (or error) the later clauses are tried, from the state in which the clause was entered *)
Lemma no_cut_continues c rest cf ys :
  clause_res call c (clause_enter c cf) = (ys, FNorm) ->
  clausesA call (c :: rest) cf = (ys ++ fst (clausesA call rest (clause_enter c cf)), snd (clausesA call rest (clause_enter c cf))).
Proof. intros H. cbn [clausesA]. rewrite H. destruct (clausesA call rest (clause_enter c cf)); reflexivity. Qed.

(* the caller never sees the callee's cut: a call ends normally or by an error *)
Lemma call_never_cuts f args c : snd (sem (leafA call) (BCall f args) c) = FNorm \/ snd (sem (leafA call) (BCall f args) c) = FErr.
Proof.
  cbn [sem]. destruct (leafA call f args c) as [xs e]. destruct e; cbn [snd]; auto.
Qed.
End ClauseLevel.

Lemma solveA_cut_local n p name args s c cs ys :
  clauses_for p name (length args) = c :: cs ->
  clausesA (solveA n p) (c :: cs) (bind_args 0 args, s) = (ys, FCut) ->
  solveA (S n) p name args s = (map snd ys, false).
Proof. intros E H. cbn [solveA]. rewrite E, H. reflexivity. Qed.

(* unifying l with m directly, and going through a fresh variable v (v := m first, then l = v), compute the same
   new bindings from the same resolved terms *)
Lemma unify_through_fresh n s l m v :
  wf s -> lookup v s = None -> occurs v (den s l) = false -> occurs v (den s m) = false ->
  unify (S n) s (TVar v) m = UOk ((v, den s m) :: s) /\
  forall k, unify k s l m = lift s (unify k [] (den s l) (den s m)) /\
            unify k ((v, den s m) :: s) l (TVar v) = lift ((v, den s m) :: s) (unify k [] (den s l) (den s m)).
Proof.
  intros W L Ol Om. split.
  - apply unify_fresh_var; assumption.
  - intros k. split; [apply unify_increment; exact W|].
    assert (W2: wf ((v, den s m) :: s)).
    { constructor; [exact W|exact L|]. rewrite den_idem by exact W. exact Om. }
    rewrite (unify_increment k l (TVar v) W2). f_equal. f_equal.
    + cbn [den]. apply subst1_noocc. exact Ol.
    + cbn [den]. rewrite (den_var_unbound _ _ L). cbn [subst1]. rewrite Nat.eqb_refl. apply den_idem. exact W.
Qed.


Section BuiltinSpec.
Variable call : str -> list term -> st -> list st * bool.

(* X = Y has the answers of unification *)
Lemma eq_spec a b s : builtin call (s_ "=") [a; b] s = Some (unify_st s a b).
Proof. reflexivity. Qed.

(* X \= Y succeeds, binding nothing, exactly when X and Y do not unify *)
Lemma neq_spec a b s :
  builtin call (s_ "\=") [a; b] s =
  Some (match unify_fast ufuel (sto s) a b with UOk _ => ([], false) | UFail => ([s], false) | _ => ([], true) end).
Proof. reflexivity. Qed.

Lemma builtin_call_eq g extra s : builtin call (s_ "call") (g :: extra) s = Some (call_goal call g extra s).
Proof. reflexivity. Qed.

Lemma builtin_findall_eq t g l s :
  builtin call (s_ "findall") [t; g; l] s =
  Some (let '(xs, e) := call_goal call g [] s in
        if e then ([], true) else
        let '(es, b) := collect 0 (nxt s) t xs in unify_st {| sto := sto s; nxt := b |} l (mk_list es)).
Proof. reflexivity. Qed.

(* call(G, A1..An): the goal is dereferenced; its answers are those of G with A1..An appended *)
Lemma call_spec_fun g extra s f gargs : den_fast (sto s) g = TFun f gargs ->
  builtin call (s_ "call") (g :: extra) s = Some (call f (gargs ++ extra) s).
Proof. intros H. rewrite builtin_call_eq. unfold call_goal. rewrite H. reflexivity. Qed.
Lemma call_spec_atom g extra s a : den_fast (sto s) g = TAtom a ->
  builtin call (s_ "call") (g :: extra) s = Some (call a extra s).
Proof. intros H. rewrite builtin_call_eq. unfold call_goal. rewrite H. reflexivity. Qed.

(* once(G): G's first answer only; fails - no error - when G has none *)
Lemma once_spec g s :
  builtin call (s_ "once") [g] s =
  Some (match call_goal call g [] s with (x :: _, _) => ([x], false) | ([], e) => ([], e) end).
Proof. reflexivity. Qed.

(* findall(T, G, L): exactly the answers of unifying L with the list of the instances of T (one per
   answer of G, in order), computed from the store of the CALL (sto s): no binding made by G survives.
   The instances are copies: every variable of an instance is a new one (collect with lo = 0, collect_copies). *)
Lemma findall_spec t g l s xs :
  call_goal call g [] s = (xs, false) ->
  builtin call (s_ "findall") [t; g; l] s =
  Some (let '(es, b) := collect 0 (nxt s) t xs in unify_st {| sto := sto s; nxt := b |} l (mk_list es)).
Proof. intros H. rewrite builtin_findall_eq, H. reflexivity. Qed.

Lemma shift_id lo d u : (forall v, occurs v u = true -> v < lo) -> shift_term lo d u = u.
Proof.
  induction u as [a|z|q|w|f args IH] using term_ind'; intros B; cbn [shift_term]; auto.
  - assert (L: w < lo) by (apply B; simpl; apply Nat.eqb_refl).
    destruct (Nat.leb_spec lo w); [lia|reflexivity].
  - f_equal. rewrite <- (map_id args) at 2. apply map_ext_in. intros y Hy.
    apply (proj1 (Forall_forall _ _) IH y Hy). intros v Hv. apply B. apply occurs_fun. exists y. split; assumption.
Qed.

(* one element per answer, in order *)
Lemma collect_length lo t xs : forall base, length (fst (collect lo base t xs)) = length xs.
Proof.
  induction xs as [|x r IH]; intros base; cbn [collect]; [reflexivity|].
  specialize (IH (base + (nxt x - lo))). destruct (collect lo (base + (nxt x - lo)) t r) as [es b]. cbn [fst length] in *. lia.
Qed.

(* when the instances contain no variable created inside G they are collected unchanged *)
Lemma collect_older lo t xs : forall base,
  (forall x, In x xs -> forall v, occurs v (den_fast (sto x) t) = true -> v < lo) ->
  fst (collect lo base t xs) = map (fun x => den_fast (sto x) t) xs.
Proof.
  induction xs as [|x r IH]; intros base H; cbn [collect map]; [reflexivity|].
  specialize (IH (base + (nxt x - lo)) (fun y Hy => H y (or_intror Hy))).
  destruct (collect lo (base + (nxt x - lo)) t r) as [es b]. cbn [fst] in *. rewrite IH. f_equal.
  apply shift_id. apply H. left; reflexivity.
Qed.

(* findall collects COPIES (lo = 0): the instance of answer x_j is the dereferenced template with every variable c
   renamed to base_j + c - an injective renaming, the same for all occurrences within one instance - where
   base_1 = base and base_(j+1) = base_j + nxt x_j *)
Definition shift_by (d : nat) (t : term) : term := Rename.ren (fun c => c + d) t.

Lemma shift0_ren d u : shift_term 0 d u = shift_by d u.
Proof.
  unfold shift_by. induction u as [a|z|q|w|f args IH] using term_ind'; cbn [shift_term Rename.ren]; auto.
  f_equal. apply map_ext_Forall. exact IH.
Qed.

Fixpoint copy_bases (base : nat) (xs : list st) : list nat :=
  match xs with [] => [] | x :: r => base :: copy_bases (base + nxt x) r end.

Lemma collect_copies t xs : forall base,
  fst (collect 0 base t xs) = map (fun bx => shift_by (fst bx) (den_fast (sto (snd bx)) t)) (combine (copy_bases base xs) xs) /\
  snd (collect 0 base t xs) = fold_left (fun b x => b + nxt x) xs base.
Proof.
  induction xs as [|x r IH]; intros base; cbn [collect copy_bases combine map fold_left]; [split; reflexivity|].
  rewrite !Nat.sub_0_r. destruct (IH (base + nxt x)) as [A B].
  destruct (collect 0 (base + nxt x) t r) as [es b]. cbn [fst snd] in *. subst es b. rewrite shift0_ren. split; reflexivity.
Qed.

(* no variable of a collected instance existed before: all of them are >= base, the counter at the call, so an
   instance shares no variable with the caller, the goal, the template or the bag; and the variables of instance j
   lie in [base_j, base_j + nxt x_j), ranges that are pairwise disjoint: different instances share no variable *)
Lemma shift_by_occurs d u v : occurs v (shift_by d u) = true -> d <= v /\ occurs (v - d) u = true.
Proof.
  unfold shift_by. induction u as [a|z|q|w|f args IH] using term_ind'; cbn [Rename.ren occurs]; try discriminate.
  - intros H. apply Nat.eqb_eq in H. subst v. split; [lia|]. replace (w + d - d) with w by lia. apply Nat.eqb_refl.
  - intros H. apply existsb_exists in H. destruct H as [y [Hy Ho]]. apply in_map_iff in Hy. destruct Hy as [x0 [<- Hx]].
    destruct (proj1 (Forall_forall _ _) IH x0 Hx Ho) as [L O]. split; [exact L|]. apply existsb_exists. exists x0. split; assumption.
Qed.

Lemma copy_bases_ge xs : forall base b, In b (copy_bases base xs) -> base <= b.
Proof.
  induction xs as [|x r IH]; intros base b H; cbn [copy_bases In] in H; [contradiction|].
  destruct H as [<-|H]; [lia|]. specialize (IH _ _ H). lia.
Qed.

Lemma collect_copies_fresh t xs base e v :
  In e (fst (collect 0 base t xs)) -> occurs v e = true -> base <= v.
Proof.
  intros He Hv. rewrite (proj1 (collect_copies t xs base)) in He. apply in_map_iff in He. destruct He as [[b x] [<- Hb]].
  cbn [fst snd] in Hv. apply shift_by_occurs in Hv. destruct Hv as [L _].
  apply in_combine_l in Hb. apply copy_bases_ge in Hb. lia.
Qed.

Lemma collect_copies_disjoint t xs : forall base i j ei ej v,
  (forall x, In x xs -> forall w, occurs w (den_fast (sto x) t) = true -> w < nxt x) ->
  nth_error (fst (collect 0 base t xs)) i = Some ei -> nth_error (fst (collect 0 base t xs)) j = Some ej ->
  occurs v ei = true -> occurs v ej = true -> i = j.
Proof.
  induction xs as [|x r IH]; intros base i j ei ej v B Hi Hj Vi Vj.
  - cbn [collect fst] in Hi. destruct i; discriminate.
  - pose proof (collect_copies t (x :: r) base) as [E _]. cbn [copy_bases combine map] in E.
    pose proof (collect_copies t r (base + nxt x)) as [Er _].
    rewrite E in Hi, Hj. rewrite <- Er in Hi, Hj.
    assert (Hd: forall e w, In e (fst (collect 0 (base + nxt x) t r)) -> occurs w e = true -> base + nxt x <= w)
      by (intros e w; apply collect_copies_fresh).
    assert (H0: forall w, occurs w (shift_by base (den_fast (sto x) t)) = true -> w < base + nxt x).
    { intros w Hw. apply shift_by_occurs in Hw. destruct Hw as [L O]. pose proof (B x (or_introl eq_refl) _ O). lia. }
    destruct i as [|i], j as [|j]; cbn [nth_error fst snd] in Hi, Hj.
    + reflexivity.
    + injection Hi as <-. pose proof (H0 _ Vi). pose proof (Hd _ _ (nth_error_In _ _ Hj) Vj). lia.
    + injection Hj as <-. pose proof (H0 _ Vj). pose proof (Hd _ _ (nth_error_In _ _ Hi) Vi). lia.
    + f_equal. apply (IH (base + nxt x) i j ei ej v); auto. intros y Hy. apply B. right; exact Hy.
Qed.

Lemma findall_at_most_once t g l s r : builtin call (s_ "findall") [t; g; l] s = Some r -> length (fst r) <= 1.
Proof.
  rewrite builtin_findall_eq. intros H. injection H as <-. destruct (call_goal call g [] s) as [xs [|]]; cbn [fst length]; [lia|].
  destruct (collect 0 (nxt s) t xs) as [es b].
  unfold unify_st. destruct (unify_fast _ _ _ _); cbn [fst length]; lia.
Qed.

(* findall unifies the bag only AFTER the enumeration of G is complete: what is collected (the list of instances and
   the variable counter, or the fact that G ended in an error) is determined by the call, the template, the goal and the
   state of the call alone - it is chosen BEFORE the bag l is looked at - and the bag is then unified with that list in
   the store of the call.  In particular G runs in the state of the call whatever the bag is (unbound, a closed or a
   partial list, sharing variables with G or not): no binding flows from the bag into the enumeration of G. *)
Definition findall_collected (t g : term) (s : st) : option (list term * nat) :=
  let '(xs, e) := call_goal call g [] s in if e then None else Some (collect 0 (nxt s) t xs).

Lemma findall_bag_after_enumeration t g s :
  exists r : option (list term * nat),
    r = findall_collected t g s /\ forall l, builtin call (s_ "findall") [t; g; l] s =
              Some (match r with
                    | None => ([], true)
                    | Some (es, b) => unify_st {| sto := sto s; nxt := b |} l (mk_list es)
                    end).
Proof.
  exists (findall_collected t g s). split; [reflexivity|]. intros l.
  rewrite builtin_findall_eq. unfold findall_collected. destruct (call_goal call g [] s) as [xs [|]]; [reflexivity|].
  destruct (collect 0 (nxt s) t xs) as [es b]. reflexivity.
Qed.

(* consequence: two calls that differ only in the bag see the same collected list; whether each succeeds is the
   unifiability of its own bag with that list *)
Lemma findall_bags_same_list t g s l1 l2 :
  exists r, (forall es b, r = Some (es, b) ->
               builtin call (s_ "findall") [t; g; l1] s = Some (unify_st {| sto := sto s; nxt := b |} l1 (mk_list es)) /\ builtin call (s_ "findall") [t; g; l2] s = Some (unify_st {| sto := sto s; nxt := b |} l2 (mk_list es))) /\ (r = None -> builtin call (s_ "findall") [t; g; l1] s = Some ([], true) /\ builtin call (s_ "findall") [t; g; l2] s = Some ([], true)).
Proof.
  destruct (findall_bag_after_enumeration t g s) as [r [_ H]]. exists r. split.
  - intros es b E. rewrite !H, E. split; reflexivity.
  - intros E. rewrite !H, E. split; reflexivity.
Qed.

(* findall(T,G,L) is findall(T,G,V), L = V for a new variable V - the standard reading "collect, then match": with V
   unbound, not occurring in L nor in the collected list, the first step succeeds exactly once binding only V (to the
   resolved list), and matching L against V afterwards ends exactly as the direct call does (success / failure /
   error) with the SAME new bindings nw, computed from the resolved bag and the resolved list alone; the two final
   stores differ only by the binding of the auxiliary variable V. *)
Lemma findall_as_fresh_bag_then_unify t g l s v es b :
  wf (sto s) -> lookup v (sto s) = None ->
  occurs v (den (sto s) l) = false ->
  findall_collected t g s = Some (es, b) ->
  occurs v (den (sto s) (mk_list es)) = false ->
  let m := den (sto s) (mk_list es) in
  let s1 := {| sto := (v, m) :: sto s; nxt := b |} in
  builtin call (s_ "findall") [t; g; TVar v] s = Some ([s1], false) /\
  match unify ufuel [] (den (sto s) l) m with
  | UOk nw => builtin call (s_ "findall") [t; g; l] s = Some ([{| sto := nw ++ sto s; nxt := b |}], false) /\
              unify_st s1 l (TVar v) = ([{| sto := nw ++ (v, m) :: sto s; nxt := b |}], false)
  | UFail => builtin call (s_ "findall") [t; g; l] s = Some ([], false) /\ unify_st s1 l (TVar v) = ([], false)
  | _ => builtin call (s_ "findall") [t; g; l] s = Some ([], true) /\ unify_st s1 l (TVar v) = ([], true)
  end.
Proof.
  intros W L Ol C Om m s1.
  destruct (findall_bag_after_enumeration t g s) as [r [Er H]]. rewrite C in Er. subst r.
  destruct (unify_through_fresh (Nat.pred ufuel) (sto s) l (mk_list es) v W L Ol Om) as [U1 U2].
  split.
  - rewrite H. unfold unify_st. rewrite unify_fast_eq. cbn [sto nxt]. change ufuel with (S (Nat.pred ufuel)) at 1. rewrite U1. reflexivity.
  - destruct (U2 ufuel) as [Ud Uv]. rewrite H. unfold unify_st. rewrite !unify_fast_eq. cbn [sto nxt].
    subst s1. cbn [sto nxt]. fold m in Uv. rewrite Ud, Uv. fold m.
    destruct (unify ufuel [] (den (sto s) l) m) as [nw| | |]; cbn [lift]; split; reflexivity.
Qed.
End BuiltinSpec.

(* Step 1 of the clause semantics names a goal argument instead of unifying it with a fresh variable.
   This is what the unification would have done: unifying a goal argument a with a fresh variable x
   (unbound, not occurring in the argument) never fails, binds only x (or, when the argument is itself
   an unbound variable v, binds v to x), and afterwards x and a denote the same term. *)
Lemma fresh_head_variable n s a x :
  wf s -> lookup x s = None -> occurs x (den s a) = false ->
  exists s', unify (S n) s a (TVar x) = UOk s' /\ wf s' /\ den s' (TVar x) = den s' a /\
             (s' = (x, den s a) :: s \/ exists v, den s a = TVar v /\ s' = (v, TVar x) :: s).
Proof.
  intros W L O.
  pose proof (den_var_unbound _ _ L) as Dx.
  assert (R: forall s', unify (S n) s a (TVar x) = UOk s' -> wf s' /\ den s' (TVar x) = den s' a).
  { intros s' H. destruct (unify_sound _ _ _ W H) as [W' [_ D]]. split; [exact W'|symmetry; exact D]. }
  cbn [unify] in *. rewrite Dx in *.
  destruct (den s a) as [c|z|q|v|f args] eqn:Da.
  - unfold bind in *. cbn [occurs] in *. eexists; split; [reflexivity|]. destruct (R _ eq_refl). auto.
  - unfold bind in *. cbn [occurs] in *. eexists; split; [reflexivity|]. destruct (R _ eq_refl). auto.
  - unfold bind in *. cbn [occurs] in *. eexists; split; [reflexivity|]. destruct (R _ eq_refl). auto.
  - cbn [occurs] in O. rewrite O in *. eexists; split; [reflexivity|]. destruct (R _ eq_refl). eauto 6.
  - unfold bind in *. rewrite O in *. eexists; split; [reflexivity|]. destruct (R _ eq_refl). auto.
Qed.
