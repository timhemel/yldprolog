(* C20 at the level of SOURCE programs and the real model compiler: take a program P, take any set of its fact
   predicates (ground facts), compile P without them and register Python predicates over the same rows instead - in
   any registration order, yielding anything: every query has the same answers as against the compiled P, at every
   call depth, next to any dynamic facts.  (The two compilations number their if-then-else labels differently; both
   compute the clause-level semantics, ProgramCorrect.clauses_ok.) *)
From Coq Require Import String.
From Coq Require Import List Arith Bool.
Import ListNotations.
From YP Require Import Base.Str Term.Term Term.Fast Unify.Unify Unify.Fast Lang.Ast Comp.IR Comp.CompileBody Comp.CompileClause
  Sem.Res Sem.RefSem Sem.SemLemmas Sem.IRSem Sem.ControlCorrect Sem.Machine Sem.ClauseSem Sem.ProgramCorrect
  Sem.Native Sem.NativeThms Sem.NativeFacts.
Local Open Scope string_scope.
Local Open Scope list_scope.

(* a replaced fact predicate: name, arity, its rows (source terms), the values the Python function yields *)
Definition pyspec := (str * nat * (list (list sterm) * list bool))%type.

Definition py_fun (x : list (list sterm) * list bool) : nfun := native_rows (map row_of (fst x)) (snd x).
Definition py_table (l : list pyspec) : list (str * nat * nfun) := map (fun e => (fst e, py_fun (snd e))) l.

Lemma lookup_fix_map {A B} (g : A -> B) (l : list (str * nat * A)) name k :
  lookup_fix (map (fun e => (fst e, g (snd e))) l) name k = option_map g (lookup_fix l name k).
Proof.
  induction l as [|[[n0 k0] a] r IH]; [reflexivity|]. cbn [map lookup_fix fst snd].
  destruct (key_eq (n0, k0) (name, k)); [reflexivity|exact IH].
Qed.

(* the function of a compiled program for a key: what its clauses compute *)
Lemma compiled_key_run p ir call name args s : compile_program p = Some ir -> good_program p ->
  match clauses_for p name (length args) with
  | [] => find_func ir name (length args) = None
  | cs => exists f, find_func ir name (length args) = Some f /\
          (let '(ys, k) := run_function (iter call) assign (fn_body f) (bind_args 0 args, s) in
           (map snd ys, match k with CErr => true | _ => false end)) =
          (map snd (fst (clausesA call cs (bind_args 0 args, s))),
           match snd (clausesA call cs (bind_args 0 args, s)) with FErr => true | _ => false end)
  end.
Proof.
  intros HC G.
  assert (HG: exists cnt', compile_groups (group_program p) 0 = Some (ir, cnt')).
  { unfold compile_program in HC. destruct (compile_groups (group_program p) 0) as [[fs c]|]; [|discriminate].
    injection HC as <-. exists c. reflexivity. }
  destruct HG as [cnt' HG].
  pose proof (find_func_groups _ _ _ _ HG name (length args)) as HF.
  rewrite lookup_program in HF.
  pose proof (good_filter p (fun c => key_eqb (clause_key c) (name, length args)) G) as GF.
  fold (clauses_for p name (length args)) in GF.
  destruct (clauses_for p name (length args)) as [|c cs] eqn:EC; [exact HF|].
  destruct HF as [f [c0 [c1 [HF HB]]]]. exists f. split; [exact HF|].
  exact (run_clauses call (c :: cs) c0 (fn_body f) c1 args s HB GF).
Qed.

Lemma compiled_key_facts p ir call name rows args s : compile_program p = Some ir -> good_program p ->
  rows <> [] -> Forall (fun row => ground_row row = true /\ length row = length args) rows ->
  clauses_for p name (length args) = map (fact_clause name) rows ->
  exists f, find_func ir name (length args) = Some f /\ run_code call (fn_body f) args s = match_rows (map row_of rows) args s.
Proof.
  intros HC G NE F EC. pose proof (compiled_key_run p ir call name args s HC G) as R. rewrite EC in R.
  destruct rows as [|row rest]; [contradiction|]. destruct R as [f [HF RUN]]. exists f. split; [exact HF|].
  etransitivity; [exact RUN|]. exact (fact_clauses_answers call name (row :: rest) args s F).
Qed.

Definition py_clauses (l : list pyspec) : program :=
  flat_map (fun e => map (fact_clause (fst (fst e))) (fst (snd e))) l.

Definition spec_ok (e : pyspec) : Prop :=
  fst (snd e) <> [] /\ Forall (fun row => ground_row row = true /\ length row = snd (fst e)) (fst (snd e)).

Lemma key_eq_false a b : key_eq a b = false -> a <> b.
Proof. intros H E. subst. rewrite key_eq_refl in H. discriminate. Qed.

Lemma key_eqb_key_eq a b : key_eqb a b = key_eq a b.
Proof. reflexivity. Qed.

Lemma clauses_for_app p q name k : clauses_for (p ++ q) name k = clauses_for p name k ++ clauses_for q name k.
Proof. unfold clauses_for. apply filter_app. Qed.

Lemma lookup_fix_in {A} (l : list (str * nat * A)) name k x : lookup_fix l name k = Some x -> In (name, k, x) l.
Proof.
  induction l as [|[[n0 k0] a] r IH]; [discriminate|]. cbn [lookup_fix].
  destruct (key_eq (n0, k0) (name, k)) eqn:K; [|right; apply IH; assumption].
  apply key_eq_true in K. injection K as -> ->. intros E. injection E as ->. left. reflexivity.
Qed.

Lemma py_clauses_good specs : good_program (py_clauses specs).
Proof.
  apply Forall_flat_map, Forall_forall. intros e _. apply facts_good.
Qed.

Lemma clauses_for_none p name k : (forall c, In c p -> key_eqb (clause_key c) (name, k) = false) -> clauses_for p name k = [].
Proof.
  unfold clauses_for. induction p as [|c r IH]; intros H; [reflexivity|]. cbn [filter].
  rewrite (H c (or_introl eq_refl)). apply IH. intros c' Hc'. apply H. right. exact Hc'.
Qed.

(* P = rules ++ the facts of specs, key by key.  R is what is asked of each row beside having the arity of its key. *)
Section Split.
Variable R : list sterm -> Prop.

Lemma clauses_for_facts name0 k0 rows name k : Forall (fun row => R row /\ length row = k0) rows ->
  clauses_for (map (fact_clause name0) rows) name k =
  if key_eq (name0, k0) (name, k) then map (fact_clause name0) rows else [].
Proof.
  intros F. unfold clauses_for. induction F as [|row r [_ L] _ IH]; [destruct (key_eq (name0, k0) (name, k)); reflexivity|].
  cbn [map filter]. rewrite IH, key_eqb_key_eq. unfold clause_key. cbn [fact_clause c_name c_args]. rewrite L. destruct (key_eq (name0, k0) (name, k)); reflexivity.
Qed.

Definition spec_ok_for (e : pyspec) : Prop :=
  fst (snd e) <> [] /\ Forall (fun row => R row /\ length row = snd (fst e)) (fst (snd e)).

Lemma clauses_for_py specs : Forall spec_ok_for specs -> NoDup (map fst specs) -> forall name k,
  clauses_for (py_clauses specs) name k =
  match lookup_fix specs name k with Some x => map (fact_clause name) (fst x) | None => [] end.
Proof.
  induction specs as [|[[n0 k0] x] r IH]; intros Ok ND name k; [reflexivity|].
  apply Forall_cons_iff in Ok as [[_ Le] Or]. cbn [map] in ND. apply NoDup_cons_iff in ND as [NI NDr]. cbn [fst snd] in Le, NI.
  cbn [py_clauses flat_map fst snd lookup_fix]. fold (py_clauses r).
  rewrite clauses_for_app, (IH Or NDr), (clauses_for_facts n0 k0 (fst x) name k Le).
  destruct (key_eq (n0, k0) (name, k)) eqn:K; [|reflexivity].
  apply key_eq_true in K. injection K as -> ->.
  destruct (lookup_fix r name k) as [y|] eqn:Lk; [|apply app_nil_r].
  exfalso. apply NI. exact (in_map fst _ _ (lookup_fix_in _ _ _ _ Lk)).
Qed.

Lemma py_split rules specs : Forall spec_ok_for specs -> NoDup (map fst specs) ->
  (forall c, In c rules -> lookup_fix specs (c_name c) (length (c_args c)) = None) ->
  forall name k,
  match lookup_fix specs name k with
  | Some (rows, vals) => rows <> [] /\ Forall (fun row => R row /\ length row = k) rows /\
                         clauses_for (rules ++ py_clauses specs) name k = map (fact_clause name) rows
  | None => clauses_for (rules ++ py_clauses specs) name k = clauses_for rules name k
  end.
Proof.
  intros Ok ND Dis name k. rewrite clauses_for_app, (clauses_for_py specs Ok ND name k).
  destruct (lookup_fix specs name k) as [[rows vals]|] eqn:Lk; [|apply app_nil_r].
  destruct (proj1 (Forall_forall _ _) Ok _ (lookup_fix_in _ _ _ _ Lk)) as [NE F]. cbn [fst snd] in NE, F.
  split; [exact NE|]. split; [exact F|].
  rewrite (clauses_for_none rules name k); [reflexivity|].
  intros c Hc. destruct (key_eqb (clause_key c) (name, k)) eqn:K; [|reflexivity].
  rewrite key_eqb_key_eq in K. apply key_eq_true in K. unfold clause_key in K. injection K as E1 E2.
  pose proof (Dis c Hc) as D. rewrite E1, E2, Lk in D. discriminate.
Qed.
End Split.

Lemma spec_ok_ground : spec_ok = spec_ok_for (fun row => ground_row row = true).
Proof. reflexivity. Qed.

(* a predicate registered with arity=-1 (key name_n) is called for every arity of its name: with rows of arity kv it
   answers like the compiled facts for arity kv and has no answer for any other arity - as the compiled program, which
   has no function for those.  The name must not be the name of a builtin (their keys would be found first / instead). *)
Definition pyvspec := (str * (nat * list (list sterm) * list bool))%type.
Definition pyv_fun (x : nat * list (list sterm) * list bool) : nfun := native_rows (map row_of (snd (fst x))) (snd x).
Definition pyv_table (l : list pyvspec) : list (str * nfun) := map (fun e => (fst e, pyv_fun (snd e))) l.

Lemma lookup_var_map {A B} (g : A -> B) (l : list (str * A)) name :
  lookup_var (map (fun e => (fst e, g (snd e))) l) name = option_map g (lookup_var l name).
Proof.
  induction l as [|[n0 a] r IH]; [reflexivity|]. cbn [map lookup_var fst snd].
  destruct (str_eqb n0 name); [reflexivity|exact IH].
Qed.

Lemma match_rows_arity rows args s : Forall (fun r => length (r_vals r) <> length args) rows -> match_rows rows args s = ([], false).
Proof.
  induction 1 as [|r rest NL _ IH]; [reflexivity|].
  cbn [match_rows]. unfold unify_arrays_fast, row_terms. rewrite map_length.
  destruct (Nat.eqb_spec (length args) (length (r_vals r))) as [E|_]; [congruence|]. exact IH.
Qed.

Section Compiled.
Variable irf : ir_program.
Variable dynl : list (str * nat * list frow).
Definition w_compiled : world := mk_world irf [] [] dynl.
End Compiled.

Section SourceStyles.
Variables rules P : program.
Variables ir irf : ir_program.
Variable specs : list pyspec.
Variable vspecs : list pyvspec.
Variable dynl : list (str * nat * list frow).
Hypothesis Hrules : compile_program rules = Some ir.
Hypothesis HP : compile_program P = Some irf.
Hypothesis Grules : good_program rules.
Hypothesis GP : good_program P.
(* P = rules + the facts of the replaced predicates (in any order of the predicates) *)
Hypothesis Hsplit : forall name k,
  match lookup_fix specs name k with
  | Some (rows, vals) => rows <> [] /\ Forall (fun row => ground_row row = true /\ length row = k) rows /\
                         clauses_for P name k = map (fact_clause name) rows
  | None =>
      match lookup_var vspecs name with
      | Some (kv, rows, vals) =>
          (forall c a s0, builtin c name a s0 = None) /\ str_eqb name (s_ "call") = false /\
          clauses_for rules name k = [] /\ rows <> [] /\
          Forall (fun row => ground_row row = true /\ length row = kv) rows /\
          clauses_for P name k = (if Nat.eqb k kv then map (fact_clause name) rows else [])
      | None => clauses_for P name k = clauses_for rules name k
      end
  end.

Definition w_python_styles : world := mk_world ir (py_table specs) (pyv_table vspecs) dynl.

Lemma source_styles_equiv : world_equiv w_python_styles (w_compiled irf dynl).
Proof.
  intros call name args s. rewrite !nstep_eq. cbn [w_python_styles w_compiled mk_world w_dyn]. f_equal.
  rewrite !call_function_eq. cbn [w_python_styles w_compiled mk_world w_fix w_ir w_var lookup_fix lookup_var].
  unfold py_table, pyv_table. rewrite lookup_fix_map, lookup_var_map.
  pose proof (Hsplit name (length args)) as Hs.
  destruct (lookup_fix specs name (length args)) as [[rows vals]|]; cbn [option_map].
  - destruct Hs as [NE [Fr EC]].
    destruct (compiled_key_facts P irf call name rows args s HP GP NE Fr EC) as [f [HF RUN]].
    rewrite HF, RUN. apply drop_native_rows.
  - pose proof (compiled_key_run rules ir call name args s Hrules Grules) as RR.
    pose proof (compiled_key_run P irf call name args s HP GP) as RP.
    destruct (lookup_var vspecs name) as [[[kv rows] vals]|]; cbn [option_map].
    + (* a variadic key: its rows answer for the arity kv, nothing answers for any other arity *)
      destruct Hs as [NB [NC [ER [NE [Fr EC]]]]]. rewrite ER in RR. rewrite RR. unfold fallback. rewrite NC, NB.
      unfold pyv_fun. cbn [fst snd]. rewrite drop_native_rows.
      destruct (Nat.eqb_spec (length args) kv) as [EK|NK].
      * subst kv. destruct (compiled_key_facts P irf call name rows args s HP GP NE Fr EC) as [f [HF RUN]].
        rewrite HF, RUN. reflexivity.
      * rewrite EC in RP. rewrite RP. apply match_rows_arity. apply Forall_forall. intros r Hr.
        apply in_map_iff in Hr as [row [<- Hrow]]. cbn [row_of r_vals]. rewrite map_length.
        destruct (proj1 (Forall_forall _ _) Fr row Hrow) as [_ L]. congruence.
    + (* a key of rules: the same clauses in both programs *)
      rewrite Hs in RP. destruct (clauses_for rules name (length args)) as [|c cs].
      * rewrite RR, RP. reflexivity.
      * destruct RR as [f1 [HF1 RUN1]]. destruct RP as [f2 [HF2 RUN2]]. rewrite HF1, HF2. unfold run_code.
        rewrite RUN1, RUN2. reflexivity.
Qed.

Theorem source_interchangeable_all_styles : forall n name args s,
  nquery n w_python_styles name args s = nquery n (w_compiled irf dynl) name args s.
Proof. apply world_equiv_nquery. exact source_styles_equiv. Qed.
End SourceStyles.

(* the theorem for P = rules ++ facts, fixed keys only *)
Theorem program_with_python_predicates rules specs dynl ir irf :
  compile_program rules = Some ir -> compile_program (rules ++ py_clauses specs) = Some irf ->
  good_program rules -> Forall spec_ok specs -> NoDup (map fst specs) ->
  (forall c, In c rules -> lookup_fix specs (c_name c) (length (c_args c)) = None) ->
  forall n name args s,
    nquery n (mk_world ir (py_table specs) [] dynl) name args s = nquery n (mk_world irf [] [] dynl) name args s.
Proof.
  intros Hr HP Gr Ok ND Dis.
  apply (source_interchangeable_all_styles rules (rules ++ py_clauses specs) ir irf specs [] dynl Hr HP Gr).
  - apply Forall_app. split; [exact Gr | apply py_clauses_good].
  - rewrite spec_ok_ground in Ok. exact (py_split _ rules specs Ok ND Dis).
Qed.

Lemma mk_world_plain ir : world_equiv (mk_world ir [] [] []) (plain ir).
Proof. intros call name args s. reflexivity. Qed.

(* rules compiled alone + Python predicates for the fact predicates of specs compute, for every query, exactly the
   clause-level reference semantics (Sem/ClauseSem.solveA: clauses in source order, head unification, RefSem control) of the
   WHOLE Prolog program rules ++ facts - the semantics that C01 proves for compiled programs *)
Theorem python_predicates_compute_clause_semantics rules specs ir irf :
  compile_program rules = Some ir -> compile_program (rules ++ py_clauses specs) = Some irf ->
  good_program rules -> Forall spec_ok specs -> NoDup (map fst specs) ->
  (forall c, In c rules -> lookup_fix specs (c_name c) (length (c_args c)) = None) ->
  (forall f, In f irf -> Resolve.reserved (fn_name f) = false) ->
  forall n name args s,
    nquery n (mk_world ir (py_table specs) [] []) name args s = solveA n (rules ++ py_clauses specs) name args s.
Proof.
  intros Hr HP Gr Ok ND Dis NR n name args s.
  rewrite (program_with_python_predicates rules specs [] ir irf Hr HP Gr Ok ND Dis n name args s).
  rewrite (world_equiv_nquery _ _ (mk_world_plain irf) n name args s).
  rewrite (plain_is_machine irf NR n name args s).
  apply machine_computes_clause_semantics; [exact HP|].
  apply Forall_app. split; [exact Gr | apply py_clauses_good].
Qed.
