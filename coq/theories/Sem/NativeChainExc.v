(* C20: the engine with chains of definitions (Sem/NativeChain.v) with the exception OBJECT carried along, as Sem/NativeExc.v does
   for the engine with one definition per key.  Two theorems:
     erase_cqueryE          forgetting which exception it was gives exactly NativeChain.cquery;
     chain_exception_provenance   whatever property Q the engine's own exceptions and those raised by the Python predicates that
                            are members of chains (or variadic) have, the exception that ends any query has it: chain_functions /
                            itertools.chain create, wrap or replace nothing. *)
From Coq Require Import String.
From Coq Require Import List Arith Bool.
Import ListNotations.
From YP Require Import Base.Str Term.Term Term.Fast Unify.Unify Unify.Fast Lang.Ast Comp.IR Comp.CompileBody
  Sem.Res Sem.IRSem Sem.ExecMono Sem.Machine Sem.Native Sem.NativeThms Sem.NativeExc Sem.NativeChain.
From YP Require Engine.Resolve.
Local Open Scope string_scope.
Local Open Scope list_scope.

Inductive cdefE :=
| ENat (f : nfunE)
| EIr (f : func).

Record cworldE := {
  ce_fix : str -> nat -> option (list cdefE);
  ce_var : str -> option nfunE;
  ce_dyn : str -> nat -> list frow
}.

Definition run_defE (call : callE) (d : cdefE) (args : list term) (s : st) : eresT :=
  match d with
  | ENat f => dropE (f args s)
  | EIr f =>
      let '(ys, k) := run_functionE (iterE call) assign (fn_body f) (bind_args 0 args, s) in
      (map snd ys, match k with EErr x => Some x | _ => None end)
  end.

Fixpoint run_chainE (call : callE) (ds : list cdefE) (args : list term) (s : st) : eresT :=
  match ds with
  | [] => ([], None)
  | d :: r =>
      let '(xs, e) := run_defE call d args s in
      match e with
      | Some x => (xs, Some x)
      | None => let '(ys, e') := run_chainE call r args s in (xs ++ ys, e')
      end
  end.

Definition ccall_functionE (call : callE) (w : cworldE) (name : str) (args : list term) (s : st) : eresT :=
  match ce_fix w name (length args) with
  | Some ds => run_chainE call ds args s
  | None =>
      if str_eqb name (s_ "call") then
        match ce_var w name with
        | Some f => dropE (f args s)
        | None => match builtinE call name args s with Some r => r | None => ([], None) end
        end
      else
        match builtinE call name args s with
        | Some r => r
        | None => match ce_var w name with Some f => dropE (f args s) | None => ([], None) end
        end
  end.

Definition cstepE (call : callE) (w : cworldE) (name : str) (args : list term) (s : st) : eresT :=
  let '(ds, de) := match_rowsE (ce_dyn w name (length args)) args s in
  match de with
  | Some x => (ds, Some x)
  | None => if Resolve.reserved name then (ds, None)
            else let '(fs, fe) := ccall_functionE call w name args s in (ds ++ fs, fe)
  end.

Fixpoint cqueryE (n : nat) (w : cworldE) (name : str) (args : list term) (s : st) {struct n} : eresT :=
  match n with
  | O => ([], Some XDepth)
  | S n' => cstepE (cqueryE n' w) w name args s
  end.

Lemma run_defE_ir call f args s : run_defE call (EIr f) args s = run_codeE call (fn_body f) args s.
Proof. reflexivity. Qed.

Lemma ccall_functionE_eq call w name args s :
  ccall_functionE call w name args s =
  match ce_fix w name (length args) with
  | Some ds => run_chainE call ds args s
  | None => fallbackE call (ce_var w name) name args s
  end.
Proof. reflexivity. Qed.

Lemma cstepE_eq call w name args s :
  cstepE call w name args s = dyn_firstE (ce_dyn w name (length args)) name args s (ccall_functionE call w name args s).
Proof. reflexivity. Qed.

Definition erase_def (d : cdefE) : cdef := match d with ENat f => CNat (erf f) | EIr f => CIr f end.
Definition erase_cworld (w : cworldE) : cworld :=
  {| c_fix := fun n k => option_map (map erase_def) (ce_fix w n k);
     c_var := fun n => option_map erf (ce_var w n); c_dyn := ce_dyn w |}.

Section EraseCallC.
Variable cE : callE.
Variable c : callT.
Hypothesis Hc : forall name args s, er (cE name args s) = c name args s.

Lemma run_defE_erase d args s : er (run_defE cE d args s) = run_def c (erase_def d) args s.
Proof. destruct d as [f|f]; [reflexivity|]. rewrite run_defE_ir. apply (run_codeE_erase cE c Hc). Qed.

Lemma run_chainE_erase ds args s : er (run_chainE cE ds args s) = run_chain c (map erase_def ds) args s.
Proof.
  induction ds as [|d r IH]; [reflexivity|]. cbn [run_chainE map run_chain]. rewrite <- run_defE_erase.
  destruct (run_defE cE d args s) as [xs [x|]]; [reflexivity|]. cbn [er fst snd eb].
  rewrite <- IH. destruct (run_chainE cE r args s) as [ys e']. reflexivity.
Qed.

Lemma ccall_functionE_erase w name args s :
  er (ccall_functionE cE w name args s) = ccall_function c (erase_cworld w) name args s.
Proof.
  rewrite ccall_functionE_eq, ccall_function_eq. cbn [erase_cworld c_fix c_var].
  destruct (ce_fix w name (length args)) as [ds|]; [apply run_chainE_erase|apply (fallbackE_erase cE c Hc)].
Qed.

Lemma cstepE_erase w name args s : er (cstepE cE w name args s) = cstep c (erase_cworld w) name args s.
Proof. rewrite cstepE_eq, cstep_eq, dyn_firstE_erase, ccall_functionE_erase. reflexivity. Qed.
End EraseCallC.

Theorem erase_cqueryE w : forall n name args s, er (cqueryE n w name args s) = cquery n (erase_cworld w) name args s.
Proof.
  induction n as [|n IH]; intros name args s; [reflexivity|].
  cbn [cqueryE cquery]. apply cstepE_erase. exact IH.
Qed.

Section ProvenanceC.
Variable Q : exn -> Prop.
Hypothesis Qdepth : Q XDepth.
Hypothesis Qunify : Q XUnify.
Hypothesis Qgoal : Q XGoal.
Hypothesis Qcode : Q XCode.
Variable w : cworldE.
Hypothesis Qfix : forall name k ds f args s e, ce_fix w name k = Some ds -> In (ENat f) ds -> snd (f args s) = Some e -> Q e.
Hypothesis Qvar : forall name f args s e, ce_var w name = Some f -> snd (f args s) = Some e -> Q e.

Section OkCallC.
Variable cE : callE.
Hypothesis Hc : forall name args s, okr Q (cE name args s).

Lemma run_defE_ok d args s : (forall f a s0 e, d = ENat f -> snd (f a s0) = Some e -> Q e) -> okr Q (run_defE cE d args s).
Proof.
  intros H. destruct d as [f|f].
  - intros e E. exact (H f args s e eq_refl E).
  - rewrite run_defE_ir. apply (run_codeE_ok Q Qunify Qcode cE Hc).
Qed.

Lemma run_chainE_ok ds args s : (forall f a s0 e, In (ENat f) ds -> snd (f a s0) = Some e -> Q e) -> okr Q (run_chainE cE ds args s).
Proof.
  induction ds as [|d r IH]; intros H; [apply okr_none|]. cbn [run_chainE].
  assert (D : okr Q (run_defE cE d args s)).
  { apply run_defE_ok. intros f a s0 e -> E. apply (H f a s0 e); [left; reflexivity|exact E]. }
  destruct (run_defE cE d args s) as [xs [x|]]; [exact D|].
  assert (R : okr Q (run_chainE cE r args s)).
  { apply IH. intros f a s0 e I E. apply (H f a s0 e); [right; exact I|exact E]. }
  destruct (run_chainE cE r args s) as [ys e']. exact R.
Qed.

Lemma ccall_functionE_ok name args s : okr Q (ccall_functionE cE w name args s).
Proof.
  rewrite ccall_functionE_eq. destruct (ce_fix w name (length args)) as [ds|] eqn:F.
  - apply run_chainE_ok. intros f a s0 e I E. exact (Qfix name (length args) ds f a s0 e F I E).
  - apply (fallbackE_ok Q Qunify Qgoal cE Hc). intros f V e H. exact (Qvar name f args s e V H).
Qed.

Lemma cstepE_ok name args s : okr Q (cstepE cE w name args s).
Proof. rewrite cstepE_eq. apply (dyn_firstE_ok Q Qunify), ccall_functionE_ok. Qed.
End OkCallC.

Theorem chain_exception_provenance : forall n name args s e, snd (cqueryE n w name args s) = Some e -> Q e.
Proof.
  induction n as [|n IH]; intros name args s e H.
  - injection H as <-. exact Qdepth.
  - cbn [cqueryE] in H. exact (cstepE_ok (cqueryE n w) (fun nm a s0 e0 => IH nm a s0 e0) name args s e H).
Qed.
End ProvenanceC.

(* if the Python predicates raise nothing but the object XPy tag: a query ends normally, by an engine exception, or by that object *)
Corollary chain_exception_unchanged w tag :
  (forall name k ds f args s e, ce_fix w name k = Some ds -> In (ENat f) ds -> snd (f args s) = Some e -> e = XPy tag) ->
  (forall name f args s e, ce_var w name = Some f -> snd (f args s) = Some e -> e = XPy tag) ->
  forall n name args s e, snd (cqueryE n w name args s) = Some e -> engine_exn e \/ e = XPy tag.
Proof.
  intros Hf Hv. apply (chain_exception_provenance (fun e => engine_exn e \/ e = XPy tag)); unfold engine_exn; auto 6.
  - intros name k ds f args s e F I H. right. exact (Hf name k ds f args s e F I H).
  - intros name f args s e F H. right. exact (Hv name f args s e F H).
Qed.

Inductive opE :=
| EReg (name : str) (k : nat) (f : nfunE)
| ERegVar (name : str) (f : nfunE)
| ELoad (ir : ir_program) (overwrite : bool)
| EAssert (name : str) (row : frow).

Definition apply_opE (w : cworldE) (o : opE) : cworldE :=
  match o with
  | EReg name k f =>
      {| ce_fix := fun n0 k0 => if key_eq (n0, k0) (name, k) then Some [ENat f] else ce_fix w n0 k0; ce_var := ce_var w; ce_dyn := ce_dyn w |}
  | ERegVar name f => {| ce_fix := ce_fix w; ce_var := fun n0 => if str_eqb n0 name then Some f else ce_var w n0; ce_dyn := ce_dyn w |}
  | ELoad ir ow =>
      {| ce_fix := fun n0 k0 =>
           match find_func ir n0 k0 with
           | Some f => if ow then Some [EIr f] else Some (match ce_fix w n0 k0 with Some old => old ++ [EIr f] | None => [EIr f] end)
           | None => ce_fix w n0 k0
           end;
         ce_var := ce_var w; ce_dyn := ce_dyn w |}
  | EAssert name row =>
      {| ce_fix := ce_fix w; ce_var := ce_var w;
         ce_dyn := fun n0 k0 => if key_eq (n0, k0) (name, length (r_vals row)) then ce_dyn w n0 k0 ++ [row] else ce_dyn w n0 k0 |}
  end.

Definition cemptyE : cworldE := {| ce_fix := fun _ _ => None; ce_var := fun _ => None; ce_dyn := fun _ _ => [] |}.
Definition buildE (w : cworldE) (ops : list opE) : cworldE := fold_left apply_opE ops w.

Definition erase_op (o : opE) : op :=
  match o with
  | EReg name k f => OReg name k (erf f)
  | ERegVar name f => ORegVar name (erf f)
  | ELoad ir ow => OLoad ir ow
  | EAssert name row => OAssert name row
  end.

(* the erasure of the built engine is the engine built from the erased operations, pointwise *)
Definition cworld_same (w1 w2 : cworld) : Prop :=
  (forall n k, c_fix w1 n k = c_fix w2 n k) /\ (forall n, c_var w1 n = c_var w2 n) /\ (forall n k, c_dyn w1 n k = c_dyn w2 n k).

Lemma apply_op_same w1 w2 o : cworld_same w1 w2 -> cworld_same (apply_op w1 o) (apply_op w2 o).
Proof.
  intros [Hf [Hv Hd]]. destruct o as [name k f|name f|ir ow|name row]; repeat split; cbn [apply_op c_fix c_var c_dyn]; intros;
    try apply Hf; try apply Hv; try apply Hd.
  - unfold set_fix. rewrite Hf. reflexivity.
  - rewrite Hv. reflexivity.
  - unfold load_fix. rewrite Hf. reflexivity.
  - rewrite Hd. reflexivity.
Qed.

Lemma erase_apply_op w o : cworld_same (erase_cworld (apply_opE w o)) (apply_op (erase_cworld w) (erase_op o)).
Proof.
  destruct o as [name k f|name f|ir ow|name row]; repeat split; cbn [apply_opE apply_op erase_op erase_cworld c_fix c_var c_dyn ce_fix ce_var ce_dyn]; intros n0; try reflexivity.
  - intros k0. unfold set_fix. destruct (key_eq (n0, k0) (name, k)); reflexivity.
  - destruct (str_eqb n0 name); reflexivity.
  - intros k0. unfold load_fix. destruct (find_func ir n0 k0) as [f|]; [|reflexivity]. destruct ow; [reflexivity|].
    destruct (ce_fix w n0 k0) as [old|]; cbn [option_map]; [rewrite map_app|]; reflexivity.
Qed.

Lemma cworld_same_equiv w1 w2 : cworld_same w1 w2 -> cworld_equiv w1 w2.
Proof.
  intros [Hf [Hv Hd]] call name args s. unfold cstep, ccall_function. rewrite Hd, Hf, Hv. reflexivity.
Qed.

Lemma build_same ops : forall a b, cworld_same a b -> cworld_same (build a ops) (build b ops).
Proof.
  induction ops as [|x xs IH]; intros a b Hab; [exact Hab|]. cbn [build fold_left]. apply IH. apply apply_op_same. exact Hab.
Qed.

Lemma cworld_same_trans a b c : cworld_same a b -> cworld_same b c -> cworld_same a c.
Proof.
  intros [Hf [Hv Hd]] [Gf [Gv Gd]]. repeat split; intros; [rewrite Hf; apply Gf|rewrite Hv; apply Gv|rewrite Hd; apply Gd].
Qed.

Lemma erase_build ops : forall w, cworld_same (erase_cworld (buildE w ops)) (build (erase_cworld w) (map erase_op ops)).
Proof.
  induction ops as [|o r IH]; intros w; [repeat split; reflexivity|].
  change (buildE w (o :: r)) with (buildE (apply_opE w o) r).
  change (build (erase_cworld w) (map erase_op (o :: r))) with (build (apply_op (erase_cworld w) (erase_op o)) (map erase_op r)).
  eapply cworld_same_trans; [apply IH|]. apply build_same. apply erase_apply_op.
Qed.

(* the engine with exception objects built by a sequence of operations erases to the chain engine built by the same sequence *)
Theorem erase_built_cqueryE ops n name args s :
  er (cqueryE n (buildE cemptyE ops) name args s) = cquery n (build cempty (map erase_op ops)) name args s.
Proof.
  rewrite erase_cqueryE. apply cworld_equiv_cquery. apply cworld_same_equiv.
  pose proof (erase_build ops cemptyE) as H. exact H.
Qed.
