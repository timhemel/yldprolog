(* The engine model of Sem/Native.v depends on a registered predicate only through the answers a value-ignoring consumer
   sees (sem_extensional_program), never on the values it yields; and the parts of one level of YP.query - run_code,
   fallback, dyn_first - through which the other Native* files reason about call_function and nstep. *)
From Coq Require Import String.
From Coq Require Import List Arith Bool.
Import ListNotations.
From YP Require Import Base.Str Term.Term Term.Fast Unify.Unify Unify.Fast Lang.Ast Comp.IR Comp.CompileBody Comp.CompileClause
  Sem.Res Sem.RefSem Sem.SemLemmas Sem.IRSem Sem.ExecMono Sem.Machine Sem.ClauseSem Sem.ProgramCorrect Sem.Native.
Local Open Scope string_scope.
Local Open Scope list_scope.

(* what a consumer that ignores the yielded values sees of `native_rows rows vals` does not depend on vals:
   it is the loop over stored facts *)
Lemma drop_native_rows rows : forall vals args s, drop (native_rows rows vals args s) = match_rows rows args s.
Proof.
  induction rows as [|r rest IH]; intros vals args s; cbn [native_rows match_rows]; [reflexivity|].
  destruct (unify_arrays_fast ufuel (sto s) args (row_terms r s)); try reflexivity.
  - specialize (IH (tl vals) args s). unfold drop in *.
    destruct (native_rows rest (tl vals) args s) as [zs e]. destruct (match_rows rest args s) as [zs' e'].
    cbn [fst snd map] in *. injection IH as -> ->. reflexivity.
  - apply IH.
Qed.

(* the generator function with body `code` called with args: its answers, and whether it ended by an exception *)
Definition run_code (call : callT) (code : list stmt) (args : list term) (s : st) : list st * bool :=
  let '(ys, k) := run_function (iter call) assign code (bind_args 0 args, s) in
  (map snd ys, match k with CErr => true | _ => false end).

(* no function under the key name_<arity>: the variadic key name_n (v) and the builtins, in the order of eval_context.get *)
Definition fallback (call : callT) (v : option nfun) (name : str) (args : list term) (s : st) : list st * bool :=
  if str_eqb name (s_ "call") then
    match v with
    | Some f => drop (f args s)
    | None => match builtin call name args s with Some r => r | None => ([], false) end
    end
  else
    match builtin call name args s with
    | Some r => r
    | None => match v with Some f => drop (f args s) | None => ([], false) end
    end.

Lemma call_function_eq call w name args s :
  call_function call w name args s =
  match w_fix w name (length args) with
  | Some f => drop (f args s)
  | None => match find_func (w_ir w) name (length args) with
            | Some f => run_code call (fn_body f) args s
            | None => fallback call (w_var w name) name args s
            end
  end.
Proof. reflexivity. Qed.

(* the stored facts answer first; an exception among them, or an API name, ends the call there; r: what the function found
   for the call answers *)
Definition dyn_first (rows : list frow) (name : str) (args : list term) (s : st) (r : list st * bool) : list st * bool :=
  let '(ds, de) := match_rows rows args s in
  if de then (ds, true)
  else if Resolve.reserved name then (ds, false)
  else let '(fs, fe) := r in (ds ++ fs, fe).

Lemma nstep_eq call w name args s :
  nstep call w name args s = dyn_first (w_dyn w name (length args)) name args s (call_function call w name args s).
Proof. reflexivity. Qed.

(* the emitted code: pointwise-equal iterators give equal runs, for every statement list *)
Section ExecExt.
Variable S : Type.
Variable assign : str -> expr -> S -> S.
Variables J1 J2 : expr -> S -> list S * bool.
Hypothesis EJ : forall it s, J1 it s = J2 it s.

Lemma loop_ext (b1 b2 : S -> flags -> out S) e xs : (forall x f, b1 x f = b2 x f) ->
  forall f, loop b1 e xs f = loop b2 e xs f.
Proof.
  intros H. induction xs as [|x r IH]; intros f; cbn [loop]; [reflexivity|].
  rewrite H. destruct (b2 x f) as [[ys k] f1]. destruct k; try reflexivity. rewrite IH. reflexivity.
Qed.

Lemma exec_cons_ext st r :
  (forall s f, exec_stmt J1 assign st s f = exec_stmt J2 assign st s f) ->
  (forall s f, exec_list J1 assign r s f = exec_list J2 assign r s f) ->
  forall s f, exec_list J1 assign (st :: r) s f = exec_list J2 assign (st :: r) s f.
Proof.
  intros Hst Hr s f.
  assert (G : (let '(ys, k, f1) := exec_stmt J1 assign st s f in
               match k with CNorm => let '(zs, k2, f2) := exec_list J1 assign r s f1 in (ys ++ zs, k2, f2) | _ => (ys, k, f1) end) =
              (let '(ys, k, f1) := exec_stmt J2 assign st s f in
               match k with CNorm => let '(zs, k2, f2) := exec_list J2 assign r s f1 in (ys ++ zs, k2, f2) | _ => (ys, k, f1) end)).
  { rewrite Hst. destruct (exec_stmt J2 assign st s f) as [[ys k] f1]. destruct k; try reflexivity.
    rewrite Hr. reflexivity. }
  (* exec_list treats an assignment itself; for every other statement its cons case is G, literally *)
  destruct st; try exact G. apply Hr.
Qed.

Theorem exec_stmt_ext : forall st s f, exec_stmt J1 assign st s f = exec_stmt J2 assign st s f.
Proof.
  apply (stmt_ind2 (fun st => forall s f, exec_stmt J1 assign st s f = exec_stmt J2 assign st s f)
                   (fun c => forall s f, exec_list J1 assign c s f = exec_list J2 assign c s f)); try reflexivity.
  - intros it body IH s f. rewrite !exec_stmt_eq, EJ. destruct (J2 it s) as [xs e].
    rewrite (loop_ext _ _ e xs IH). reflexivity.
  - intros l body IH s f. rewrite !exec_stmt_eq, IH. reflexivity.
  - exact exec_cons_ext.
Qed.

Theorem exec_list_ext : forall c s f, exec_list J1 assign c s f = exec_list J2 assign c s f.
Proof.
  induction c as [|st r IH]; [reflexivity|]. apply exec_cons_ext; [apply exec_stmt_ext|exact IH].
Qed.

Theorem run_function_ext code s : run_function J1 assign code s = run_function J2 assign code s.
Proof. unfold run_function. rewrite exec_list_ext. reflexivity. Qed.
End ExecExt.

(* one level of YP.query: equal interpretations of the calls one level down give equal answers *)
Section CallExt.
Variables c1 c2 : callT.
Hypothesis Hc : forall name args s, c1 name args s = c2 name args s.

Lemma iter_ext it c : iter c1 it c = iter c2 it c.
Proof.
  destruct c as [r s]. unfold iter.
  destruct it as [| | |f args|]; try reflexivity.
  destruct args as [|a [|b [|? ?]]]; try reflexivity.
  destruct (str_eqb f (s_ "unify")); [reflexivity|].
  destruct (str_eqb f (s_ "query")); [|reflexivity].
  destruct a; try reflexivity. destruct b; try reflexivity. rewrite Hc. reflexivity.
Qed.

Lemma run_code_ext code args s : run_code c1 code args s = run_code c2 code args s.
Proof. unfold run_code. rewrite (@run_function_ext cfg assign (iter c1) (iter c2) iter_ext). reflexivity. Qed.

Lemma fallback_ext v name args s : fallback c1 v name args s = fallback c2 v name args s.
Proof. unfold fallback. rewrite (ProgramCorrect.builtin_ext c1 c2 Hc). reflexivity. Qed.

Lemma call_function_ext w name args s : call_function c1 w name args s = call_function c2 w name args s.
Proof.
  rewrite !call_function_eq. destruct (w_fix w name (length args)); [reflexivity|].
  destruct (find_func (w_ir w) name (length args)); [apply run_code_ext|apply fallback_ext].
Qed.

Lemma nstep_ext w name args s : nstep c1 w name args s = nstep c2 w name args s.
Proof. rewrite !nstep_eq, call_function_ext. reflexivity. Qed.
End CallExt.

(* two engines that answer every single call in the same way, whatever the calls one level down do *)
Definition world_equiv (w1 w2 : world) : Prop :=
  forall call name args s, nstep call w1 name args s = nstep call w2 name args s.

Lemma world_equiv_refl w : world_equiv w w.
Proof. intros call name args s. reflexivity. Qed.
Lemma world_equiv_sym w1 w2 : world_equiv w1 w2 -> world_equiv w2 w1.
Proof. intros H call name args s. symmetry. apply H. Qed.
Lemma world_equiv_trans w1 w2 w3 : world_equiv w1 w2 -> world_equiv w2 w3 -> world_equiv w1 w3.
Proof. intros H1 H2 call name args s. transitivity (nstep call w2 name args s); [apply H1|apply H2]. Qed.

(* ... answer every query in the same way, at every call depth: induction on the depth *)
Theorem world_equiv_nquery w1 w2 : world_equiv w1 w2 ->
  forall n name args s, nquery n w1 name args s = nquery n w2 name args s.
Proof.
  intros H. induction n as [|n IH]; intros name args s; [reflexivity|].
  cbn [nquery]. rewrite (nstep_ext (nquery n w1) (nquery n w2) IH). apply H.
Qed.

(* the engine depends on a registered predicate only through the answers a value-ignoring consumer sees *)
Definition ofun_eq (o1 o2 : option nfun) : Prop :=
  match o1, o2 with
  | Some f1, Some f2 => forall args s, drop (f1 args s) = drop (f2 args s)
  | None, None => True
  | _, _ => False
  end.

Definition same_answers (w1 w2 : world) : Prop :=
  w_ir w1 = w_ir w2 /\ (forall name k, w_dyn w1 name k = w_dyn w2 name k) /\
  (forall name k, ofun_eq (w_fix w1 name k) (w_fix w2 name k)) /\ (forall name, ofun_eq (w_var w1 name) (w_var w2 name)).

Lemma ofun_eq_refl o : ofun_eq o o.
Proof. destruct o; simpl; [reflexivity | exact I]. Qed.

Lemma fallback_equiv call v1 v2 name args s : ofun_eq v1 v2 -> fallback call v1 name args s = fallback call v2 name args s.
Proof.
  intros H. unfold fallback. destruct v1 as [g1|], v2 as [g2|]; cbn [ofun_eq] in H; try contradiction; [|reflexivity].
  rewrite H. reflexivity.
Qed.

Lemma same_answers_equiv w1 w2 : same_answers w1 w2 -> world_equiv w1 w2.
Proof.
  intros [Hir [Hd [Hf Hv]]] call name args s. rewrite !nstep_eq, Hd. f_equal.
  rewrite !call_function_eq, Hir. specialize (Hf name (length args)).
  destruct (w_fix w1 name (length args)) as [f1|], (w_fix w2 name (length args)) as [f2|]; cbn [ofun_eq] in Hf; try contradiction.
  - apply Hf.
  - destruct (find_func (w_ir w2) name (length args)); [reflexivity|]. apply fallback_equiv, Hv.
Qed.

Theorem sem_extensional_program w1 w2 : same_answers w1 w2 ->
  forall n name args s, nquery n w1 name args s = nquery n w2 name args s.
Proof. intros H. apply world_equiv_nquery. apply same_answers_equiv. exact H. Qed.

(* changing only the values that a registered predicate yields changes no answer of any query *)
Theorem yield_value_irrelevant_world ir fixl varl dynl name k rows vals1 vals2 n qname args s :
  nquery n (mk_world ir ((name, k, native_rows rows vals1) :: fixl) varl dynl) qname args s =
  nquery n (mk_world ir ((name, k, native_rows rows vals2) :: fixl) varl dynl) qname args s.
Proof.
  apply sem_extensional_program. repeat split; cbn [mk_world w_ir w_dyn w_fix w_var]; intros.
  - cbn [lookup_fix]. destruct (key_eq (name, k) (name0, k0)); [|apply ofun_eq_refl].
    cbn [ofun_eq]. intros a s0. rewrite !drop_native_rows. reflexivity.
  - apply ofun_eq_refl.
Qed.

(* "next to dynamic facts": the answers of a call are the answers of the stored facts name/arity, in order, followed by the
   answers of the function found for it (compiled, builtin or Python); an exception in either ends the enumeration there *)
Theorem dynamic_facts_first call w name args s :
  Resolve.reserved name = false ->
  nstep call w name args s =
  (let d := match_rows (w_dyn w name (length args)) args s in
   if snd d then (fst d, true)
   else (fst d ++ fst (call_function call w name args s), snd (call_function call w name args s))).
Proof.
  intros R. unfold nstep. rewrite R. destruct (match_rows (w_dyn w name (length args)) args s) as [ds de]. cbn [fst snd].
  destruct de; [reflexivity|]. destruct (call_function call w name args s) as [fs fe]. reflexivity.
Qed.
