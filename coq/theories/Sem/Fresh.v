(* Every clause activation works on fresh variables.

   inv s: every cell mentioned by the store of s is below the allocation counter nxt s.
   Theorem solveA_fresh: from such a state and goal arguments below the counter, every answer state
   again satisfies inv, its counter has only grown and its store extends the store of the call.
   Hence the cells a clause activation allocates (nxt s, nxt s + 1, ...: clause_enter) occur neither in
   the store nor in the goal when they are allocated, and no later activation on the same search path
   (recursive or repeated call) receives them again; distinct source variables of a clause - in
   particular the distinct x1, x2, ... that the front end writes for each `_` - get distinct cells. *)
From Coq Require Import String.
From Coq Require Import List Arith Bool Lia.
Import ListNotations.
From YP Require Import Base.Str Term.Term Term.Fast Unify.Unify Unify.Fast Lang.Ast Comp.CompileBody Comp.CompileClause
  Sem.Res Sem.RefSem Sem.SemRel Sem.Machine Sem.ClauseSem Sem.ProgramCorrect.
From YP Require Export Unify.Bounded.
Local Open Scope string_scope.
Local Open Scope list_scope.

Definition inv (s : st) : Prop := store_bounded (nxt s) (sto s).
Definition env_bounded (k : nat) (r : env) : Prop := forall x t, In (x, t) r -> bounded k t.
Lemma env_bounded_mono k k' r : k <= k' -> env_bounded k r -> env_bounded k' r.
Proof. intros L B x t H. eapply bounded_mono; eauto. Qed.

Definition grows (s x : st) : Prop := nxt s <= nxt x /\ ext (sto s) (sto x).
Definition cfg_ok (c : cfg) : Prop := inv (snd c) /\ env_bounded (nxt (snd c)) (fst c).
Definition cfg_grows (c d : cfg) : Prop := fst c = fst d /\ grows (snd c) (snd d).

Lemma grows_refl s : grows s s. Proof. split; [lia|apply ext_refl]. Qed.
Lemma grows_trans a b c : grows a b -> grows b c -> grows a c.
Proof. intros [A1 A2] [B1 B2]. split; [lia|eapply ext_trans; eauto]. Qed.
Lemma grows_sto s s1 : ext (sto s) s1 -> grows s {| sto := s1; nxt := nxt s |}.
Proof. intros X. split; [apply le_n|exact X]. Qed.
Lemma cfg_grows_refl c : cfg_grows c c. Proof. split; [reflexivity|apply grows_refl]. Qed.
Lemma cfg_grows_trans a b c : cfg_grows a b -> cfg_grows b c -> cfg_grows a c.
Proof. intros [A1 A2] [B1 B2]. split; [congruence|eapply grows_trans; eauto]. Qed.

(* what a resolution function must satisfy *)
Definition call_ok (call : str -> list term -> st -> list st * bool) : Prop :=
  forall f args s, inv s -> Forall (bounded (nxt s)) args ->
  forall x, In x (fst (call f args s)) -> inv x /\ grows s x.

Lemma env_get_bounded k r x t : env_bounded k r -> env_get x r = Some t -> bounded k t.
Proof.
  induction r as [|[y u] r IH]; simpl; intros B H; [discriminate|].
  destruct (str_eqb x y).
  - inversion H; subst. apply (B y t). left; reflexivity.
  - apply IH; auto. intros z w Hz. apply (B z w). right; exact Hz.
Qed.

Lemma bad_bounded k : bounded k bad_term. Proof. apply bounded_atom. Qed.

Lemma mk_list_bounded k l : Forall (bounded k) l -> bounded k (mk_list l).
Proof.
  induction 1 as [|x l Hx Hl IH]; simpl; [apply bounded_atom|].
  apply bounded_fun. repeat constructor; auto.
Qed.

Lemma instA_bounded k r : env_bounded k r -> forall t, bounded k (instA r t).
Proof.
  intros B t. induction t as [a|n|v|f args IH|items IH|h t IHh IHt] using sterm_ind'; cbn [instA].
  - apply bounded_atom.
  - apply bounded_int.
  - destruct (env_get (pyvar v) r) as [x|] eqn:E; [eapply env_get_bounded; eauto|apply bad_bounded].
  - apply bounded_fun. apply Forall_map. exact IH.
  - apply mk_list_bounded. apply Forall_map. exact IH.
  - apply bounded_fun. repeat constructor; auto.
Qed.

Lemma argval_bounded k r i : env_bounded k r -> bounded k (argval i r).
Proof. intros B. unfold argval. destruct (env_get (argvar i) r) eqn:E; [eapply env_get_bounded; eauto|apply bad_bounded]. Qed.

Lemma unify_st_ok s a b x : inv s -> bounded (nxt s) a -> bounded (nxt s) b ->
  In x (fst (unify_st s a b)) -> inv x /\ grows s x.
Proof.
  intros Is Ba Bb. unfold unify_st. destruct (unify_fast ufuel (sto s) a b) as [s'| | |] eqn:E; cbn [fst In]; try tauto.
  intros [<-|[]]. split.
  - unfold inv. cbn [sto nxt]. exact (unify_fast_bounded (nxt s) ufuel (sto s) a b s' Is Ba Bb E).
  - split; cbn [sto nxt]; [lia|eapply unify_fast_ext; eauto].
Qed.

(* the i-th variable of the list gets cell k + i: distinct variables of a clause get distinct cells *)
Lemma fresh_env_cells vars : forall r k,
  fresh_env vars r k = (rev (combine (map pyvar vars) (map TVar (seq k (length vars)))) ++ r, k + length vars).
Proof.
  induction vars as [|v l IH]; intros r k; cbn [fresh_env length seq map combine rev app].
  - f_equal. lia.
  - rewrite IH. f_equal; [|lia]. rewrite <- app_assoc. reflexivity.
Qed.

Lemma fresh_env_snd vars r k : snd (fresh_env vars r k) = k + length vars.
Proof. rewrite fresh_env_cells. reflexivity. Qed.

Lemma clause_enter_eq c r s :
  clause_enter c (r, s) =
  (fst (fresh_env (clause_fv_head c ++ clause_fv_body c) (alias_env 0 (clause_pos c) r) (nxt s)),
   {| sto := sto s; nxt := snd (fresh_env (clause_fv_head c ++ clause_fv_body c) (alias_env 0 (clause_pos c) r) (nxt s)) |}).
Proof. unfold clause_enter. destruct (fresh_env _ _ _). reflexivity. Qed.

Lemma clausesA_cons call c rest cf :
  clausesA call (c :: rest) cf = por (clause_res call c (clause_enter c cf)) (clausesA call rest (clause_enter c cf)).
Proof. cbn [clausesA]. destruct (clause_res call c (clause_enter c cf)) as [ys []]; reflexivity. Qed.

Lemma por_in {S} (ra rb : res S) x : In x (fst (por ra rb)) -> In x (fst ra) \/ In x (fst rb).
Proof.
  destruct ra as [xs []], rb as [ys g]; cbn [por fst]; try (left; assumption). apply in_app_or.
Qed.

Lemma collect_cons lo base t x r :
  collect lo base t (x :: r) =
  (shift_term lo (base - lo) (den_fast (sto x) t) :: fst (collect lo (base + (nxt x - lo)) t r),
   snd (collect lo (base + (nxt x - lo)) t r)).
Proof. cbn [collect]. destruct (collect lo (base + (nxt x - lo)) t r) as [es b]. reflexivity. Qed.

Section WithCall.
Variable call : str -> list term -> st -> list st * bool.
Hypothesis Hcall : call_ok call.

Lemma leafA_ok f a c : cfg_ok c -> forall x, In x (fst (leafA call f a c)) -> cfg_ok x /\ cfg_grows c x.
Proof.
  destruct c as [r s]. intros [Is Br] x Hx. unfold leafA in Hx. cbn [fst snd] in *.
  assert (Fa: Forall (bounded (nxt s)) (map (instA r) a)).
  { apply Forall_map, Forall_forall. intros u _. apply instA_bounded; exact Br. }
  pose proof (Hcall f (map (instA r) a) s Is Fa) as H.
  destruct (call f (map (instA r) a) s) as [xs e]. cbn [fst] in *.
  apply in_map_iff in Hx as [y [<- Hy]]. destruct (H y Hy) as [Iy Gy].
  split; [split; cbn [fst snd]; [exact Iy|eapply env_bounded_mono; [apply Gy|exact Br]]|split; [reflexivity|exact Gy]].
Qed.

Lemma body_ok b c : cfg_ok c -> forall x, In x (fst (sem (leafA call) b c)) -> cfg_ok x /\ cfg_grows c x.
Proof.
  intros Pc. apply (sem_good cfg (leafA call) cfg_ok cfg_grows cfg_grows_refl cfg_grows_trans); [|exact Pc].
  intros f a s Ps. apply leafA_ok; exact Ps.
Qed.

Lemma alias_env_bounded k pos : forall i r, env_bounded k r -> env_bounded k (alias_env i pos r).
Proof.
  induction pos as [|[v|] pr IH]; intros i r B; cbn [alias_env]; auto.
  apply IH. intros x t [H|H]; [inversion H; subst; apply argval_bounded; exact B|apply (B x t H)].
Qed.

Lemma fresh_env_spec vars : forall r k r2 k2, fresh_env vars r k = (r2, k2) ->
  k2 = k + length vars /\ (env_bounded k r -> env_bounded k2 r2).
Proof.
  induction vars as [|v l IH]; intros r k r2 k2 H; cbn [fresh_env] in H.
  - inversion H; subst. split; [cbn; lia|auto].
  - destruct (IH _ _ _ _ H) as [E B]. split; [cbn [length]; lia|].
    intros Br. apply B. intros x t [Hx|Hx].
    + inversion Hx; subst. apply bounded_var. lia.
    + eapply bounded_mono; [|apply (Br x t Hx)]. lia.
Qed.

Lemma clause_enter_ok c cf : cfg_ok cf -> cfg_ok (clause_enter c cf) /\ grows (snd cf) (snd (clause_enter c cf)).
Proof.
  destruct cf as [r s]. intros [Is Br]. unfold clause_enter. cbn [fst snd] in *.
  destruct (fresh_env (clause_fv_head c ++ clause_fv_body c) (alias_env 0 (clause_pos c) r) (nxt s)) as [r2 k] eqn:E.
  destruct (fresh_env_spec _ _ _ _ _ E) as [Ek B]. cbn [fst snd sto nxt].
  split; [split|split]; cbn [fst snd sto nxt].
  - unfold inv. cbn [sto nxt]. eapply store_bounded_mono; [|exact Is]. lia.
  - apply B. apply alias_env_bounded. exact Br.
  - lia.
  - apply ext_refl.
Qed.

Lemma head_unify_ok pos : forall i args r s s', inv s -> env_bounded (nxt s) r ->
  head_unify i pos args r s = HOk s' -> inv s' /\ grows s s'.
Proof.
  induction pos as [|o pr IH]; intros i args r s s' Is Br H.
  - cbn [head_unify] in H. inversion H; subst. split; [exact Is|apply grows_refl].
  - destruct o as [v|]; destruct args as [|a ar]; cbn [head_unify] in H.
    + inversion H; subst. split; [exact Is|apply grows_refl].
    + eapply IH; eauto.
    + inversion H; subst. split; [exact Is|apply grows_refl].
    + destruct (unify_fast ufuel (sto s) (argval i r) (instA r a)) as [s1| | |] eqn:E; try discriminate.
      assert (I1: inv {| sto := s1; nxt := nxt s |}).
      { unfold inv; cbn [sto nxt]. eapply unify_fast_bounded; [exact Is| | |exact E]; [apply argval_bounded|apply instA_bounded]; exact Br. }
      destruct (IH _ _ _ _ _ I1 Br H) as [I2 G2]. split; [exact I2|].
      eapply grows_trans; [|exact G2]. split; cbn [sto nxt]; [lia|eapply unify_fast_ext; eauto].
Qed.

Lemma clause_res_ok c cf1 : cfg_ok cf1 -> forall x, In x (fst (clause_res call c cf1)) -> cfg_ok x /\ cfg_grows cf1 x.
Proof.
  destruct cf1 as [r s]. intros [Is Br] x Hx. unfold clause_res in Hx. cbn [fst snd] in *.
  destruct (head_unify 0 (clause_pos c) (c_args c) r s) as [s'| |] eqn:E; try contradiction.
  destruct (head_unify_ok _ _ _ _ _ _ Is Br E) as [I' G'].
  assert (P': cfg_ok (r, s')) by (split; cbn [fst snd]; [exact I'|eapply env_bounded_mono; [apply G'|exact Br]]).
  destruct (body_ok _ _ P' x Hx) as [Px Gx]. split; [exact Px|].
  eapply cfg_grows_trans; [|exact Gx]. split; [reflexivity|exact G'].
Qed.

Lemma clausesA_ok cs : forall cf, cfg_ok cf -> forall x, In x (fst (clausesA call cs cf)) -> cfg_ok x /\ grows (snd cf) (snd x).
Proof.
  induction cs as [|c rest IH]; intros cf Pc x Hx; [contradiction|].
  rewrite clausesA_cons in Hx. destruct (clause_enter_ok c cf Pc) as [P1 G1].
  apply por_in in Hx as [Hx|Hx].
  - destruct (clause_res_ok c _ P1 x Hx) as [Px [_ Gx]]. split; [exact Px|exact (grows_trans _ _ _ G1 Gx)].
  - destruct (IH _ P1 x Hx) as [Px Gx]. split; [exact Px|exact (grows_trans _ _ _ G1 Gx)].
Qed.

Lemma den_fast_bounded s t : inv s -> bounded (nxt s) t -> bounded (nxt s) (den_fast (sto s) t).
Proof. intros Is B. rewrite den_fast_eq. apply bounded_den; auto. Qed.

Lemma call_goal_ok g extra s : inv s -> bounded (nxt s) g -> Forall (bounded (nxt s)) extra ->
  forall x, In x (fst (call_goal call g extra s)) -> inv x /\ grows s x.
Proof.
  intros Is Bg Be x Hx. unfold call_goal in Hx. pose proof (den_fast_bounded s g Is Bg) as D.
  destruct (den_fast (sto s) g) as [a|z|q|v|f gargs]; try contradiction.
  - eapply Hcall; eauto.
  - eapply Hcall; [exact Is| |exact Hx]. apply Forall_app. split; [apply bounded_fun in D; exact D|exact Be].
Qed.

Lemma shift_bounded lo d k u : bounded k u -> lo <= k -> bounded (k + d) (shift_term lo d u).
Proof.
  intros B L. induction u as [a|z|q|w|f args IH] using term_ind'; cbn [shift_term]; try (intros v Hv; discriminate).
  - assert (Lw: w < k) by (apply B; simpl; apply Nat.eqb_refl).
    destruct (Nat.leb lo w); apply bounded_var; lia.
  - apply bounded_fun. apply bounded_fun in B. apply Forall_forall. intros y Hy.
    apply in_map_iff in Hy as [x [<- Hx]].
    exact (proj1 (Forall_forall _ _) IH x Hx (proj1 (Forall_forall _ _) B x Hx)).
Qed.

Lemma collect_bounded lo t xs : forall base, lo <= base ->
  (forall x, In x xs -> lo <= nxt x /\ bounded (nxt x) (den_fast (sto x) t)) ->
  base <= snd (collect lo base t xs) /\ Forall (bounded (snd (collect lo base t xs))) (fst (collect lo base t xs)).
Proof.
  induction xs as [|x r IH]; intros base L H; [split; [cbn; lia|constructor]|].
  rewrite collect_cons. cbn [fst snd].
  destruct (H x (or_introl eq_refl)) as [Lx Bx].
  assert (L2: lo <= base + (nxt x - lo)) by lia.
  destruct (IH (base + (nxt x - lo)) L2 (fun y Hy => H y (or_intror Hy))) as [A B].
  split; [lia|]. constructor; [|exact B].
  eapply bounded_mono; [|apply (shift_bounded lo (base - lo) (nxt x)); auto]. lia.
Qed.

Lemma builtin_ok name args s r : inv s -> Forall (bounded (nxt s)) args ->
  builtin call name args s = Some r -> forall x, In x (fst r) -> inv x /\ grows s x.
Proof.
  intros Is. revert r.
  apply (builtin_cases call s (fun _ args o => forall r, Forall (bounded (nxt s)) args -> o = Some r ->
                                 forall x, In x (fst r) -> inv x /\ grows s x)).
  - intros a b r Fa H x Hx. injection H as <-. inversion Fa as [|? ? Ba Fb]; subst. inversion Fb as [|? ? Bb ?]; subst.
    exact (unify_st_ok s a b x Is Ba Bb Hx).
  - intros a b r _ H x Hx.
    destruct (unify_fast ufuel (sto s) a b); injection H as <-; cbn [fst In] in Hx; try contradiction.
    destruct Hx as [<-|[]]. split; [exact Is|apply grows_refl].
  - intros r _ H x Hx. injection H as <-. contradiction.
  - intros g extra r Fa H x Hx. injection H as <-. inversion Fa; subst. eapply call_goal_ok; eauto.
  - intros g r Fa H x Hx. injection H as <-. inversion Fa as [|? ? Bg _]; subst.
    pose proof (call_goal_ok g [] s Is Bg (Forall_nil _)) as HG.
    destruct (call_goal call g [] s) as [[|y ys] e]; cbn [fst In] in *; try contradiction.
    destruct Hx as [<-|[]]. apply HG. left; reflexivity.
  - intros t g l r Fa H x Hx. injection H as <-.
    inversion Fa as [|? ? Bt F1]; subst. inversion F1 as [|? ? Bg F2]; subst. inversion F2 as [|? ? Bl _]; subst.
    pose proof (call_goal_ok g [] s Is Bg (Forall_nil _)) as HG.
    destruct (call_goal call g [] s) as [xs e]. cbn [fst] in HG. destruct e; [contradiction|].
    assert (HC: forall y, In y xs -> 0 <= nxt y /\ bounded (nxt y) (den_fast (sto y) t)).
    { intros y Hy. destruct (HG y Hy) as [Iy Gy]. split; [lia|].
      apply den_fast_bounded; [exact Iy|]. eapply bounded_mono; [apply Gy|exact Bt]. }
    destruct (collect_bounded 0 t xs (nxt s) (Nat.le_0_l _) HC) as [C1 C2].
    destruct (collect 0 (nxt s) t xs) as [es b]. cbn [fst snd] in *.
    set (s1 := {| sto := sto s; nxt := b |}) in *.
    assert (I1: inv s1) by (unfold inv, s1; cbn [sto nxt]; eapply store_bounded_mono; [|exact Is]; lia).
    assert (G1: grows s s1) by (unfold s1; split; cbn [sto nxt]; [lia|apply ext_refl]).
    assert (BL: bounded (nxt s1) (mk_list es)) by (apply mk_list_bounded; exact C2).
    destruct (unify_st_ok s1 l _ x I1 ltac:(eapply bounded_mono; [|exact Bl]; unfold s1; cbn [nxt]; lia) BL Hx) as [Ix Gx].
    split; [exact Ix|eapply grows_trans; eauto].
  - intros name0 args0 _ r _ H. discriminate.
Qed.
End WithCall.

Lemma bind_args_bounded k args : Forall (bounded k) args -> forall i, env_bounded k (bind_args i args).
Proof.
  induction 1 as [|a l Ha Hl IH]; intros i x t Hx; cbn [bind_args] in Hx; [contradiction|].
  destruct Hx as [Hx|Hx]; [inversion Hx; subst; exact Ha|eapply IH; eauto].
Qed.

Theorem solveA_fresh : forall n p, call_ok (solveA n p).
Proof.
  induction n as [|n IH]; intros p name args s Is Fa x Hx; [contradiction|].
  cbn [solveA] in Hx.
  destruct (clauses_for p name (length args)) as [|c cs].
  - destruct (builtin (solveA n p) name args s) as [r|] eqn:E; [|contradiction].
    eapply builtin_ok; eauto.
  - assert (P0: cfg_ok (bind_args 0 args, s)) by (split; cbn [fst snd]; [exact Is|apply bind_args_bounded; exact Fa]).
    pose proof (clausesA_ok (solveA n p) (IH p) (c :: cs) _ P0) as H.
    destruct (clausesA (solveA n p) (c :: cs) (bind_args 0 args, s)) as [ys g]. cbn [fst] in *.
    apply in_map_iff in Hx as [y [<- Hy]]. destruct (H y Hy) as [[Iy _] Gy]. split; [exact Iy|exact Gy].
Qed.
