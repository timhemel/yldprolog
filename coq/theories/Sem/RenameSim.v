(* The clause-level semantics with naming (ClauseSem.solveA = what the compiled code computes) and
   SLD resolution with all clause variables renamed apart (SldR.solveR) give the same answers up to an
   injective renaming of the cells created during the query.

   rel_st p sA sR: p renames the cells of sA injectively into cells of sR and commutes with dereferencing.
   frame_ext says when a later (p', xA, xR) continues an earlier (p, sA, sR); it is reflexive and transitive.
   cfg_rel0: related configurations that continue the frame of the call they belong to.  Every step of a
   clause activation (aliasing, fresh variables, head unification, a call) preserves it; SemRel.sem_rel
   carries that through the body and por_rel through the clause loop. *)
From Coq Require Import String.
From Coq Require Import List Arith Bool Lia.
Import ListNotations.
From YP Require Import Base.Str Term.Term Term.Fast Unify.Unify Unify.Fast Unify.Mgu Unify.Bounded Unify.Rename Unify.Base
  Lang.Ast Comp.CompileBody Comp.CompileClause Sem.Res Sem.RefSem Sem.SemRel Sem.Machine Sem.ClauseSem Sem.SldR Sem.ProgramCorrect Sem.Fresh.
Local Open Scope string_scope.
Local Open Scope list_scope.

Definition agree (k : nat) (p q : nat -> nat) : Prop := forall a, a < k -> p a = q a.

Lemma agree_refl k p : agree k p p. Proof. intros a _; reflexivity. Qed.
Lemma agree_trans k k' p q r : k <= k' -> agree k p q -> agree k' q r -> agree k p r.
Proof. intros L A B a La. rewrite (A a La). apply B. lia. Qed.
Lemma agree_mono k k' p q : k <= k' -> agree k' p q -> agree k p q.
Proof. intros L A a La. apply A. lia. Qed.

Lemma ren_agree_b k p q t : agree k p q -> bounded k t -> ren p t = ren q t.
Proof. intros A B. apply ren_agree. intros w Hw. exact (A w (B w Hw)). Qed.

Lemma lookup_ren k p : inj_on k p -> forall s a, a < k -> store_bounded k s ->
  lookup (p a) (ren_store p s) = match lookup a s with Some t => Some (ren p t) | None => None end.
Proof.
  intros Hp. induction s as [|[v t] s IH]; intros a La B; simpl; [reflexivity|].
  destruct (B v t (or_introl eq_refl)) as [Lv _].
  rewrite (eqb_ren_b Hp La Lv). destruct (Nat.eqb a v); [reflexivity|].
  apply IH; auto. intros w x H. apply B. right; exact H.
Qed.

Lemma den_struct s t : den s t = app (sub_of s) t.
Proof. symmetry. apply app_sub_of. Qed.

Record rel_st (p : nat -> nat) (sA sR : st) : Prop := {
  r_inj : inj_on (nxt sA) p;
  r_img : forall a, a < nxt sA -> p a < nxt sR;
  r_wfA : wf (sto sA);
  r_wfR : wf (sto sR);
  r_invA : inv sA;
  r_invR : inv sR;
  r_den : forall a, a < nxt sA -> den (sto sR) (TVar (p a)) = ren p (den (sto sA) (TVar a));
  r_free : forall a, a < nxt sA -> lookup a (sto sA) = None -> lookup (p a) (sto sR) = None
}.

Arguments r_inj {p sA sR}. Arguments r_img {p sA sR}. Arguments r_wfA {p sA sR}. Arguments r_wfR {p sA sR}.
Arguments r_invA {p sA sR}. Arguments r_invR {p sA sR}. Arguments r_den {p sA sR}. Arguments r_free {p sA sR}.

Lemma rel_den p sA sR : rel_st p sA sR -> forall t, bounded (nxt sA) t ->
  den (sto sR) (ren p t) = ren p (den (sto sA) t).
Proof.
  intros R. induction t as [a|z|x|w|f args IH] using term_ind'; intros B; cbn [ren].
  - rewrite !den_atom. reflexivity.
  - rewrite !den_int. reflexivity.
  - rewrite !den_str. reflexivity.
  - apply (r_den R). apply B. simpl. apply Nat.eqb_refl.
  - rewrite !den_fun. cbn [ren]. f_equal. rewrite !map_map. apply map_ext_in. intros y Hy.
    apply (proj1 (Forall_forall _ _) IH y Hy). apply bounded_fun in B. exact (proj1 (Forall_forall _ _) B y Hy).
Qed.

Lemma rel_free_term p sA sR t : rel_st p sA sR -> bounded (nxt sA) t -> free_in (sto sA) t -> free_in (sto sR) (ren p t).
Proof.
  intros R B F w Hw. destruct (occurs_ren _ _ _ Hw) as [a [-> O]].
  apply (r_free R); [apply B; exact O|apply F; exact O].
Qed.

Definition rel_val (p : nat -> nat) (sA sR : st) (tA tR : term) : Prop :=
  bounded (nxt sA) tA /\ bounded (nxt sR) tR /\ den (sto sR) tR = ren p (den (sto sA) tA).

Definition rel_env (p : nat -> nat) (sA sR : st) (rA rR : env) : Prop :=
  Forall2 (fun eA eR => fst eA = fst eR /\ rel_val p sA sR (snd eA) (snd eR)) rA rR.

Lemma rel_val_ren p sA sR t : rel_st p sA sR -> bounded (nxt sA) t -> rel_val p sA sR t (ren p t).
Proof.
  intros R B. split; [exact B|]. split; [eapply bounded_ren; [exact B|apply (r_img R)]|]. apply rel_den; assumption.
Qed.

Lemma rel_val_mono p sA sR p' sA' sR' tA tR :
  rel_st p sA sR -> rel_st p' sA' sR' -> agree (nxt sA) p p' -> grows sA sA' -> grows sR sR' ->
  rel_val p sA sR tA tR -> rel_val p' sA' sR' tA tR.
Proof.
  intros R R' A [LA [nA EA]] [LR [nR ER]] [BA [BR D]].
  split; [eapply bounded_mono; eauto|]. split; [eapply bounded_mono; eauto|].
  assert (BD: bounded (nxt sA) (den (sto sA) tA)) by (apply bounded_den; [apply (r_invA R)|exact BA]).
  rewrite ER, <- (den_ext_den nR tR (r_wfR R)), D, <- ER.
  rewrite (ren_agree_b _ _ _ _ A BD).
  rewrite (rel_den _ _ _ R' _ (bounded_mono _ _ _ LA BD)).
  rewrite EA, (den_ext_den nA tA (r_wfA R)). reflexivity.
Qed.

Lemma rel_env_mono p sA sR p' sA' sR' rA rR :
  rel_st p sA sR -> rel_st p' sA' sR' -> agree (nxt sA) p p' -> grows sA sA' -> grows sR sR' ->
  rel_env p sA sR rA rR -> rel_env p' sA' sR' rA rR.
Proof.
  intros R R' A GA GR H. induction H as [|eA eR rA rR [K V] H IH]; constructor; auto.
  split; [exact K|]. exact (rel_val_mono _ _ _ _ _ _ _ _ R R' A GA GR V).
Qed.

Lemma env_get_rel p sA sR rA rR x : rel_env p sA sR rA rR ->
  match env_get x rA, env_get x rR with
  | Some tA, Some tR => rel_val p sA sR tA tR
  | None, None => True
  | _, _ => False
  end.
Proof.
  induction 1 as [|[kA tA] [kR tR] rA rR [K V] H IH]; simpl; [exact Logic.I|].
  simpl in K. subst kR. destruct (str_eqb x kA); [exact V|exact IH].
Qed.

Lemma store_bounded_ren k k' p s : store_bounded k s -> (forall a, a < k -> p a < k') -> store_bounded k' (ren_store p s).
Proof.
  intros B Hp v t H. unfold ren_store in H. apply in_map_iff in H as [[v0 t0] [E H]]. cbn [fst snd] in E. inversion E; subst.
  destruct (B v0 t0 H) as [Lv Bt]. split; [apply Hp; exact Lv|eapply bounded_ren; eauto].
Qed.

Definition same_shape (rA rR : ures) : Prop :=
  match rA, rR with UOk _, UOk _ | UFail, UFail | UOof, UOof | UCyc, UCyc => True | _, _ => False end.

Inductive urel (p : nat -> nat) (sA sR : st) : ures -> ures -> Prop :=
| urel_ok s1 s1R : rel_st p {| sto := s1; nxt := nxt sA |} {| sto := s1R; nxt := nxt sR |} ->
                   ext (sto sA) s1 -> ext (sto sR) s1R -> urel p sA sR (UOk s1) (UOk s1R)
| urel_fail : urel p sA sR UFail UFail
| urel_oof : urel p sA sR UOof UOof
| urel_cyc : urel p sA sR UCyc UCyc.

Lemma unify_ren p sA sR a b aR bR n :
  rel_st p sA sR -> rel_val p sA sR a aR -> rel_val p sA sR b bR ->
  unify n (sto sA) a b = lift (sto sA) (unify n [] (den (sto sA) a) (den (sto sA) b)) /\
  unify n (sto sR) aR bR = lift (sto sR) (ren_res p (unify n [] (den (sto sA) a) (den (sto sA) b))).
Proof.
  intros R [Ba [_ Da]] [Bb [_ Db]].
  split; [exact (unify_increment n a b (r_wfA R))|].
  rewrite (unify_increment n aR bR (r_wfR R)), Da, Db. f_equal.
  (* p is injective on the cells of sA, so unification in the empty store commutes with it *)
  apply (@unify_equivariant_b _ _ (r_inj R) n [] _ _ (store_bounded_nil _)); apply bounded_den; solve [apply (r_invA R)|assumption].
Qed.

Lemma unify_rel p sA sR a b aR bR n :
  rel_st p sA sR -> rel_val p sA sR a aR -> rel_val p sA sR b bR ->
  urel p sA sR (unify n (sto sA) a b) (unify n (sto sR) aR bR).
Proof.
  intros R Va Vb. destruct (unify_ren p sA sR a b aR bR n R Va Vb) as [EA ER].
  destruct Va as [Ba _], Vb as [Bb _].
  pose proof (r_wfA R) as WA. pose proof (r_wfR R) as WR.
  assert (IA: store_bounded (nxt sA) (sto sA)) by apply (r_invA R).
  assert (IR: store_bounded (nxt sR) (sto sR)) by apply (r_invR R).
  set (dA := den (sto sA) a) in *. set (dB := den (sto sA) b) in *.
  assert (BdA: bounded (nxt sA) dA) by (apply bounded_den; assumption).
  assert (BdB: bounded (nxt sA) dB) by (apply bounded_den; assumption).
  destruct (unify n [] dA dB) as [nw| | |] eqn:E; cbn [lift ren_res] in EA, ER; rewrite EA, ER; [|constructor|constructor|constructor].
  assert (Bnw: store_bounded (nxt sA) nw) by (eapply unify_bounded; [apply store_bounded_nil|exact BdA|exact BdB|exact E]).
  assert (VF: vals_free (sto sA) nw).
  { eapply unify_vals_free; [| | |exact E]; [intros v t []|apply den_free; exact WA|apply den_free; exact WA]. }
  assert (VFR: vals_free (sto sR) (ren_store p nw)).
  { intros v t H. unfold ren_store in H. apply in_map_iff in H as [[v0 t0] [E0 H]]. cbn [fst snd] in E0. inversion E0; subst.
    apply (rel_free_term p sA sR); [exact R|apply (Bnw v0 t0 H)|apply (VF v0 t0 H)]. }
  destruct (unify_sound _ _ _ WA EA) as [WA' [XA _]]. destruct (unify_sound _ _ _ WR ER) as [WR' [XR _]].
  constructor; [|exact XA|exact XR].
  constructor; cbn [sto nxt].
  - apply (r_inj R).
  - apply (r_img R).
  - exact WA'.
  - exact WR'.
  - unfold inv; cbn [sto nxt]. apply store_bounded_app; assumption.
  - unfold inv; cbn [sto nxt]. apply store_bounded_app; [|exact IR]. eapply store_bounded_ren; [exact Bnw|apply (r_img R)].
  - intros a0 La. rewrite (den_split VFR), (r_den R a0 La).
    rewrite (ren_den_b (r_inj R) Bnw) by (apply bounded_den; [exact IA|apply bounded_var; exact La]).
    rewrite <- (den_split VF). reflexivity.
  - intros a0 La L0. rewrite lookup_app in L0. rewrite lookup_app.
    rewrite (lookup_ren _ _ (r_inj R) nw _ La Bnw).
    destruct (lookup a0 nw); [discriminate|]. apply (r_free R); assumption.
Qed.

Lemma unify_fast_rel p sA sR a b aR bR n :
  rel_st p sA sR -> rel_val p sA sR a aR -> rel_val p sA sR b bR ->
  urel p sA sR (unify_fast n (sto sA) a b) (unify_fast n (sto sR) aR bR).
Proof. rewrite !unify_fast_eq. apply unify_rel. Qed.

Lemma rel_env_bounded p sA sR rA rR : rel_env p sA sR rA rR -> env_bounded (nxt sA) rA /\ env_bounded (nxt sR) rR.
Proof.
  induction 1 as [|[kA tA] [kR tR] rA rR [_ [BA [BR _]]] _ [IHA IHR]]; [split; intros x t []|].
  split; intros x t [Hx|Hx].
  - inversion Hx; subst. exact BA.
  - exact (IHA x t Hx).
  - inversion Hx; subst. exact BR.
  - exact (IHR x t Hx).
Qed.

Definition dr (p : nat -> nat) (sA sR : st) (tA tR : term) : Prop := den (sto sR) tR = ren p (den (sto sA) tA).

Lemma dr_fun p sA sR f xsA xsR : Forall2 (dr p sA sR) xsA xsR -> dr p sA sR (TFun f xsA) (TFun f xsR).
Proof.
  intros H. unfold dr. rewrite !den_fun. cbn [ren]. f_equal. rewrite map_map.
  induction H as [|a b la lb Hab H IH]; simpl; [reflexivity|]. f_equal; [exact Hab|exact IH].
Qed.
Lemma dr_atom p sA sR a : dr p sA sR (TAtom a) (TAtom a).
Proof. unfold dr. rewrite !den_atom. reflexivity. Qed.
Lemma dr_int p sA sR a : dr p sA sR (TInt a) (TInt a).
Proof. unfold dr. rewrite !den_int. reflexivity. Qed.
Lemma dr_mk_list p sA sR xsA xsR : Forall2 (dr p sA sR) xsA xsR -> dr p sA sR (mk_list xsA) (mk_list xsR).
Proof.
  induction 1 as [|a b la lb Hab H IH]; cbn [mk_list]; [apply dr_atom|].
  apply dr_fun. repeat constructor; assumption.
Qed.

Lemma instA_dr p sA sR rA rR : rel_env p sA sR rA rR -> forall t, dr p sA sR (instA rA t) (instA rR t).
Proof.
  intros E t. induction t as [a|n|v|f args IH|items IH|h t IHh IHt] using sterm_ind'; cbn [instA].
  - apply dr_atom.
  - apply dr_int.
  - pose proof (env_get_rel p sA sR rA rR (pyvar v) E) as H.
    destruct (env_get (pyvar v) rA), (env_get (pyvar v) rR); try contradiction; [apply H|apply dr_atom].
  - apply dr_fun. induction args as [|x l IHl]; simpl; constructor; inversion IH; subst; auto.
  - apply dr_mk_list. induction items as [|x l IHl]; simpl; constructor; inversion IH; subst; auto.
  - apply dr_fun. repeat constructor; assumption.
Qed.

Lemma instA_rel p sA sR rA rR t : rel_env p sA sR rA rR -> rel_val p sA sR (instA rA t) (instA rR t).
Proof.
  intros E. destruct (rel_env_bounded p sA sR rA rR E) as [BA BR].
  split; [apply instA_bounded; exact BA|]. split; [apply instA_bounded; exact BR|apply instA_dr; exact E].
Qed.

Lemma argval_rel p sA sR rA rR i : rel_env p sA sR rA rR -> rel_val p sA sR (argval i rA) (argval i rR).
Proof.
  intros E. unfold argval. pose proof (env_get_rel p sA sR rA rR (argvar i) E) as H.
  destruct (env_get (argvar i) rA), (env_get (argvar i) rR); try contradiction; [exact H|].
  split; [apply bad_bounded|]. split; [apply bad_bounded|apply dr_atom].
Qed.

(* cells created after (sA, sR) are mapped to cells created after sR *)
Definition fresh_to_fresh (sA sR xA : st) (p' : nat -> nat) : Prop := forall a, nxt sA <= a -> a < nxt xA -> nxt sR <= p' a.

Definition frame_ext (p : nat -> nat) (sA sR : st) (p' : nat -> nat) (xA xR : st) : Prop :=
  agree (nxt sA) p p' /\ grows sA xA /\ grows sR xR /\ fresh_to_fresh sA sR xA p'.

Lemma frame_ext_refl p sA sR : frame_ext p sA sR p sA sR.
Proof.
  split; [apply agree_refl|]. split; [apply grows_refl|]. split; [apply grows_refl|]. intros a L1 L2. lia.
Qed.

Lemma frame_ext_trans {p sA sR p1 xA xR p2 yA yR} :
  frame_ext p sA sR p1 xA xR -> frame_ext p1 xA xR p2 yA yR -> frame_ext p sA sR p2 yA yR.
Proof.
  intros [A1 [GA [GR F1]]] [A2 [GA2 [GR2 F2]]].
  split; [eapply agree_trans; [apply GA|exact A1|exact A2]|].
  split; [exact (grows_trans _ _ _ GA GA2)|]. split; [exact (grows_trans _ _ _ GR GR2)|].
  intros a L1 L2. destruct (Nat.lt_ge_cases a (nxt xA)) as [L|L].
  - rewrite <- (A2 a L). apply F1; assumption.
  - pose proof (F2 a L L2). destruct GR as [GR _]. lia.
Qed.

Lemma frame_ext_grow p sA sR xA xR : grows sA xA -> grows sR xR -> nxt xA = nxt sA -> frame_ext p sA sR p xA xR.
Proof.
  intros GA GR N. split; [apply agree_refl|]. split; [exact GA|]. split; [exact GR|]. intros a L1 L2. lia.
Qed.

Lemma rel_env_ext {p sA sR p' xA xR} rA rR :
  rel_st p sA sR -> rel_st p' xA xR -> frame_ext p sA sR p' xA xR -> rel_env p sA sR rA rR -> rel_env p' xA xR rA rR.
Proof. intros R R' [A [GA [GR _]]]. exact (rel_env_mono _ _ _ _ _ _ _ _ R R' A GA GR). Qed.

Definition ans_rel (p : nat -> nat) (sA sR xA xR : st) : Prop :=
  exists p', rel_st p' xA xR /\ agree (nxt sA) p p' /\ grows sA xA /\ grows sR xR /\ fresh_to_fresh sA sR xA p'.

Lemma ans_rel_iff p sA sR xA xR : ans_rel p sA sR xA xR <-> exists p', rel_st p' xA xR /\ frame_ext p sA sR p' xA xR.
Proof. reflexivity. Qed.

Definition call_rel (cA cR : str -> list term -> st -> list st * bool) : Prop :=
  forall p sA sR f argsA argsR, rel_st p sA sR -> Forall2 (rel_val p sA sR) argsA argsR ->
  Forall2 (ans_rel p sA sR) (fst (cA f argsA sA)) (fst (cR f argsR sR)) /\ snd (cA f argsA sA) = snd (cR f argsR sR).

Definition res_rel (p : nat -> nat) (sA sR : st) (rA rR : list st * bool) : Prop :=
  Forall2 (ans_rel p sA sR) (fst rA) (fst rR) /\ snd rA = snd rR.

Lemma ans_rel_refl p sA sR : rel_st p sA sR -> ans_rel p sA sR sA sR.
Proof. intros R. apply ans_rel_iff. exists p. split; [exact R|apply frame_ext_refl]. Qed.

Lemma ans_rel_trans p sA sR p1 xA xR yA yR :
  frame_ext p sA sR p1 xA xR -> ans_rel p1 xA xR yA yR -> ans_rel p sA sR yA yR.
Proof.
  intros F1 H. apply ans_rel_iff in H as [p2 [R2 F2]].
  apply ans_rel_iff. exists p2. split; [exact R2|exact (frame_ext_trans F1 F2)].
Qed.

Lemma res_rel_trans p sA sR p1 xA xR rA rR :
  frame_ext p sA sR p1 xA xR -> res_rel p1 xA xR rA rR -> res_rel p sA sR rA rR.
Proof.
  intros F1 [H E]. split; [|exact E].
  eapply Forall2_imp; [|exact H]. intros yA yR. apply ans_rel_trans. exact F1.
Qed.

Definition at_nxt (s : st) (k : nat) : st := {| sto := sto s; nxt := k |}.

Lemma block_rel p sA sR (q : nat -> nat) mA kR mR :
  rel_st p sA sR -> nxt sR <= kR ->
  (forall a b, nxt sA <= a -> a < nxt sA + mA -> nxt sA <= b -> b < nxt sA + mA -> q a = q b -> a = b) ->
  (forall a, nxt sA <= a -> a < nxt sA + mA -> kR <= q a /\ q a < kR + mR) ->
  exists p', rel_st p' (at_nxt sA (nxt sA + mA)) (at_nxt sR (kR + mR)) /\
             frame_ext p sA sR p' (at_nxt sA (nxt sA + mA)) (at_nxt sR (kR + mR)) /\
             (forall a, nxt sA <= a -> p' a = q a).
Proof.
  unfold at_nxt.
  intros R LR Qinj Qimg.
  set (p' := fun a => if Nat.ltb a (nxt sA) then p a else q a).
  assert (A: agree (nxt sA) p p').
  { intros a La. unfold p'. destruct (Nat.ltb_spec a (nxt sA)); [reflexivity|lia]. }
  assert (Pn: forall a, nxt sA <= a -> p' a = q a).
  { intros a La. unfold p'. destruct (Nat.ltb_spec a (nxt sA)); [lia|reflexivity]. }
  exists p'. split; [|split; [|exact Pn]].
  - constructor; cbn [sto nxt].
    + intros a b La Lb E.
      destruct (Nat.lt_ge_cases a (nxt sA)) as [L1|L1]; destruct (Nat.lt_ge_cases b (nxt sA)) as [L2|L2].
      * rewrite <- (A a L1), <- (A b L2) in E. apply (r_inj R); assumption.
      * rewrite <- (A a L1), (Pn b L2) in E. pose proof (r_img R a L1). destruct (Qimg b L2 Lb). lia.
      * rewrite (Pn a L1), <- (A b L2) in E. pose proof (r_img R b L2). destruct (Qimg a L1 La). lia.
      * rewrite (Pn a L1), (Pn b L2) in E. apply Qinj; assumption.
    + intros a La. destruct (Nat.lt_ge_cases a (nxt sA)) as [L1|L1].
      * rewrite <- (A a L1). pose proof (r_img R a L1). lia.
      * rewrite (Pn a L1). destruct (Qimg a L1 La). lia.
    + apply (r_wfA R).
    + apply (r_wfR R).
    + unfold inv; cbn [sto nxt]. eapply store_bounded_mono; [|apply (r_invA R)]. lia.
    + unfold inv; cbn [sto nxt]. eapply store_bounded_mono; [|apply (r_invR R)]. lia.
    + intros a La. destruct (Nat.lt_ge_cases a (nxt sA)) as [L1|L1].
      * rewrite <- (A a L1), (r_den R a L1).
        apply ren_agree_b with (k := nxt sA); [exact A|]. apply bounded_den; [apply (r_invA R)|apply bounded_var; exact L1].
      * rewrite (Pn a L1). destruct (Qimg a L1 La) as [Q1 _].
        rewrite (den_var_unbound _ _ (lookup_bounded_none _ _ _ (r_invR R) (Nat.le_trans _ _ _ LR Q1))).
        rewrite (den_var_unbound _ _ (lookup_bounded_none _ _ _ (r_invA R) L1)). cbn [ren]. rewrite (Pn a L1). reflexivity.
    + intros a La L0. destruct (Nat.lt_ge_cases a (nxt sA)) as [L1|L1].
      * rewrite <- (A a L1). apply (r_free R); assumption.
      * rewrite (Pn a L1). destruct (Qimg a L1 La) as [Q1 _].
        apply (lookup_bounded_none _ _ _ (r_invR R) (Nat.le_trans _ _ _ LR Q1)).
  - split; [exact A|]. split; [split; cbn [sto nxt]; [lia|apply ext_refl]|].
    split; [split; cbn [sto nxt]; [lia|apply ext_refl]|].
    intros a L1 L2. cbn [nxt] in L2. rewrite (Pn a L1). destruct (Qimg a L1 L2). lia.
Qed.

Lemma block_shift_rel p sA sR kR m : rel_st p sA sR -> nxt sR <= kR ->
  exists p', rel_st p' (at_nxt sA (nxt sA + m)) (at_nxt sR (kR + m)) /\
             frame_ext p sA sR p' (at_nxt sA (nxt sA + m)) (at_nxt sR (kR + m)) /\
             (forall i, i < m -> p' (nxt sA + i) = kR + i).
Proof.
  unfold at_nxt.
  intros R LR.
  destruct (block_rel p sA sR (fun a => kR + (a - nxt sA)) m kR m R LR) as [p' [R' [F' Pn]]].
  - intros a b L1 L2 L3 L4 E. lia.
  - intros a L1 L2. lia.
  - exists p'. split; [exact R'|]. split; [exact F'|]. intros i Li. rewrite Pn by lia. lia.
Qed.

Lemma rel_val_new p xA xR a b : a < nxt xA -> b < nxt xR ->
  lookup a (sto xA) = None -> lookup b (sto xR) = None -> p a = b -> rel_val p xA xR (TVar a) (TVar b).
Proof.
  intros La Lb Na Nb E. split; [apply bounded_var; exact La|]. split; [apply bounded_var; exact Lb|].
  rewrite (den_var_unbound _ _ Na), (den_var_unbound _ _ Nb). cbn [ren]. rewrite E. reflexivity.
Qed.

Lemma fresh_env_rel p xA xR vars : forall kA kR rA rR, rel_env p xA xR rA rR ->
  (forall i, i < length vars -> rel_val p xA xR (TVar (kA + i)) (TVar (kR + i))) ->
  rel_env p xA xR (fst (fresh_env vars rA kA)) (fst (fresh_env vars rR kR)).
Proof.
  induction vars as [|v l IH]; intros kA kR rA rR E H; cbn [fresh_env]; [exact E|].
  apply IH.
  - constructor; [|exact E]. split; [reflexivity|]. cbn [snd].
    specialize (H 0 (Nat.lt_0_succ _)). rewrite !Nat.add_0_r in H. exact H.
  - intros i Li. specialize (H (S i) (proj1 (Nat.succ_lt_mono _ _) Li)). rewrite !Nat.add_succ_r in H. exact H.
Qed.

Lemma fresh_rel vars p sA sR rA rR : rel_st p sA sR -> rel_env p sA sR rA rR ->
  exists p', rel_st p' (at_nxt sA (snd (fresh_env vars rA (nxt sA))))
                       (at_nxt sR (snd (fresh_env vars rR (nxt sR)))) /\
             rel_env p' (at_nxt sA (snd (fresh_env vars rA (nxt sA))))
                        (at_nxt sR (snd (fresh_env vars rR (nxt sR))))
                        (fst (fresh_env vars rA (nxt sA))) (fst (fresh_env vars rR (nxt sR))) /\
             frame_ext p sA sR p' (at_nxt sA (snd (fresh_env vars rA (nxt sA))))
                                  (at_nxt sR (snd (fresh_env vars rR (nxt sR)))).
Proof.
  unfold at_nxt.
  intros R E. rewrite !fresh_env_snd.
  destruct (block_shift_rel p sA sR (nxt sR) (length vars) R (le_n _)) as [p' [R' [F' Pn]]].
  exists p'. split; [exact R'|]. split; [|exact F'].
  apply fresh_env_rel; [exact (rel_env_ext rA rR R R' F' E)|].
  intros i Li. apply rel_val_new; cbn [sto nxt].
  - lia.
  - lia.
  - apply (lookup_bounded_none _ _ _ (r_invA R)). lia.
  - apply (lookup_bounded_none _ _ _ (r_invR R)). lia.
  - exact (Pn i Li).
Qed.

(* the step of SldR.alias_envR for one variable, seen from a related state of the naming semantics *)
Lemma alias_step p sA sR rA rR i v :
  rel_st p sA sR -> rel_env p sA sR rA rR ->
  let x := nxt sR in
  let d := den (sto sR) (argval i rR) in
  let sR' := {| sto := (x, d) :: sto sR; nxt := S x |} in
  unify_fast ufuel (sto sR) (TVar x) (argval i rR) = UOk ((x, d) :: sto sR) /\
  rel_st p sA sR' /\ grows sR sR' /\
  rel_env p sA sR' ((pyvar v, argval i rA) :: rA) ((pyvar v, TVar x) :: rR).
Proof.
  intros R E x d sR'.
  destruct (argval_rel p sA sR rA rR i E) as [BA [BR D]].
  assert (IR: store_bounded (nxt sR) (sto sR)) by apply (r_invR R).
  assert (Lx: lookup x (sto sR) = None) by (apply (lookup_bounded_none _ _ _ IR (le_n _))).
  assert (Bd: bounded (nxt sR) d) by (apply bounded_den; assumption).
  assert (Od: occurs x d = false) by (apply (bounded_not_occurs _ _ _ Bd (le_n _))).
  assert (Dd: den (sto sR) d = d) by (apply den_idem; apply (r_wfR R)).
  assert (GR: grows sR sR') by (split; unfold sR', x; cbn [sto nxt]; [lia|apply ext_cons]).
  assert (R': rel_st p sA sR').
  { constructor; unfold sR'; cbn [sto nxt].
    - apply (r_inj R).
    - intros a La. pose proof (r_img R a La). unfold x. lia.
    - apply (r_wfA R).
    - constructor; [apply (r_wfR R)|exact Lx|rewrite Dd; exact Od].
    - apply (r_invA R).
    - unfold inv; cbn [sto nxt]. apply store_bounded_cons; [unfold x; lia|eapply bounded_mono; [|exact Bd]; unfold x; lia|].
      eapply store_bounded_mono; [|exact IR]. unfold x; lia.
    - intros a La. cbn [den]. rewrite (r_den R a La). apply subst1_noocc.
      rewrite <- (r_den R a La). apply (bounded_not_occurs (nxt sR)); [|unfold x; lia].
      apply bounded_den; [exact IR|apply bounded_var; apply (r_img R a La)].
    - intros a La L0. cbn [lookup]. pose proof (r_img R a La) as Li.
      destruct (Nat.eqb_spec (p a) x) as [Ex|_]; [unfold x in Ex; lia|]. apply (r_free R); assumption. }
  split.
  - rewrite unify_fast_eq. change ufuel with (S (Nat.pred ufuel)). unfold d. apply unify_fresh_var; [exact Lx|exact Od].
  - split; [exact R'|]. split; [exact GR|].
    constructor.
    + split; [reflexivity|]. cbn [snd]. split; [exact BA|]. split; [apply bounded_var; cbn; lia|].
      cbn [sto sR' den]. rewrite (den_var_unbound _ _ Lx). cbn [subst1]. rewrite Nat.eqb_refl. rewrite Dd. exact D.
    + exact (rel_env_mono _ _ _ _ _ _ _ _ R R' (agree_refl _ _) (grows_refl _) GR E).
Qed.

Lemma alias_rel pos : forall i p sA sR rA rR, rel_st p sA sR -> rel_env p sA sR rA rR ->
  exists rR1 sR1, alias_envR i pos rR sR = EOk (rR1, sR1) /\
    rel_st p sA sR1 /\ grows sR sR1 /\ rel_env p sA sR1 (alias_env i pos rA) rR1.
Proof.
  induction pos as [|o pr IH]; intros i p sA sR rA rR R E; cbn [alias_envR alias_env].
  - exists rR, sR. split; [reflexivity|]. split; [exact R|]. split; [apply grows_refl|exact E].
  - destruct o as [v|]; [|apply IH; assumption].
    destruct (alias_step p sA sR rA rR i v R E) as [U [R' [G' E']]]. cbn zeta in U, R', G', E'.
    rewrite U. destruct (IH (S i) p sA _ _ _ R' E') as [rR1 [sR1 [H1 [R1 [G1 E1]]]]].
    exists rR1, sR1. split; [exact H1|]. split; [exact R1|]. split; [eapply grows_trans; eauto|exact E1].
Qed.

Lemma bind_args_rel p sA sR argsA argsR : Forall2 (rel_val p sA sR) argsA argsR ->
  forall i, rel_env p sA sR (bind_args i argsA) (bind_args i argsR).
Proof.
  induction 1 as [|a b la lb V F IH]; intros i; cbn [bind_args]; constructor; [|apply IH].
  split; [reflexivity|exact V].
Qed.

Lemma clause_enterR_eq c r s r1 s1 : alias_envR 0 (clause_pos c) r s = EOk (r1, s1) ->
  clause_enterR c (r, s) =
  EOk (fst (fresh_env (clause_fv_head c ++ clause_fv_body c) r1 (nxt s1)),
       {| sto := sto s1; nxt := snd (fresh_env (clause_fv_head c ++ clause_fv_body c) r1 (nxt s1)) |}).
Proof. intros H. unfold clause_enterR. rewrite H. destruct (fresh_env _ _ _). reflexivity. Qed.

Lemma clausesR_cons call c rest cf :
  clausesR call (c :: rest) cf =
  match clause_enterR c cf with
  | EErr => ([], FErr)
  | EOk cf1 => por (clause_res call c cf1) (clausesR call rest cf1)
  end.
Proof.
  cbn [clausesR]. destruct (clause_enterR c cf) as [cf1|]; [|reflexivity].
  destruct (clause_res call c cf1) as [ys []]; reflexivity.
Qed.

Section Frame.
Variable p0 : nat -> nat.
Variables sA0 sR0 : st.

Definition cfg_rel0 (c1 c2 : cfg) : Prop :=
  exists p', rel_st p' (snd c1) (snd c2) /\ rel_env p' (snd c1) (snd c2) (fst c1) (fst c2) /\
             agree (nxt sA0) p0 p' /\ grows sA0 (snd c1) /\ grows sR0 (snd c2) /\ fresh_to_fresh sA0 sR0 (snd c1) p'.

Lemma cfg_rel0_iff c1 c2 :
  cfg_rel0 c1 c2 <->
  exists p', rel_st p' (snd c1) (snd c2) /\ rel_env p' (snd c1) (snd c2) (fst c1) (fst c2) /\
             frame_ext p0 sA0 sR0 p' (snd c1) (snd c2).
Proof. reflexivity. Qed.

Lemma cfg_rel0_ans l1 l2 : Forall2 cfg_rel0 l1 l2 -> Forall2 (ans_rel p0 sA0 sR0) (map snd l1) (map snd l2).
Proof.
  induction 1 as [|c1 c2 l1 l2 H _ IH]; cbn [map]; constructor; [|exact IH].
  apply cfg_rel0_iff in H as [p' [R [_ F]]]. apply ans_rel_iff. exists p'. split; [exact R|exact F].
Qed.

Lemma cfg_fresh_rel vars rA sA rR sR : cfg_rel0 (rA, sA) (rR, sR) ->
  cfg_rel0 (fst (fresh_env vars rA (nxt sA)), at_nxt sA (snd (fresh_env vars rA (nxt sA))))
           (fst (fresh_env vars rR (nxt sR)), at_nxt sR (snd (fresh_env vars rR (nxt sR)))).
Proof.
  unfold at_nxt.
  intros H. apply cfg_rel0_iff in H as [p1 [R1 [E1 F1]]]. cbn [fst snd] in *.
  destruct (fresh_rel vars p1 sA sR rA rR R1 E1) as [p2 [R2 [E2 F2]]].
  apply cfg_rel0_iff. exists p2. split; [exact R2|]. split; [exact E2|exact (frame_ext_trans F1 F2)].
Qed.

Lemma enter_rel c rA sA rR sR : cfg_rel0 (rA, sA) (rR, sR) ->
  exists cfR, clause_enterR c (rR, sR) = EOk cfR /\ cfg_rel0 (clause_enter c (rA, sA)) cfR.
Proof.
  intros H. apply cfg_rel0_iff in H as [p1 [R1 [E1 F1]]]. cbn [fst snd] in *.
  destruct (alias_rel (clause_pos c) 0 p1 sA sR rA rR R1 E1) as [rR1 [sR1 [H1 [R2 [G2 E2]]]]].
  eexists. split; [apply clause_enterR_eq; exact H1|]. rewrite clause_enter_eq. apply cfg_fresh_rel.
  apply cfg_rel0_iff. exists p1. split; [exact R2|]. split; [exact E2|].
  exact (frame_ext_trans F1 (frame_ext_grow p1 sA sR sA sR1 (grows_refl sA) G2 eq_refl)).
Qed.

(* the remaining head arguments (the same function on both sides) *)
Inductive hrel (rA rR : env) : hres -> hres -> Prop :=
| hrel_ok xA xR : cfg_rel0 (rA, xA) (rR, xR) -> hrel rA rR (HOk xA) (HOk xR)
| hrel_fail : hrel rA rR HFail HFail
| hrel_err : hrel rA rR HErr HErr.

Lemma head_unify_rel pos : forall i args rA sA rR sR, cfg_rel0 (rA, sA) (rR, sR) ->
  hrel rA rR (head_unify i pos args rA sA) (head_unify i pos args rR sR).
Proof.
  induction pos as [|o pr IH]; intros i args rA sA rR sR H.
  - constructor. exact H.
  - destruct o as [v|]; destruct args as [|a ar]; cbn [head_unify].
    + constructor. exact H.
    + apply IH. exact H.
    + constructor. exact H.
    + apply cfg_rel0_iff in H as [p1 [R1 [E1 F1]]]. cbn [fst snd] in *.
      destruct (unify_fast_rel p1 sA sR _ _ _ _ ufuel R1 (argval_rel p1 sA sR rA rR i E1) (instA_rel p1 sA sR rA rR a E1))
        as [s1 s1R R2 XA XR| | |]; [|constructor|constructor|constructor].
      apply IH, cfg_rel0_iff. exists p1. cbn [fst snd].
      pose proof (frame_ext_grow p1 sA sR _ _ (grows_sto sA s1 XA) (grows_sto sR s1R XR) eq_refl) as F2.
      split; [exact R2|]. split; [exact (rel_env_ext rA rR R1 R2 F2 E1)|exact (frame_ext_trans F1 F2)].
Qed.
End Frame.

Lemma cfg_rel0_start p sA sR argsA argsR : rel_st p sA sR -> Forall2 (rel_val p sA sR) argsA argsR ->
  cfg_rel0 p sA sR (bind_args 0 argsA, sA) (bind_args 0 argsR, sR).
Proof.
  intros R E. apply cfg_rel0_iff. exists p. cbn [fst snd]. split; [exact R|]. split; [apply bind_args_rel; exact E|apply frame_ext_refl].
Qed.

Section Activation.
Variables cA cR : str -> list term -> st -> list st * bool.
Hypothesis Hcall : call_rel cA cR.
Variable p0 : nat -> nat.
Variables sA0 sR0 : st.

Lemma map_instA_rel p sA sR rA rR a : rel_env p sA sR rA rR ->
  Forall2 (rel_val p sA sR) (map (instA rA) a) (map (instA rR) a).
Proof. intros E. induction a as [|t l IH]; simpl; constructor; auto. apply instA_rel; exact E. Qed.

Lemma leaf_rel f a c1 c2 : cfg_rel0 p0 sA0 sR0 c1 c2 ->
  Forall2 (cfg_rel0 p0 sA0 sR0) (fst (leafA cA f a c1)) (fst (leafA cR f a c2)) /\
  snd (leafA cA f a c1) = snd (leafA cR f a c2).
Proof.
  destruct c1 as [rA sA], c2 as [rR sR]. intros H. apply cfg_rel0_iff in H as [p1 [R1 [E1 F1]]]. cbn [fst snd] in *.
  unfold leafA.
  destruct (Hcall p1 sA sR f _ _ R1 (map_instA_rel p1 sA sR rA rR a E1)) as [H1 H2].
  destruct (cA f (map (instA rA) a) sA) as [xsA eA], (cR f (map (instA rR) a) sR) as [xsR eR]. cbn [fst snd] in *.
  split; [|exact H2]. clear H2.
  induction H1 as [|xA xR lA lR Hx H IH]; simpl; constructor; [|exact IH].
  apply ans_rel_iff in Hx as [p2 [R2 F2]]. apply cfg_rel0_iff. exists p2. cbn [fst snd].
  split; [exact R2|]. split; [exact (rel_env_ext rA rR R1 R2 F2 E1)|exact (frame_ext_trans F1 F2)].
Qed.

Lemma body_rel b c1 c2 : cfg_rel0 p0 sA0 sR0 c1 c2 ->
  Forall2 (cfg_rel0 p0 sA0 sR0) (fst (sem (leafA cA) b c1)) (fst (sem (leafA cR) b c2)) /\
  snd (sem (leafA cA) b c1) = snd (sem (leafA cR) b c2).
Proof. intros H. apply (sem_rel cfg cfg (cfg_rel0 p0 sA0 sR0) (leafA cA) (leafA cR) leaf_rel b c1 c2 H). Qed.

Lemma clause_res_rel c c1 c2 : cfg_rel0 p0 sA0 sR0 c1 c2 ->
  Forall2 (cfg_rel0 p0 sA0 sR0) (fst (clause_res cA c c1)) (fst (clause_res cR c c2)) /\
  snd (clause_res cA c c1) = snd (clause_res cR c c2).
Proof.
  destruct c1 as [rA sA], c2 as [rR sR]. intros H. unfold clause_res.
  destruct (head_unify_rel p0 sA0 sR0 (clause_pos c) 0 (c_args c) rA sA rR sR H) as [xA xR Hx| |].
  - apply body_rel. exact Hx.
  - split; [constructor|reflexivity].
  - split; [constructor|reflexivity].
Qed.

Lemma clauses_rel cs : forall c1 c2, cfg_rel0 p0 sA0 sR0 c1 c2 ->
  Forall2 (cfg_rel0 p0 sA0 sR0) (fst (clausesA cA cs c1)) (fst (clausesR cR cs c2)) /\
  snd (clausesA cA cs c1) = snd (clausesR cR cs c2).
Proof.
  induction cs as [|c rest IH]; intros c1 c2 H; [split; [constructor|reflexivity]|].
  rewrite clausesA_cons, clausesR_cons. destruct c1 as [rA sA], c2 as [rR sR].
  destruct (enter_rel p0 sA0 sR0 c rA sA rR sR H) as [cfR [HE H1]]. rewrite HE.
  apply (por_rel cfg cfg (cfg_rel0 p0 sA0 sR0)); [apply clause_res_rel; exact H1|apply IH; exact H1].
Qed.
End Activation.

Lemma shift_ren loA loR dA dR (px p2 : nat -> nat) kx u :
  bounded kx u ->
  (forall c, c < loA -> c < kx -> px c < loR /\ p2 c = px c) ->
  (forall c, loA <= c -> c < kx -> loR <= px c /\ p2 (c + dA) = px c + dR) ->
  shift_term loR dR (ren px u) = ren p2 (shift_term loA dA u).
Proof.
  intros B Hlo Hhi. induction u as [a|z|x|c|f args IH] using term_ind'; cbn [ren shift_term]; try reflexivity.
  - assert (Lc: c < kx) by (apply B; simpl; apply Nat.eqb_refl).
    destruct (Nat.leb_spec loA c) as [L|L].
    + destruct (Hhi c L Lc) as [H1 H2]. destruct (Nat.leb_spec loR (px c)); [|lia]. cbn [ren]. rewrite H2. reflexivity.
    + destruct (Hlo c L Lc) as [H1 H2]. destruct (Nat.leb_spec loR (px c)); [lia|]. cbn [ren]. rewrite H2. reflexivity.
  - f_equal. rewrite !map_map. apply map_ext_in. intros y Hy.
    apply (proj1 (Forall_forall _ _) IH y Hy). apply bounded_fun in B. exact (proj1 (Forall_forall _ _) B y Hy).
Qed.

Lemma shift_free lo d s u k : store_bounded lo s -> free_in s u -> lo <= k ->
  free_in s (shift_term lo d u).
Proof.
  intros SB F L w Hw. induction u as [a|z|x|c|f args IH] using term_ind'; cbn [shift_term] in Hw; try discriminate.
  - destruct (Nat.leb_spec lo c) as [Lc|Lc]; simpl in Hw; apply Nat.eqb_eq in Hw; subst w.
    + apply (lookup_bounded_none lo); [exact SB|lia].
    + apply F. simpl. apply Nat.eqb_refl.
  - simpl in Hw. rewrite existsb_exists in Hw. destruct Hw as [y [Hy Ho]]. apply in_map_iff in Hy as [x0 [<- Hx]].
    apply (proj1 (Forall_forall _ _) IH x0 Hx); [|exact Ho].
    intros v Hv. apply F. simpl. apply existsb_exists. exists x0; auto.
Qed.

Lemma free_of_ext s s' t : wf s' -> ext s s' -> free_in s (den s' t).
Proof. intros W [nw E]. subst s'. eapply free_app_r. apply den_free. exact W. Qed.

(* the copies: every cell of an instance is moved past everything that exists (lo = 0) *)
Lemma shift0_free k d s u : store_bounded k s -> k <= d -> free_in s (shift_term 0 d u).
Proof.
  intros SB L w Hw. induction u as [a|z|x|c|f args IH] using term_ind'; cbn [shift_term] in Hw; try discriminate.
  - cbn [Nat.leb] in Hw. simpl in Hw. apply Nat.eqb_eq in Hw. subst w. apply (lookup_bounded_none k); [exact SB|lia].
  - simpl in Hw. rewrite existsb_exists in Hw. destruct Hw as [y [Hy Ho]]. apply in_map_iff in Hy as [x0 [<- Hx]].
    exact (proj1 (Forall_forall _ _) IH x0 Hx Ho).
Qed.

Lemma copy_rel p sA sR tA tR xA xR p1 bA bR :
  rel_st p sA sR -> rel_val p sA sR tA tR -> ans_rel p sA sR xA xR ->
  rel_st p1 (at_nxt sA bA) (at_nxt sR bR) -> nxt sA <= bA -> nxt sR <= bR ->
  exists p2,
    rel_st p2 (at_nxt sA (bA + nxt xA)) (at_nxt sR (bR + nxt xR)) /\
    frame_ext p1 (at_nxt sA bA) (at_nxt sR bR)
              p2 (at_nxt sA (bA + nxt xA)) (at_nxt sR (bR + nxt xR)) /\
    rel_val p2 (at_nxt sA (bA + nxt xA)) (at_nxt sR (bR + nxt xR))
            (shift_term 0 bA (den_fast (sto xA) tA)) (shift_term 0 bR (den_fast (sto xR) tR)).
Proof.
  unfold at_nxt.
  intros R V Hx R1 LbA LbR. apply ans_rel_iff in Hx as [px [Rx [Ax [GA [GR _]]]]].
  (* cell bA + c of the copy is renamed as the answer renames c, shifted to the base bR of the other copy *)
  destruct (block_rel p1 _ _ (fun a => bR + px (a - bA)) (nxt xA) bR (nxt xR) R1 (le_n _)) as [p2 [R2 [F2 Pn]]];
    cbn [sto nxt] in *.
  - intros a b L1 L2 L3 L4 E. assert (E2: px (a - bA) = px (b - bA)) by lia. apply (r_inj Rx) in E2; lia.
  - intros a L1 L2. pose proof (r_img Rx (a - bA)). lia.
  - exists p2. split; [exact R2|]. split; [exact F2|].
    destruct (rel_val_mono p sA sR px xA xR tA tR R Rx Ax GA GR V) as [BxA [BxR Dx]].
    pose proof (bounded_den _ _ (r_invA Rx) _ BxA) as BdA. pose proof (bounded_den _ _ (r_invR Rx) _ BxR) as BdR.
    rewrite !den_fast_eq. split; [|split]; cbn [sto nxt].
    + rewrite Nat.add_comm. apply shift_bounded; [exact BdA|lia].
    + rewrite Nat.add_comm. apply shift_bounded; [exact BdR|lia].
    + rewrite (den_id (shift0_free (nxt sA) bA (sto sA) _ (r_invA R) LbA)).
      rewrite (den_id (shift0_free (nxt sR) bR (sto sR) _ (r_invR R) LbR)), Dx.
      apply (shift_ren 0 0 bA bR px p2 (nxt xA) _ BdA).
      * intros c L1 L2. lia.
      * intros c L1 L2. split; [lia|]. rewrite Pn by lia. replace (c + bA - bA) with c by lia. lia.
Qed.

Lemma collect_frame p sA sR tA tR xsA xsR :
  rel_st p sA sR -> rel_val p sA sR tA tR -> Forall2 (ans_rel p sA sR) xsA xsR ->
  forall p1 bA bR,
  rel_st p1 (at_nxt sA bA) (at_nxt sR bR) -> nxt sA <= bA -> nxt sR <= bR ->
  exists p2,
    rel_st p2 (at_nxt sA (snd (collect 0 bA tA xsA))) (at_nxt sR (snd (collect 0 bR tR xsR))) /\
    frame_ext p1 (at_nxt sA bA) (at_nxt sR bR)
              p2 (at_nxt sA (snd (collect 0 bA tA xsA))) (at_nxt sR (snd (collect 0 bR tR xsR))) /\
    Forall2 (rel_val p2 (at_nxt sA (snd (collect 0 bA tA xsA))) (at_nxt sR (snd (collect 0 bR tR xsR))))
            (fst (collect 0 bA tA xsA)) (fst (collect 0 bR tR xsR)).
Proof.
  unfold at_nxt.
  intros R V H. induction H as [|xA xR lA lR Hx H IH]; intros p1 bA bR R1 LbA LbR.
  - exists p1. cbn [collect fst snd]. split; [exact R1|]. split; [apply frame_ext_refl|constructor].
  - rewrite !collect_cons, !Nat.sub_0_r. cbn [fst snd].
    destruct (copy_rel p sA sR tA tR xA xR p1 bA bR R V Hx R1 LbA LbR) as [p2 [R2 [F2 V2]]].
    destruct (IH p2 (bA + nxt xA) (bR + nxt xR) R2) as [p3 [R3 [F3 V3]]]; [lia|lia|].
    exists p3. split; [exact R3|]. split; [exact (frame_ext_trans F2 F3)|].
    constructor; [|exact V3]. destruct F3 as [A3 [GA3 [GR3 _]]].
    exact (rel_val_mono _ _ _ _ _ _ _ _ R2 R3 A3 GA3 GR3 V2).
Qed.

Lemma collect_rel p sA sR tA tR xsA xsR :
  rel_st p sA sR -> rel_val p sA sR tA tR -> Forall2 (ans_rel p sA sR) xsA xsR ->
  forall p1 bA bR,
  rel_st p1 {| sto := sto sA; nxt := bA |} {| sto := sto sR; nxt := bR |} -> agree (nxt sA) p p1 ->
  nxt sA <= bA -> nxt sR <= bR ->
  exists p2,
    rel_st p2 {| sto := sto sA; nxt := snd (collect 0 bA tA xsA) |} {| sto := sto sR; nxt := snd (collect 0 bR tR xsR) |} /\
    agree bA p1 p2 /\ bA <= snd (collect 0 bA tA xsA) /\ bR <= snd (collect 0 bR tR xsR) /\
    (forall a, bA <= a -> a < snd (collect 0 bA tA xsA) -> bR <= p2 a) /\
    Forall2 (rel_val p2 {| sto := sto sA; nxt := snd (collect 0 bA tA xsA) |} {| sto := sto sR; nxt := snd (collect 0 bR tR xsR) |})
            (fst (collect 0 bA tA xsA)) (fst (collect 0 bR tR xsR)).
Proof.
  intros R V H p1 bA bR R1 _ LbA LbR.
  destruct (collect_frame p sA sR tA tR xsA xsR R V H p1 bA bR R1 LbA LbR) as [p2 [R2 [[A2 [[LA _] [[LR _] F2]]] V2]]].
  exists p2. split; [exact R2|]. split; [exact A2|]. split; [exact LA|]. split; [exact LR|]. split; [exact F2|exact V2].
Qed.

Lemma mk_list_rel p sA sR la lb : Forall2 (rel_val p sA sR) la lb -> rel_val p sA sR (mk_list la) (mk_list lb).
Proof.
  induction 1 as [|a b la lb [Ba [Bb D]] _ [BA [BB DD]]]; cbn [mk_list].
  - split; [apply bounded_atom|]. split; [apply bounded_atom|apply dr_atom].
  - split; [apply bounded_fun; repeat constructor; assumption|].
    split; [apply bounded_fun; repeat constructor; assumption|apply dr_fun; repeat constructor; assumption].
Qed.

Section BuiltinRel.
Variables cA cR : str -> list term -> st -> list st * bool.
Hypothesis Hcall : call_rel cA cR.

Lemma unify_st_rel p sA sR a b aR bR : rel_st p sA sR -> rel_val p sA sR a aR -> rel_val p sA sR b bR ->
  res_rel p sA sR (unify_st sA a b) (unify_st sR aR bR).
Proof.
  intros R Va Vb. unfold unify_st.
  destruct (unify_fast_rel p sA sR a b aR bR ufuel R Va Vb) as [s1 s1R R1 XA XR| | |];
    [|split; [constructor|reflexivity]..].
  split; [|reflexivity]. cbn [fst]. constructor; [|constructor].
  apply ans_rel_iff. exists p. split; [exact R1|]. exact (frame_ext_grow p sA sR _ _ (grows_sto sA s1 XA) (grows_sto sR s1R XR) eq_refl).
Qed.

Lemma call_goal_rel p sA sR g gR extra extraR : rel_st p sA sR -> rel_val p sA sR g gR ->
  Forall2 (rel_val p sA sR) extra extraR -> res_rel p sA sR (call_goal cA g extra sA) (call_goal cR gR extraR sR).
Proof.
  intros R [Bg [BgR Dg]] E. unfold call_goal. rewrite !den_fast_eq, Dg.
  pose proof (bounded_den _ _ (r_invA R) g Bg) as Bd.
  destruct (den (sto sA) g) as [a|z|x|v|f gargs]; cbn [ren]; try (split; [constructor|reflexivity]).
  - apply Hcall; assumption.
  - apply Hcall; [exact R|]. apply Forall2_app; [|exact E].
    apply bounded_fun in Bd. clear -R Bd. induction Bd as [|y l By Bl IH]; simpl; constructor; [|exact IH].
    apply rel_val_ren; assumption.
Qed.

Lemma builtin_rel p sA sR name argsA argsR : rel_st p sA sR -> Forall2 (rel_val p sA sR) argsA argsR ->
  match builtin cA name argsA sA, builtin cR name argsR sR with
  | Some rA, Some rR => res_rel p sA sR rA rR
  | None, None => True
  | _, _ => False
  end.
Proof.
  intros R E. unfold builtin.
  destruct (str_eqb name (s_ "=")).
  { destruct E as [|a aR l lR Va E]; [exact Logic.I|]. destruct E as [|b bR l lR Vb E]; [exact Logic.I|].
    destruct E; [|exact Logic.I]. apply unify_st_rel; assumption. }
  destruct (str_eqb name (s_ "\=")).
  { destruct E as [|a aR l lR Va E]; [exact Logic.I|]. destruct E as [|b bR l lR Vb E]; [exact Logic.I|].
    destruct E; [|exact Logic.I].
    destruct (unify_fast_rel p sA sR a b aR bR ufuel R Va Vb) as [s1 s1R _ _ _| | |].
    - split; [constructor|reflexivity].
    - split; [|reflexivity]. cbn [fst]. constructor; [apply ans_rel_refl; exact R|constructor].
    - split; [constructor|reflexivity].
    - split; [constructor|reflexivity]. }
  destruct (str_eqb name (s_ "call")).
  { destruct E as [|g gR l lR Vg E]; [split; [constructor|reflexivity]|]. apply call_goal_rel; assumption. }
  destruct (str_eqb name (s_ "once")).
  { destruct E as [|g gR l lR Vg E]; [exact Logic.I|]. destruct E; [|exact Logic.I].
    destruct (call_goal_rel p sA sR g gR [] [] R Vg (Forall2_nil _)) as [H1 H2].
    destruct (call_goal cA g [] sA) as [xsA eA], (call_goal cR gR [] sR) as [xsR eR]. cbn [fst snd] in *. subst eR.
    destruct H1 as [|xA xR lA lR Hx H1]; split; cbn [fst snd]; try reflexivity; repeat constructor. exact Hx. }
  destruct (str_eqb name (s_ "findall")); [|exact Logic.I].
  destruct E as [|t tR l0 l0R Vt E]; [exact Logic.I|]. destruct E as [|g gR l1 l1R Vg E]; [exact Logic.I|].
  destruct E as [|l lR l2 l2R Vl E]; [exact Logic.I|]. destruct E; [|exact Logic.I].
  destruct (call_goal_rel p sA sR g gR [] [] R Vg (Forall2_nil _)) as [H1 H2].
  destruct (call_goal cA g [] sA) as [xsA eA], (call_goal cR gR [] sR) as [xsR eR]. cbn [fst snd] in *. subst eR.
  destruct eA; [split; [constructor|reflexivity]|].
  destruct (collect_frame p sA sR t tR xsA xsR R Vt H1 p (nxt sA) (nxt sR)) as [p2 [R2 [F2 V2]]];
    [unfold at_nxt; rewrite !st_eta; exact R|apply le_n|apply le_n|].
  destruct (collect 0 (nxt sA) t xsA) as [esA bA], (collect 0 (nxt sR) tR xsR) as [esR bR]. cbn [fst snd] in *.
  apply (res_rel_trans p sA sR p2 _ _ _ _ F2). destruct F2 as [A2 [GA [GR _]]].
  apply (unify_st_rel p2 _ _ l _ lR _ R2 (rel_val_mono _ _ _ _ _ _ _ _ R R2 A2 GA GR Vl)).
  exact (mk_list_rel _ _ _ _ _ V2).
Qed.
End BuiltinRel.

Lemma Forall2_length_eq {A B} (R : A -> B -> Prop) la lb : Forall2 R la lb -> length la = length lb.
Proof. induction 1; simpl; auto. Qed.

Theorem solve_rel : forall n prog, call_rel (solveA n prog) (solveR n prog).
Proof.
  induction n as [|n IH]; intros prog p sA sR f argsA argsR R E; [split; [constructor|reflexivity]|].
  cbn [solveA solveR]. rewrite <- (Forall2_length_eq _ _ _ E).
  destruct (clauses_for prog f (length argsA)) as [|c cs].
  - pose proof (builtin_rel _ _ (IH prog) p sA sR f argsA argsR R E) as H.
    destruct (builtin (solveA n prog) f argsA sA) as [rA|], (builtin (solveR n prog) f argsR sR) as [rR|]; try contradiction.
    + exact H.
    + split; [constructor|reflexivity].
  - destruct (clauses_rel _ _ (IH prog) p sA sR (c :: cs) _ _ (cfg_rel0_start p sA sR argsA argsR R E)) as [Q1 Q2].
    destruct (clausesA (solveA n prog) (c :: cs) (bind_args 0 argsA, sA)) as [ysA fA].
    destruct (clausesR (solveR n prog) (c :: cs) (bind_args 0 argsR, sR)) as [ysR fR]. cbn [fst snd] in *. subst fR.
    split; [exact (cfg_rel0_ans p sA sR ysA ysR Q1)|reflexivity].
Qed.

(* The observable form: a query started from the same state in both semantics (cells 0 .. nxt s - 1 are the
   query's variables and whatever they are bound to) gives answer sequences of the same length, ending the
   same way, and the k-th answers agree on every cell that existed before the query up to an injective
   renaming p' of the cells created during the query (p' is the identity on the old cells). *)
Definition id_ren : nat -> nat := fun a => a.

Lemma rel_st_id s : wf (sto s) -> inv s -> rel_st id_ren s s.
Proof.
  intros W I. constructor; auto.
  - intros a b _ _ E. exact E.
  - intros a _. symmetry. apply ren_id.
Qed.

Lemma rel_vals_id s args : Forall (bounded (nxt s)) args -> Forall2 (rel_val id_ren s s) args args.
Proof.
  intros B. induction B as [|a l Ba Bl IH]; constructor; [|exact IH].
  split; [exact Ba|]. split; [exact Ba|]. symmetry. apply ren_id.
Qed.

Definition same_answer (s xA xR : st) : Prop :=
  exists p', inj_on (nxt xA) p' /\ (forall a, a < nxt s -> p' a = a) /\
             forall q, q < nxt s -> den (sto xR) (TVar q) = ren p' (den (sto xA) (TVar q)).

Lemma res_rel_same_answer s rA rR : res_rel id_ren s s rA rR ->
  Forall2 (same_answer s) (fst rA) (fst rR) /\ snd rA = snd rR.
Proof.
  intros [H1 H2]. split; [|exact H2].
  eapply Forall2_imp; [|exact H1]. intros xA xR H. apply ans_rel_iff in H as [p' [R' [A' [GA _]]]].
  exists p'. split; [apply (r_inj R')|]. split; [intros a La; symmetry; apply (A' a La)|].
  intros q Lq. pose proof (Nat.lt_le_trans _ _ _ Lq (proj1 GA)) as Lq'.
  pose proof (r_den R' q Lq') as D. rewrite <- (A' q Lq) in D. exact D.
Qed.

Theorem naming_equals_renaming_apart : forall n prog name args s,
  wf (sto s) -> inv s -> Forall (bounded (nxt s)) args ->
  Forall2 (same_answer s) (fst (solveA n prog name args s)) (fst (solveR n prog name args s)) /\
  snd (solveA n prog name args s) = snd (solveR n prog name args s).
Proof.
  intros n prog name args s W I B. apply res_rel_same_answer.
  exact (solve_rel n prog id_ren s s name args args (rel_st_id s W I) (rel_vals_id s args B)).
Qed.
