(* C06: negation applied directly to a builtin test.  `\+ G` is not "the complementary goal": it delivers the state it
   was entered with.  \+ (A \= B) succeeds exactly when A and B unify and delivers the UNCHANGED state, whereas A = B
   delivers the state extended by the unifier - so rewriting the former to the latter is wrong exactly when the unifier
   binds something. *)
From Coq Require Import String.
From Coq Require Import List Arith Bool ZArith NArith.
Import ListNotations.
From YP Require Import Base.Str Term.Term Term.Fast Unify.Unify Unify.Fast Lang.Ast Comp.IR Comp.CompileBody
  Sem.Res Sem.RefSem Sem.Machine Sem.ClauseSem.
Local Open Scope string_scope.
Local Open Scope list_scope.

Section Control.
Variable S : Type.
Variable I : str -> list sterm -> S -> list S * bool.
Notation sem := (sem I).

Lemma not_not_spec G s :
  sem (BNot (BNot G)) s = match opaque (sem G s) with
                          | (_ :: _, _) => ([s], FNorm)
                          | ([], FNorm) => ([], FNorm)
                          | ([], f) => ([], f)
                          end.
Proof.
  cbn [RefSem.sem]. destruct (RefSem.sem I G s) as [[|x xs] f]; destruct f; reflexivity.
Qed.
End Control.

Section Leaves.
Variable call : str -> list term -> st -> list st * bool.

(* the builtin \= as the engine defines it (SpecLemmas.neq_spec: this is what `builtin` computes) *)
Definition neq_result (s : st) (a b : term) : list st * bool :=
  match unify_fast ufuel (sto s) a b with UOk _ => ([], false) | UFail => ([s], false) | _ => ([], true) end.

Theorem neg_neq_spec : forall r s a b,
  call (s_ "\=") [instA r a; instA r b] s = neq_result s (instA r a) (instA r b) ->
  RefSem.sem (leafA call) (BNot (BCall (s_ "\=") [a; b])) (r, s) =
  match unify_fast ufuel (sto s) (instA r a) (instA r b) with
  | UOk _ => ([(r, s)], FNorm)          (* unifiable: one answer, the state it was entered with *)
  | UFail => ([], FNorm)
  | _ => ([], FErr)
  end.
Proof.
  intros r s a b H. cbn [RefSem.sem leafA map]. rewrite H. unfold neq_result.
  destruct (unify_fast ufuel (sto s) (instA r a) (instA r b)); reflexivity.
Qed.

Theorem eq_goal_spec : forall r s a b,
  call (s_ "=") [instA r a; instA r b] s = unify_st s (instA r a) (instA r b) ->
  RefSem.sem (leafA call) (BCall (s_ "=") [a; b]) (r, s) =
  match unify_fast ufuel (sto s) (instA r a) (instA r b) with
  | UOk s' => ([(r, {| sto := s'; nxt := nxt s |})], FNorm)      (* the state extended by the unifier *)
  | UFail => ([], FNorm)
  | _ => ([], FErr)
  end.
Proof.
  intros r s a b H. cbn [RefSem.sem leafA map]. rewrite H. unfold unify_st.
  destruct (unify_fast ufuel (sto s) (instA r a) (instA r b)); reflexivity.
Qed.

(* the two goals have the same answers only if the unifier is empty *)
Theorem neg_neq_differs_from_eq : forall r s a b s',
  call (s_ "\=") [instA r a; instA r b] s = neq_result s (instA r a) (instA r b) ->
  call (s_ "=") [instA r a; instA r b] s = unify_st s (instA r a) (instA r b) ->
  unify_fast ufuel (sto s) (instA r a) (instA r b) = UOk s' -> s' <> sto s ->
  RefSem.sem (leafA call) (BNot (BCall (s_ "\=") [a; b])) (r, s) <> RefSem.sem (leafA call) (BCall (s_ "=") [a; b]) (r, s).
Proof.
  intros r s a b s' Hn He Hu Hd. rewrite (neg_neq_spec r s a b Hn), (eq_goal_spec r s a b He), Hu.
  intros E. injection E as E. apply Hd. destruct s as [st0 k]. cbn in E. injection E as E. symmetry. exact E.
Qed.
End Leaves.

(* non-vacuity: X \= a with X (cell 0) unbound: \+ X \= a answers with the empty store, X = a with X bound *)
Example neg_neq_nonvacuous :
  let r := [(pyvar (d "X"), TVar 0)] in
  let s := {| sto := []; nxt := 1 |} in
  unify_fast ufuel (sto s) (instA r (SVar (d "X"))) (instA r (SAtom (d "a"))) = UOk [(0, TAtom (d "a"))]
  /\ [(0, TAtom (d "a"))] <> sto s.
Proof. split; [reflexivity | discriminate]. Qed.
