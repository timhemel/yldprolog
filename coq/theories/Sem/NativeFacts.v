(* C20, native_equals_compiled_facts: the Python predicate `native_rows rows vals` and the compiled predicate
   p(row_1). ... p(row_k). (ground rows) have the same answers for all arguments, stores and interpretations of
   the calls - and therefore every engine that has the one answers every query as the engine that has the other
   (subset_interchangeable).  Then three further facts about the engine of Sem/Native.v: a goal passes its instantiated
   arguments in call order; without Python predicates and stored facts it is the engine of Sem/Machine.v; a Python
   predicate over arbitrary rows answers like the same rows stored as dynamic facts. *)
From Coq Require Import String.
From Coq Require Import List Arith Bool Lia.
Import ListNotations.
From YP Require Import Base.Str Term.Term Term.Fast Unify.Unify Unify.Fast Lang.Ast Comp.IR Comp.CompileBody Comp.CompileClause
  Sem.Res Sem.RefSem Sem.SemLemmas Sem.IRSem Sem.ControlCorrect Sem.Machine Sem.ClauseSem Sem.ProgramCorrect Sem.Native Sem.NativeThms.
From YP Require Engine.Keys.
Local Open Scope string_scope.
Local Open Scope list_scope.

Fixpoint ground (t : sterm) : bool :=
  let all := fix all (l : list sterm) : bool := match l with [] => true | x :: r => ground x && all r end in
  match t with
  | SVar _ => false
  | SAtom _ | SNum _ => true
  | SFun _ args => all args
  | SList items => all items
  | SPair h t => ground h && ground t
  end.

Definition ground_row (row : list sterm) : bool := forallb ground row.

Lemma ground_all l : (fix all (l : list sterm) : bool := match l with [] => true | x :: r => ground x && all r end) l = forallb ground l.
Proof. induction l as [|x r IH]; [reflexivity|]. cbn [forallb]. rewrite <- IH. reflexivity. Qed.

Lemma map_ext_ground {B} (f g : sterm -> B) l :
  Forall (fun t => ground t = true -> f t = g t) l -> forallb ground l = true -> map f l = map g l.
Proof.
  induction 1 as [|x l Hx _ IH]; [reflexivity|]. cbn [forallb map]. intros G.
  apply andb_true_iff in G as [G1 G2]. rewrite (Hx G1), (IH G2). reflexivity.
Qed.

Lemma flat_map_ground {B} (f : sterm -> list B) l :
  Forall (fun t => ground t = true -> f t = []) l -> forallb ground l = true -> flat_map f l = [].
Proof.
  induction 1 as [|x l Hx _ IH]; [reflexivity|]. cbn [forallb flat_map]. intros G.
  apply andb_true_iff in G as [G1 G2]. rewrite (Hx G1), (IH G2). reflexivity.
Qed.

(* the engine term of a ground source term: no environment needed *)
Definition gterm (t : sterm) : term := instA [] t.

Lemma instA_ground r t : ground t = true -> instA r t = gterm t.
Proof.
  unfold gterm. induction t as [a|n|v|f args IH|items IH|h t IHh IHt] using sterm_ind'; cbn [ground instA]; intros G.
  - reflexivity.
  - reflexivity.
  - discriminate.
  - rewrite ground_all in G. rewrite (map_ext_ground _ _ args IH G). reflexivity.
  - rewrite ground_all in G. rewrite (map_ext_ground _ _ items IH G). reflexivity.
  - apply andb_true_iff in G as [G1 G2]. rewrite IHh, IHt by assumption. reflexivity.
Qed.

Lemma tshift_map off l : (fix shifts (l : list term) : list term := match l with [] => [] | x :: r => tshift off x :: shifts r end) l
  = map (tshift off) l.
Proof. induction l as [|x r IH]; [reflexivity|]. cbn [map]. rewrite <- IH. reflexivity. Qed.

Lemma tshift_mk_list off l : tshift off (mk_list l) = mk_list (map (tshift off) l).
Proof. induction l as [|x r IH]; [reflexivity|]. cbn [mk_list map]. unfold cons_term. cbn [tshift]. rewrite IH. reflexivity. Qed.

Lemma tshift_ground off t : ground t = true -> tshift off (gterm t) = gterm t.
Proof.
  unfold gterm. induction t as [a|n|v|f args IH|items IH|h t IHh IHt] using sterm_ind'; cbn [ground instA]; intros G.
  - reflexivity.
  - reflexivity.
  - discriminate.
  - rewrite ground_all in G. cbn [tshift]. rewrite tshift_map, map_map, (map_ext_ground _ _ args IH G). reflexivity.
  - rewrite ground_all in G. rewrite tshift_mk_list, map_map, (map_ext_ground _ _ items IH G). reflexivity.
  - apply andb_true_iff in G as [G1 G2]. unfold cons_term. cbn [tshift]. rewrite IHh, IHt by assumption. reflexivity.
Qed.

Lemma ground_no_vars t : ground t = true -> sterm_vars t = [].
Proof.
  induction t as [a|n|v|f args IH|items IH|h t IHh IHt] using sterm_ind'; cbn [ground sterm_vars]; intros G.
  - reflexivity.
  - reflexivity.
  - discriminate.
  - rewrite ground_all in G. exact (flat_map_ground _ args IH G).
  - rewrite ground_all in G. exact (flat_map_ground _ items IH G).
  - apply andb_true_iff in G as [G1 G2]. rewrite IHh, IHt by assumption. reflexivity.
Qed.

Lemma ground_top_var t : ground t = true -> top_var t = None.
Proof. destruct t; try reflexivity. discriminate. Qed.

Definition fact_clause (name : str) (row : list sterm) : clause := {| c_name := name; c_args := row; c_body := BTrue |}.
Definition row_of (row : list sterm) : frow := {| r_vals := map gterm row; r_nv := 0 |}.

Lemma ground_row_vars row : ground_row row = true -> flat_map sterm_vars row = [].
Proof. apply flat_map_ground, Forall_forall. intros t _. apply ground_no_vars. Qed.

(* no argument of a ground fact is a variable: the compiler aliases none *)
Lemma fact_pos name row : ground_row row = true -> clause_pos (fact_clause name row) = map (fun _ => None) row.
Proof.
  unfold clause_pos, head_args_by_pos. cbn [fact_clause c_args].
  apply map_ext_ground, Forall_forall. intros t _ G. rewrite (ground_top_var t G). reflexivity.
Qed.

Lemma some_list_none (row : list sterm) : some_list (map (fun _ => @None str) row) = [].
Proof. induction row as [|a r IH]; [reflexivity|]. exact IH. Qed.

Lemma fact_enter name row cf : ground_row row = true -> clause_enter (fact_clause name row) cf = cf.
Proof.
  intros G. destruct cf as [r s]. unfold clause_enter, clause_fv_head, clause_fv_body.
  rewrite (fact_pos name row G), some_list_none. cbn [fact_clause c_args c_body body_vars].
  rewrite (ground_row_vars row G). cbn. rewrite st_eta. f_equal. clear G.
  generalize 0. induction row as [|a l IH]; intros i; [reflexivity|]. cbn [map alias_env]. apply IH.
Qed.

Lemma argvar_inj i j : argvar i = argvar j -> i = j.
Proof.
  unfold argvar. intros H. apply app_inv_head in H. apply Engine.Keys.dec_of_nat_inj in H. lia.
Qed.

Lemma argval_bind args : forall i j, argval (i + j) (bind_args i args) = nth j args bad_term.
Proof.
  induction args as [|a r IH]; intros i j; [destruct j; reflexivity|].
  unfold argval. cbn [bind_args env_get]. fold (argvar i). destruct j as [|j].
  - rewrite Nat.add_0_r, str_eqb_refl. reflexivity.
  - assert (NE : argvar (i + S j) <> argvar i) by (intros E; apply argvar_inj in E; lia).
    rewrite (proj2 (str_eqb_neq _ _) NE), Nat.add_succ_r, <- Nat.add_succ_l. apply (IH (S i) j).
Qed.

Lemma map_nth_seq0 {A} (l : list A) d : map (fun j => nth j l d) (seq 0 (length l)) = l.
Proof.
  induction l as [|a r IH]; [reflexivity|].
  cbn [length seq map nth]. f_equal. rewrite <- seq_shift, map_map. exact IH.
Qed.

Lemma argvals_bind args : map (fun j => argval j (bind_args 0 args)) (seq 0 (length args)) = args.
Proof.
  rewrite (map_ext _ _ (argval_bind args 0)). apply map_nth_seq0.
Qed.

Definition lift (u : ures) (n : nat) : hres :=
  match u with UOk s' => HOk {| sto := s'; nxt := n |} | UFail => HFail | UOof | UCyc => HErr end.

Lemma head_unify_arr row : forall i r s,
  head_unify i (map (fun _ => None) row) row r s =
  lift (arr (unify_fast ufuel) (map (fun j => argval j r) (seq i (length row))) (map (instA r) row) (sto s)) (nxt s).
Proof.
  induction row as [|a l IH]; intros i r s.
  - cbn. rewrite st_eta. reflexivity.
  - cbn [map head_unify length seq arr].
    destruct (unify_fast ufuel (sto s) (argval i r) (instA r a)) as [s'| | |]; try reflexivity.
    rewrite IH. reflexivity.
Qed.

Lemma map_instA_ground r row : ground_row row = true -> map (instA r) row = map gterm row.
Proof. apply map_ext_ground, Forall_forall. intros t _. apply instA_ground. Qed.

Lemma row_terms_ground row s : ground_row row = true -> row_terms (row_of row) s = map gterm row.
Proof.
  unfold row_terms, row_of. cbn [r_vals]. rewrite map_map.
  apply map_ext_ground, Forall_forall. intros t _. apply tshift_ground.
Qed.

Lemma fact_clauses_rows call name rows : forall args s,
  Forall (fun row => ground_row row = true /\ length row = length args) rows ->
  clausesA call (map (fact_clause name) rows) (bind_args 0 args, s) =
  (map (fun x => (bind_args 0 args, x)) (fst (match_rows (map row_of rows) args s)),
   if snd (match_rows (map row_of rows) args s) then FErr else FNorm).
Proof.
  induction rows as [|row rest IH]; intros args s F; [reflexivity|].
  apply Forall_cons_iff in F as [[G L] Fr].
  cbn [map clausesA match_rows]. rewrite (fact_enter name row _ G), (IH args s Fr).
  unfold clause_res. rewrite (fact_pos name row G). cbn [fact_clause c_args c_body].
  rewrite head_unify_arr, (map_instA_ground _ row G), L, argvals_bind, (row_terms_ground row s G).
  unfold unify_arrays_fast. rewrite map_length, L, Nat.eqb_refl.
  destruct (arr (unify_fast ufuel) args (map gterm row) (sto s)) as [s'| | |]; cbn [lift sem]; try reflexivity.
  cbn [row_of r_nv]. rewrite Nat.add_0_r. destruct (match_rows (map row_of rest) args s) as [zs e]. reflexivity.
Qed.

Lemma fact_good name row : good_clause (fact_clause name row).
Proof. split; reflexivity. Qed.

Lemma facts_good name rows : Forall good_clause (map (fact_clause name) rows).
Proof. apply Forall_map, Forall_forall. intros row _. apply fact_good. Qed.

Lemma compile_facts name rows : forall cnt, exists code, compile_clauses (map (fact_clause name) rows) cnt = Some (code, cnt).
Proof.
  induction rows as [|row rest IH]; intros cnt; [exists []; reflexivity|].
  cbn [map compile_clauses]. unfold compile_clause at 1. cbn [fact_clause c_body c_args fuel_body comp].
  destruct (IH cnt) as [code E]. rewrite E. eexists. reflexivity.
Qed.

Lemma run_clauses call cs cnt code cnt' args s :
  compile_clauses cs cnt = Some (code, cnt') -> Forall good_clause cs ->
  run_code call code args s =
  (map snd (fst (clausesA call cs (bind_args 0 args, s))),
   match snd (clausesA call cs (bind_args 0 args, s)) with FErr => true | _ => false end).
Proof.
  intros HC G. unfold run_code, run_function.
  destruct (clauses_ok call cs cnt code cnt' (bind_args 0 args, s) flags0 HC G eq_refl) as [f' [E _]].
  rewrite E. destruct (snd (clausesA call cs (bind_args 0 args, s))); reflexivity.
Qed.

Lemma fact_clauses_answers call name rows args s :
  Forall (fun row => ground_row row = true /\ length row = length args) rows ->
  (map snd (fst (clausesA call (map (fact_clause name) rows) (bind_args 0 args, s))),
   match snd (clausesA call (map (fact_clause name) rows) (bind_args 0 args, s)) with FErr => true | _ => false end) =
  match_rows (map row_of rows) args s.
Proof.
  intros F. rewrite (fact_clauses_rows call name rows args s F). cbn [fst snd].
  destruct (match_rows (map row_of rows) args s) as [zs e]. cbn [fst snd]. rewrite map_map. cbn [snd]. rewrite map_id.
  destruct e; reflexivity.
Qed.

(* the generator function compiled from p(row_1). ... p(row_k). delivers, for all arguments, states and whatever the
   calls mean, exactly the answers of the row loop *)
Theorem compiled_facts_run call name rows cnt code cnt' args s :
  compile_clauses (map (fact_clause name) rows) cnt = Some (code, cnt') ->
  Forall (fun row => ground_row row = true /\ length row = length args) rows ->
  run_code call code args s = match_rows (map row_of rows) args s.
Proof.
  intros HC F. rewrite (run_clauses call _ cnt code cnt' args s HC (facts_good name rows)).
  apply fact_clauses_answers. exact F.
Qed.

Theorem native_equals_compiled_facts call name rows vals cnt code cnt' args s :
  compile_clauses (map (fact_clause name) rows) cnt = Some (code, cnt') ->
  Forall (fun row => ground_row row = true /\ length row = length args) rows ->
  drop (native_rows (map row_of rows) vals args s) =
  (let '(ys, k) := run_function (iter call) assign code (bind_args 0 args, s) in
   (map snd ys, match k with CErr => true | _ => false end)).
Proof. intros HC F. rewrite drop_native_rows. symmetry. exact (compiled_facts_run call name rows cnt code cnt' args s HC F). Qed.

Lemma key_eq_true a b : key_eq a b = true -> a = b.
Proof.
  destruct a as [x n], b as [y m]. unfold key_eq. cbn [fst snd]. intros H. apply andb_true_iff in H as [H1 H2].
  apply str_eqb_eq in H1. apply Nat.eqb_eq in H2. subst. reflexivity.
Qed.

Lemma key_eq_refl a : key_eq a a = true.
Proof. destruct a as [x n]. unfold key_eq. cbn [fst snd]. rewrite str_eqb_refl, Nat.eqb_refl. reflexivity. Qed.

(* w has the Python predicate `native_rows rows vals` under the key name_k (registered with inferred or explicit arity);
   w' has the generator function compiled from the facts name(row_1). ... name(row_n). instead; everything else -
   other keys, variadic keys, dynamic facts - is the same *)
Record swapped_fix (w w' : world) (name : str) (k : nat) (rows : list (list sterm)) (vals : list bool) : Prop := {
  sf_rows : Forall (fun row => ground_row row = true /\ length row = k) rows;
  sf_py : w_fix w name k = Some (native_rows (map row_of rows) vals);
  sf_nopy : w_fix w' name k = None;
  sf_code : exists f cnt cnt', find_func (w_ir w') name k = Some f /\
                               compile_clauses (map (fact_clause name) rows) cnt = Some (fn_body f, cnt');
  sf_other : forall n0 k0, key_eq (n0, k0) (name, k) = false ->
               w_fix w' n0 k0 = w_fix w n0 k0 /\ find_func (w_ir w') n0 k0 = find_func (w_ir w) n0 k0;
  sf_var : forall n0, w_var w' n0 = w_var w n0;
  sf_dyn : forall n0 k0, w_dyn w' n0 k0 = w_dyn w n0 k0
}.

Theorem swapped_fix_equiv w w' name k rows vals : swapped_fix w w' name k rows vals -> world_equiv w w'.
Proof.
  intros [Hrows Hpy Hnopy [f [cnt [cnt' [Hf Hc]]]] Hother Hvar Hdyn] call name0 args s.
  rewrite !nstep_eq, Hdyn. f_equal. rewrite !call_function_eq.
  destruct (key_eq (name0, length args) (name, k)) eqn:K.
  - apply key_eq_true in K. injection K as -> <-. rewrite Hpy, Hnopy, Hf, drop_native_rows.
    symmetry. exact (compiled_facts_run call name rows cnt (fn_body f) cnt' args s Hc Hrows).
  - destruct (Hother _ _ K) as [H1 H2]. rewrite H1, H2, Hvar. reflexivity.
Qed.

(* any number of swaps, in either direction *)
Inductive swaps : world -> world -> Prop :=
| swaps_refl w : swaps w w
| swaps_py_to_compiled w w' w'' name k rows vals : swapped_fix w w' name k rows vals -> swaps w' w'' -> swaps w w''
| swaps_compiled_to_py w w' w'' name k rows vals : swapped_fix w' w name k rows vals -> swaps w' w'' -> swaps w w''.

(* replacing any subset of the fact predicates of a program by Python predicates changes no answer of any query *)
Theorem subset_interchangeable w w' : swaps w w' ->
  forall n name args s, nquery n w name args s = nquery n w' name args s.
Proof.
  intros H. apply world_equiv_nquery. induction H as [w|w w' w'' name k rows vals S1 _ IH|w w' w'' name k rows vals S1 _ IH].
  - apply world_equiv_refl.
  - eapply world_equiv_trans; [eapply swapped_fix_equiv; exact S1|exact IH].
  - eapply world_equiv_trans; [apply world_equiv_sym; eapply swapped_fix_equiv; exact S1|exact IH].
Qed.

(* a goal g(a_1, ..., a_n) of a compiled clause calls the Python predicate registered for g/n with exactly the list
   [a_1; ...; a_n] instantiated in the activation - engine terms, in call order - and delivers its answers in order *)
Theorem args_in_call_order call w g sargs r s f :
  w_fix w g (length sargs) = Some f -> Resolve.reserved g = false -> w_dyn w g (length sargs) = [] ->
  iter (nstep call w) (query_expr g sargs) (r, s) =
  (map (fun x => (r, x)) (map fst (fst (f (map (instA r) sargs) s))), snd (f (map (instA r) sargs) s)).
Proof.
  intros Hf Hr Hd. rewrite (ProgramCorrect.HJ (nstep call w) g sargs (r, s)). unfold leafA, nstep.
  rewrite map_length, Hd, Hr. cbn [match_rows]. unfold call_function. rewrite map_length, Hf. unfold drop.
  destruct (f (map (instA r) sargs) s) as [xs e]. reflexivity.
Qed.

(* the same for a function registered with variable arity, when no other entry has the key g_n' *)
Theorem args_in_call_order_variadic call w g sargs r s f :
  w_var w g = Some f -> w_fix w g (length sargs) = None -> find_func (w_ir w) g (length sargs) = None ->
  (forall c a s0, builtin c g a s0 = None) -> str_eqb g (s_ "call") = false ->
  Resolve.reserved g = false -> w_dyn w g (length sargs) = [] ->
  iter (nstep call w) (query_expr g sargs) (r, s) =
  (map (fun x => (r, x)) (map fst (fst (f (map (instA r) sargs) s))), snd (f (map (instA r) sargs) s)).
Proof.
  intros Hv Hf Hff Hb Hc Hr Hd. rewrite (ProgramCorrect.HJ (nstep call w) g sargs (r, s)). unfold leafA, nstep.
  rewrite map_length, Hd, Hr. cbn [match_rows]. unfold call_function. rewrite map_length, Hf, Hff, Hc, Hb, Hv. unfold drop.
  destruct (f (map (instA r) sargs) s) as [xs e]. reflexivity.
Qed.

Lemma reserved_not_builtin call name args s : Resolve.reserved name = true -> builtin call name args s = None.
Proof.
  revert name args. (* none of the five names of builtins is an API name: by evaluation *)
  apply (builtin_cases call s (fun name _ r => Resolve.reserved name = true -> r = None)); try (intros; discriminate).
  reflexivity.
Qed.

Lemma find_func_name p : forall name k f, find_func p name k = Some f -> In f p /\ fn_name f = name.
Proof.
  induction p as [|g r IH]; intros name k f H; [discriminate|]. cbn [find_func] in H.
  destruct (str_eqb (fn_name g) name && Nat.eqb (fn_arity g) k) eqn:E.
  - injection H as <-. apply andb_true_iff in E as [E _]. apply str_eqb_eq in E. split; [left; reflexivity|exact E].
  - destruct (IH _ _ _ H) as [A B]. split; [right; exact A|exact B].
Qed.

(* the engine of Sem/Machine.v (for which Sem/ProgramCorrect.v proves the clause-level semantics) is the special case
   without Python predicates and dynamic facts, for programs that do not define a predicate with an API name (those are
   never callable: C08) *)
Theorem plain_is_machine ir : (forall f, In f ir -> Resolve.reserved (fn_name f) = false) ->
  forall n name args s, nquery n (plain ir) name args s = query n ir name args s.
Proof.
  intros NR. induction n as [|n IH]; intros name args s; [reflexivity|].
  cbn [nquery query]. rewrite (nstep_ext _ _ IH), nstep_eq, call_function_eq.
  unfold dyn_first. cbn [plain w_dyn w_fix w_ir w_var match_rows].
  destruct (Resolve.reserved name) eqn:R.
  - destruct (find_func ir name (length args)) as [f|] eqn:F.
    + destruct (find_func_name ir _ _ _ F) as [A B]. rewrite <- B, (NR f A) in R. discriminate.
    + rewrite (reserved_not_builtin (query n ir) name args s R). reflexivity.
  - destruct (find_func ir name (length args)) as [f|].
    { unfold run_code. destruct (run_function (iter (query n ir)) assign (fn_body f) (bind_args 0 args, s)) as [ys k]. reflexivity. }
    unfold fallback. destruct (str_eqb name (s_ "call")); destruct (builtin (query n ir) name args s) as [[xs e]|]; reflexivity.
Qed.

(* For ARBITRARY rows (variables, repeated variables, nested terms): a Python predicate over the rows, registered for
   name/k, answers every call exactly as the same rows stored as dynamic facts of name/k do (assert_fact): both are the
   loop `for row: for _ in unify_arrays(args, fresh copy of row)`.  w: the Python predicate, no stored facts of name/k;
   w': the stored facts, no function for name/k; everything else the same.  (The name must not be an API name - those are
   never called as functions but their stored facts are answered - nor a builtin's.) *)
Record python_vs_dynamic (w w' : world) (name : str) (k : nat) (rows : list frow) (vals : list bool) : Prop := {
  pd_res : Resolve.reserved name = false;
  pd_nb : forall c a s0, builtin c name a s0 = None;
  pd_nc : str_eqb name (s_ "call") = false;
  pd_py : w_fix w name k = Some (native_rows rows vals);
  pd_nodyn : w_dyn w name k = [];
  pd_nofix : w_fix w' name k = None;
  pd_nofun : find_func (w_ir w') name k = None;
  pd_novar : w_var w' name = None;
  pd_dyn : w_dyn w' name k = rows;
  pd_other : forall n0 k0, key_eq (n0, k0) (name, k) = false ->
               w_fix w' n0 k0 = w_fix w n0 k0 /\ find_func (w_ir w') n0 k0 = find_func (w_ir w) n0 k0 /\
               w_dyn w' n0 k0 = w_dyn w n0 k0;
  pd_var : forall n0, str_eqb n0 name = false -> w_var w' n0 = w_var w n0;
  pd_novar0 : w_var w name = None
}.

Theorem python_equals_dynamic_facts w w' name k rows vals : python_vs_dynamic w w' name k rows vals -> world_equiv w w'.
Proof.
  intros [Hres Hnb Hnc Hpy Hnodyn Hnofix Hnofun Hnovar Hdyn Hother Hvar Hvs] call name0 args s.
  rewrite !nstep_eq, !call_function_eq.
  destruct (key_eq (name0, length args) (name, k)) eqn:K.
  - apply key_eq_true in K. injection K as -> <-.
    rewrite Hnodyn, Hdyn, Hpy, Hnofix, Hnofun, Hnovar, drop_native_rows. unfold dyn_first, fallback. rewrite Hres, Hnc, Hnb.
    cbn [match_rows app]. destruct (match_rows rows args s) as [zs e]. destruct e; [reflexivity|]. rewrite app_nil_r. reflexivity.
  - destruct (Hother _ _ K) as [H1 [H2 H3]]. rewrite H1, H2, H3. f_equal.
    destruct (w_fix w name0 (length args)); [reflexivity|]. destruct (find_func (w_ir w) name0 (length args)); [reflexivity|].
    destruct (str_eqb_spec name0 name) as [->|NE].
    + rewrite Hvs, Hnovar. reflexivity.
    + rewrite (Hvar name0 (proj2 (str_eqb_neq name0 name) NE)). reflexivity.
Qed.

Corollary python_equals_dynamic_facts_nquery w w' name k rows vals : python_vs_dynamic w w' name k rows vals ->
  forall n qname args s, nquery n w qname args s = nquery n w' qname args s.
Proof. intros H. apply world_equiv_nquery. exact (python_equals_dynamic_facts w w' name k rows vals H). Qed.
