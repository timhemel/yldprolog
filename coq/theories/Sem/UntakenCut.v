(* A cut that stands in the text but is NOT reached on a particular call commits nothing.

   Reasoning statically about a cut ("after this, nothing can follow") - dropping the alternative B of ( .. ; B ) when
   the code to its left ends in the cut's `return`, or dropping the clauses behind a clause that starts with a cut -
   is wrong exactly when the cut is not executed: its branch is not taken, a goal to its left fails,
   or the clause is never entered.  The statements below are consequences of the reference semantics RefSem.sem (the
   semantics the compiled code is PROVED to compute: ControlCorrect.control_correct, ProgramCorrect) that say what must
   then still happen. *)
From Coq Require Import List Arith Bool.
Import ListNotations.
From YP Require Import Base.Str Lang.Ast Sem.Res Sem.RefSem Sem.SemLemmas.
From Coq Require Import String ZArith NArith.
From YP Require Import Term.Term Term.Fast Unify.Unify Unify.Fast Comp.IR Comp.CompileBody Comp.CompileClause Sem.Machine Sem.ClauseSem.

Section UntakenCut.
Variable S : Type.
Variable I : str -> list sterm -> S -> list S * bool.
Notation sem := (RefSem.sem I).

(* ( (C -> T ; !, E) ; B ): when C has an answer the cut of the else branch is not reached - T runs on C's first answer
   and, if T ends normally, B IS tried; when C has none the cut is reached: E runs, B is not tried, the clause is cut. *)
Lemma untaken_else_cut C T E B s :
  sem (BOr (BOr (BIf C T) (BAnd BCut E)) B) s =
  match opaque (sem C s) with
  | (x :: _, _) => por (sem T x) (sem B s)
  | ([], FNorm) => seqr (sem E) [s] FCut
  | ([], f) => ([], f)
  end.
Proof.
  rewrite sem_or_plain by reflexivity. rewrite sem_or_if.
  destruct (opaque (RefSem.sem I C s)) as [[|x r] e]; cbn [ite].
  - destruct e; cbn [RefSem.sem]; try reflexivity.
    (* the cut is reached: whatever E does, the result does not end normally, so B is not tried *)
    cbn [seqr]. destruct (RefSem.sem I E s) as [ys g]. destruct g; reflexivity.
  - reflexivity.
Qed.

(* in particular: if T ends normally on the first answer of C, every answer of B follows T's *)
Lemma untaken_else_cut_alternative_tried C T E B s x r e ts :
  opaque (sem C s) = (x :: r, e) -> sem T x = (ts, FNorm) ->
  sem (BOr (BOr (BIf C T) (BAnd BCut E)) B) s = (ts ++ fst (sem B s), snd (sem B s)).
Proof.
  intros HC HT. rewrite untaken_else_cut, HC, HT. unfold por. destruct (RefSem.sem I B s); reflexivity.
Qed.

(* ( (C -> !, T ; E) ; B ): the mirror image - the cut is reached iff C has an answer; otherwise E runs and, if it ends
   normally, B is tried *)
Lemma untaken_then_cut C T E B s :
  sem (BOr (BOr (BIf C (BAnd BCut T)) E) B) s =
  match opaque (sem C s) with
  | (x :: _, _) => seqr (sem T) [x] FCut
  | ([], FNorm) => por (sem E s) (sem B s)
  | ([], f) => ([], f)
  end.
Proof.
  rewrite sem_or_plain by reflexivity. rewrite sem_or_if.
  destruct (opaque (RefSem.sem I C s)) as [[|x r] e]; cbn [ite].
  - destruct e; reflexivity.
  - cbn [RefSem.sem seqr]. destruct (RefSem.sem I T x) as [ys g]. destruct g; reflexivity.
Qed.

(* ( (G, !, E) ; B ): a goal G that fails to the left of the cut - B is tried; G with an answer - B is not *)
Lemma guarded_cut_alternative G E B s :
  sem (BOr (BAnd G (BAnd BCut E)) B) s =
  match sem G s with
  | ([], FNorm) => sem B s
  | ([], g) => ([], g)
  | (x :: _, _) => seqr (sem E) [x] FCut
  end.
Proof.
  rewrite sem_or_plain by reflexivity. cbn [RefSem.sem].
  destruct (RefSem.sem I G s) as [[|x r] e].
  - cbn [seqr]. destruct e; try reflexivity. apply por_nil.
  - cbn [seqr]. destruct (RefSem.sem I E x) as [ys g]. destruct g; reflexivity.
Qed.

(* a continuation K behind the construct is run on the answers of whichever side was taken; it cannot bring back an
   alternative the cut removed, nor remove one the cut never touched: with C answered and T, K ending normally the
   answers are those of (T, K) followed by those of (B, K) *)
Lemma untaken_else_cut_with_continuation C T E B K s x r e :
  opaque (sem C s) = (x :: r, e) ->
  sem (BAnd (BOr (BOr (BIf C T) (BAnd BCut E)) B) K) s = bindr (por (sem T x) (sem B s)) (sem K).
Proof. intros HC. rewrite sem_and, untaken_else_cut, HC. reflexivity. Qed.
End UntakenCut.

(* Clause level: a clause that is not entered commits nothing.
   "The head consists of variables only" does NOT mean "the clause matches every call": a variable that occurs twice makes the head
   unification fail for arguments that do not unify with each other (head_args_by_pos gives None for such positions, so the compiled
   code unifies them).  When the head does not match, the body - whether or not it starts with a cut - is never looked at and the
   later clauses are tried, from the state in which the clause was entered. *)

Section ClauseNotEntered.
Variable call : str -> list term -> st -> list st * bool.

Lemma head_mismatch_skips_clause c rest cf :
  head_unify 0 (clause_pos c) (c_args c) (fst (clause_enter c cf)) (snd (clause_enter c cf)) = HFail ->
  clausesA call (c :: rest) cf = clausesA call rest (clause_enter c cf).
Proof.
  intros H. cbn [clausesA]. unfold clause_res.
  destruct (clause_enter c cf) as [r s]. cbn [fst snd] in H. rewrite H.
  destruct (clausesA call rest (r, s)); reflexivity.
Qed.

(* the same clause with ANY other body behaves alike on such a call: the cut in `d(X,X) :- !, ...` is irrelevant to it *)
Lemma head_mismatch_body_irrelevant name args b1 b2 rest cf :
  let c1 := {| c_name := name; c_args := args; c_body := b1 |} in
  let c2 := {| c_name := name; c_args := args; c_body := b2 |} in
  clause_fv_body c1 = clause_fv_body c2 ->
  head_unify 0 (clause_pos c1) (c_args c1) (fst (clause_enter c1 cf)) (snd (clause_enter c1 cf)) = HFail ->
  clausesA call (c1 :: rest) cf = clausesA call (c2 :: rest) cf.
Proof.
  intros c1 c2 Hfv H.
  assert (He : clause_enter c2 cf = clause_enter c1 cf).
  { unfold clause_enter, clause_fv_head, clause_pos in *. cbn [c_args] in *. rewrite <- Hfv. reflexivity. }
  rewrite (head_mismatch_skips_clause c1 rest cf H).
  rewrite (head_mismatch_skips_clause c2 rest cf); [rewrite He; reflexivity|].
  rewrite He. exact H.
Qed.
End ClauseNotEntered.
