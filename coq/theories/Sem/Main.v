(* The end-to-end statement for compiled programs: the model of the emitted code computes the answers of
   SLD resolution with every clause renamed apart (SldR.solveR), in the same order, with the same
   multiplicity and the same way of ending, up to an injective renaming of the cells created during the
   query (composition of Sem/ProgramCorrect.v and Sem/RenameSim.v). *)
From Coq Require Import List Arith.
Import ListNotations.
From YP Require Import Base.Str Term.Term Unify.Unify Unify.Bounded Unify.Rename Lang.Ast Comp.IR Comp.CompileClause
  Sem.Machine Sem.ClauseSem Sem.SldR Sem.ProgramCorrect Sem.Fresh Sem.RenameSim.
From Coq Require Import Bool NArith.
From YP Require Import Lang.Cst Lang.Unquote Lang.Front Comp.CompileBody Comp.Emit Comp.PyRepr Comp.Limits Comp.CompileText
  Sem.ControlCorrect.

Theorem compiled_program_is_sld : forall n p ir,
  compile_program p = Some ir -> good_program p ->
  forall name args s, wf (sto s) -> inv s -> Forall (bounded (nxt s)) args ->
  Forall2 (same_answer s) (fst (query n ir name args s)) (fst (solveR n p name args s)) /\
  snd (query n ir name args s) = snd (solveR n p name args s).
Proof.
  intros n p ir HC G name args s W I B.
  rewrite (machine_computes_clause_semantics n p ir HC G name args s).
  apply naming_equals_renaming_apart; assumption.
Qed.

(* From source TEXT to answers: whatever text the model compiler accepts (lexer, parser, visitor, compiler,
   static limits) is a program P whose emitted code computes, for every query, the answers of SLD
   resolution of P with all clause variables renamed apart (up to renaming of the cells created during the
   query).  The only side condition of compiled_program_is_sld - no internal $CUTIF marker in a body - holds
   for every program the front end produces. *)

Lemma v_goal_nomark sp k b k' : v_goal sp k = Some (b, k') -> nomark b = true.
Proof.
  destruct sp as [| | |t]; simpl; intros H; try (injection H as <- _; reflexivity).
  destruct (v_callable t k) as [[[f args] k1]|]; [|discriminate]. injection H as <- _. reflexivity.
Qed.

Lemma v_pe_nomark p : forall k b k', v_pe p k = Some (b, k') -> nomark b = true.
Proof.
  induction p as [sp|a IHa|a IHa b0 IHb|a IHa b0 IHb|a IHa b0 IHb|a IHa]; intros k b k' H; cbn [v_pe] in H.
  (* the three binary constructs alike *)
  3-5: destruct (v_pe a k) as [[a' k1]|] eqn:E; [|discriminate]; cbn in H;
       destruct (v_pe b0 k1) as [[b' k2]|] eqn:E2; [|discriminate]; injection H as <- _;
       cbn [nomark]; rewrite (IHa _ _ _ E), (IHb _ _ _ E2); reflexivity.
  - exact (v_goal_nomark _ _ _ _ H).
  - destruct (v_pe a k) as [[a' k1]|] eqn:E; [|discriminate]. injection H as <- _. exact (IHa _ _ _ E).
  - exact (IHa _ _ _ H).
Qed.

Lemma v_clause_good c k cl k' : v_clause c k = Some (cl, k') -> good_clause cl.
Proof.
  destruct c as [h|h b]; cbn [v_clause]; intros H.
  - destruct (v_head h k) as [[[f args] k1]|]; [|discriminate]. injection H as <- _. reflexivity.
  - destruct (v_head h k) as [[[f args] k1]|]; [|discriminate]. cbn in H.
    destruct (v_pe b k1) as [[b' k2]|] eqn:E; [|discriminate]. injection H as <- _.
    exact (v_pe_nomark _ _ _ _ E).
Qed.

Lemma v_program_good cst : forall k p k', v_program cst k = Some (p, k') -> good_program p.
Proof.
  induction cst as [|c cst IH]; intros k p k' H; cbn [v_program] in H.
  - injection H as <- _. constructor.
  - destruct c as [cc|sp].
    + destruct (v_clause cc k) as [[cl k1]|] eqn:E; [|discriminate]. cbn in H.
      destruct (v_program cst k1) as [[l k2]|] eqn:E1; [|discriminate]. injection H as <- _.
      constructor; [exact (v_clause_good _ _ _ _ E)|exact (IH _ _ _ E1)].
    + destruct (v_directive sp k) as [k1|]; [|discriminate]. cbn in H. exact (IH _ _ _ H).
Qed.

Theorem front_good s p : front s = Some p -> good_program p.
Proof.
  unfold front. destruct (Lexer.lex s) as [ts|]; [|discriminate]. cbn.
  destruct (Parser.parse ts) as [cst|]; [|discriminate]. cbn.
  destruct (v_program cst 0) as [[p0 k]|] eqn:E; [|discriminate]. cbn. intros H. injection H as <-.
  exact (v_program_good _ _ _ _ E).
Qed.

Theorem source_text_is_sld : forall printable s text,
  compile_text printable s = CText text ->
  exists p ir, front s = Some p /\ compile_program p = Some ir /\ text = emit_program (py_repr printable) ir /\
    forall n name args st, wf (sto st) -> inv st -> Forall (bounded (nxt st)) args ->
      Forall2 (same_answer st) (fst (query n ir name args st)) (fst (solveR n p name args st)) /\
      snd (query n ir name args st) = snd (solveR n p name args st).
Proof.
  intros printable s text H. unfold compile_text in H.
  destruct (front s) as [p|] eqn:F; [|discriminate]. unfold compile_ast in H.
  destruct (compile_program p) as [ir|] eqn:C; [|discriminate].
  destruct (NumeralName.ir_bad ir); [discriminate|]. unfold finish in H.
  destruct (negb (ir_nums_ok ir)); [discriminate|]. destruct (py_limits ir); [|discriminate].
  injection H as <-. exists p, ir. split; [reflexivity|]. split; [exact C|]. split; [reflexivity|].
  intros n name args st. apply (compiled_program_is_sld n p ir C (front_good s p F)).
Qed.
