(* C01: a numeral denotes its VALUE, however it is spelled.  The grammar's NUMERAL is DIGIT+, so `007`, `07` and `7`
   are three spellings of the integer 7; the emitted code is str(int(text)) for all of them (IR: ENum digits, evaluated by
   Machine.eval_expr to TInt (digits_value digits)).  Consequently the goals  007 = 7  and  007 \= 7  behave as  7 = 7  and
   7 \= 7 : the first succeeds exactly once and leaves the state as it is, the second fails.  (A compiler that decides such a
   goal at compile time by comparing the TEXTS of the two numerals is wrong exactly here.) *)
From Coq Require Import String.
From Coq Require Import List Arith Bool ZArith NArith.
Import ListNotations.
From YP Require Import Base.Str Term.Term Term.Fast Unify.Unify Unify.Fast Lang.Ast Lang.Literals Comp.IR Comp.CompileBody
  Sem.Machine Sem.ClauseSem Sem.SpecLemmas.
Local Open Scope list_scope.

(* a string of characters `0` *)
Definition zeros (z : str) : Prop := forallb (N.eqb 48) z = true.

Lemma digits_value_leading_zeros z w : zeros z -> digits_value (z ++ w) = digits_value w.
Proof.
  intros H. unfold digits_value. f_equal. exact (num_value_leading_zeros z w H).
Qed.

(* the emitted expression of a numeral evaluates to the same term whatever the number of leading zeros *)
Theorem numeral_code_value : forall r z w, zeros z ->
  eval_expr r (compile_expression (SNum (z ++ w))) = eval_expr r (compile_expression (SNum w)).
Proof.
  intros r z w H. cbn [compile_expression eval_expr]. rewrite (digits_value_leading_zeros z w H). reflexivity.
Qed.

Lemma unify_int_same s v : unify_fast ufuel s (TInt v) (TInt v) = UOk s.
Proof.
  (* ufuel is only shown to be a successor, so that no tactic meets its 400 constructors *)
  change ufuel with (S (Nat.pred ufuel)). rewrite unify_fast_eq. cbn [unify].
  rewrite !den_int, Z.eqb_refl. reflexivity.
Qed.

(* L = R between two spellings of the same number: exactly one answer, the state unchanged, no error *)
Theorem numeral_eq_any_spelling : forall call r z w s, zeros z ->
  builtin call (s_ "=") [eval_expr r (compile_expression (SNum (z ++ w))); eval_expr r (compile_expression (SNum w))] s
  = Some ([s], false).
Proof.
  intros call r z w s H. rewrite numeral_code_value by exact H. rewrite eq_spec.
  cbn [compile_expression eval_expr]. unfold unify_st. rewrite unify_int_same. destruct s; reflexivity.
Qed.

(* L \= R between two spellings of the same number: no answer, no error *)
Theorem numeral_neq_any_spelling : forall call r z w s, zeros z ->
  builtin call (s_ "\=") [eval_expr r (compile_expression (SNum (z ++ w))); eval_expr r (compile_expression (SNum w))] s
  = Some ([], false).
Proof.
  intros call r z w s H. rewrite numeral_code_value by exact H. rewrite neq_spec.
  cbn [compile_expression eval_expr]. rewrite unify_int_same. reflexivity.
Qed.

(* non-vacuity: 007 against 7 *)
Example numeral_spelling_nonvacuous :
  zeros (d "00") /\
  eval_expr [] (compile_expression (SNum (d "00" ++ d "7"))) = TInt 7 /\
  eval_expr [] (compile_expression (SNum (d "7"))) = TInt 7.
Proof. repeat split. Qed.
