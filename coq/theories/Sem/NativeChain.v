(* C20: ONE predicate defined from MIXED SOURCES.

   The engine of Sem/Native.v keeps at most one definition per key (a registered Python predicate hides the function
   of the loaded script).  engine.py allows more:

       def chain_functions(func1, func2):
           funcs = [f for f in [func1, func2] if f is not None]
           def chain( *args ):
               return itertools.chain( *[f( *args ) for f in funcs])
           return chain

       def load_script_from_string(self, s, fn='', overwrite=True):
           new_context = self.eval_context.copy(); exec(compile(s, fn, 'exec'), new_context)
           for k, v in new_context.items():
               if self.eval_context.get(k) != v:
                   if overwrite: self.eval_context[k] = v
                   else:         self.eval_context[k] = chain_functions(self.eval_context.get(k), v)

       def register_function(self, name, func, arity=None):      # plain assignment
           self.eval_context[f'{name}_{arity}'] = func            # or f'{name}_n'

   so the value under a key '<name>_<k>' is a CHAIN: a list of definitions, each a registered Python predicate or the
   generator function of some loaded script (scripts are compiled separately), built by any sequence of
   register_function / load_script(overwrite=True) (both: the key := [the new definition]) and
   load_script(overwrite=False) (the key := old chain ++ [the new definition]).  Calling the chain runs the members
   in order from the same state; the yielded values are passed through (nobody looks at them: a member that
   yields True - a compiled clause that cuts, a Python predicate that likes True - is followed by the next
   member all the same); an exception in a member ends the chain.

   Here: the engine with chains (cquery), proved to be nquery on the worlds of Sem/Native.v (embed), the laws of
   chains (concatenation), and interchangeability MEMBER BY MEMBER: engines whose chains agree member by member for a
   value-ignoring consumer answer every query alike - in particular a chain member that is a Python predicate over
   ground rows, whatever it yields, against the compiled facts, in every position of every chain; and the same for
   engines BUILT by the same sequence of operations, with register_function(python predicate) on one side and
   load_script(its facts, overwrite=True) on the other. *)
From Coq Require Import String.
From Coq Require Import List Arith Bool.
Import ListNotations.
From YP Require Import Base.Str Term.Term Term.Fast Unify.Unify Unify.Fast Lang.Ast Comp.IR Comp.CompileBody Comp.CompileClause
  Sem.Res Sem.IRSem Sem.Machine Sem.ClauseSem Sem.ProgramCorrect Sem.Native Sem.NativeThms Sem.NativeFacts.
From YP Require Engine.Resolve.
Local Open Scope string_scope.
Local Open Scope list_scope.

Inductive cdef :=
| CNat (f : nfun)        (* a registered Python predicate *)
| CIr (f : func).        (* the generator function of a loaded script *)

Definition chain := list cdef.

Record cworld := {
  c_fix : str -> nat -> option chain;      (* eval_context['<name>_<k>'] *)
  c_var : str -> option nfun;              (* eval_context['<name>_n']: only register_function(arity=-1) writes it *)
  c_dyn : str -> nat -> list frow
}.

Definition run_def (call : callT) (d : cdef) (args : list term) (s : st) : list st * bool :=
  match d with
  | CNat f => drop (f args s)
  | CIr f =>
      let '(ys, k) := run_function (iter call) assign (fn_body f) (bind_args 0 args, s) in
      (map snd ys, match k with CErr => true | _ => false end)
  end.

(* itertools.chain over the members' generators: every member from the state of the call *)
Fixpoint run_chain (call : callT) (ds : chain) (args : list term) (s : st) : list st * bool :=
  match ds with
  | [] => ([], false)
  | d :: r =>
      let '(xs, e) := run_def call d args s in
      if e then (xs, true)
      else let '(ys, e') := run_chain call r args s in (xs ++ ys, e')
  end.

Definition ccall_function (call : callT) (w : cworld) (name : str) (args : list term) (s : st) : list st * bool :=
  match c_fix w name (length args) with
  | Some ds => run_chain call ds args s
  | None =>
      if str_eqb name (s_ "call") then
        match c_var w name with
        | Some f => drop (f args s)
        | None => match builtin call name args s with Some r => r | None => ([], false) end
        end
      else
        match builtin call name args s with
        | Some r => r
        | None => match c_var w name with Some f => drop (f args s) | None => ([], false) end
        end
  end.

Definition cstep (call : callT) (w : cworld) (name : str) (args : list term) (s : st) : list st * bool :=
  let '(ds, de) := match_rows (c_dyn w name (length args)) args s in
  if de then (ds, true)
  else if Resolve.reserved name then (ds, false)
  else let '(fs, fe) := ccall_function call w name args s in (ds ++ fs, fe).

Fixpoint cquery (n : nat) (w : cworld) (name : str) (args : list term) (s : st) {struct n} : list st * bool :=
  match n with
  | O => ([], true)
  | S n' => cstep (cquery n' w) w name args s
  end.

(* the values a top-level consumer sees for a chain of Python predicates only *)
Fixpoint chain_values (ds : chain) (args : list term) (s : st) : option (list bool) :=
  match ds with
  | [] => Some []
  | CNat f :: r =>
      if snd (f args s) then Some (map snd (fst (f args s)))
      else match chain_values r args s with Some l => Some (map snd (fst (f args s)) ++ l) | None => None end
  | CIr _ :: _ => None
  end.

Lemma run_def_ir call f args s : run_def call (CIr f) args s = run_code call (fn_body f) args s.
Proof. reflexivity. Qed.

Lemma ccall_function_eq call w name args s :
  ccall_function call w name args s =
  match c_fix w name (length args) with
  | Some ds => run_chain call ds args s
  | None => fallback call (c_var w name) name args s
  end.
Proof. reflexivity. Qed.

Lemma cstep_eq call w name args s :
  cstep call w name args s = dyn_first (c_dyn w name (length args)) name args s (ccall_function call w name args s).
Proof. reflexivity. Qed.

Lemma run_chain_nil call args s : run_chain call [] args s = ([], false).
Proof. reflexivity. Qed.

Lemma run_chain_one call d args s : run_chain call [d] args s = run_def call d args s.
Proof.
  cbn [run_chain]. destruct (run_def call d args s) as [xs e]. destruct e; [reflexivity|]. rewrite app_nil_r. reflexivity.
Qed.

(* chain_functions(chain_functions(.., ..), ..): the answers of ds1 ++ ds2 are the answers of ds1 followed by those of ds2;
   an exception in ds1 ends everything *)
Theorem run_chain_app call ds1 ds2 args s :
  run_chain call (ds1 ++ ds2) args s =
  (if snd (run_chain call ds1 args s) then (fst (run_chain call ds1 args s), true)
   else (fst (run_chain call ds1 args s) ++ fst (run_chain call ds2 args s), snd (run_chain call ds2 args s))).
Proof.
  induction ds1 as [|d r IH].
  - cbn [app run_chain fst snd]. destruct (run_chain call ds2 args s). reflexivity.
  - cbn [app run_chain]. destruct (run_def call d args s) as [xs e]. destruct e; [reflexivity|].
    rewrite IH. destruct (run_chain call r args s) as [ys e1]. cbn [fst snd]. destruct e1; [reflexivity|].
    destruct (run_chain call ds2 args s) as [zs e2]. cbn [fst snd]. rewrite app_assoc. reflexivity.
Qed.

(* the chain of a definition and a later one = the concatenation of their answers *)
Corollary run_chain_two call d1 d2 args s :
  run_chain call [d1; d2] args s =
  (if snd (run_def call d1 args s) then (fst (run_def call d1 args s), true)
   else (fst (run_def call d1 args s) ++ fst (run_def call d2 args s), snd (run_def call d2 args s))).
Proof.
  change [d1; d2] with ([d1] ++ [d2]). rewrite run_chain_app, !run_chain_one. reflexivity.
Qed.

Section CallExtC.
Variables c1 c2 : callT.
Hypothesis Hc : forall name args s, c1 name args s = c2 name args s.

Lemma run_def_ext d args s : run_def c1 d args s = run_def c2 d args s.
Proof. destruct d as [f|f]; [reflexivity|]. rewrite !run_def_ir. apply (run_code_ext c1 c2 Hc). Qed.

Lemma run_chain_ext ds args s : run_chain c1 ds args s = run_chain c2 ds args s.
Proof.
  induction ds as [|d r IH]; [reflexivity|]. cbn [run_chain]. rewrite run_def_ext, IH. reflexivity.
Qed.

Lemma ccall_function_ext w name args s : ccall_function c1 w name args s = ccall_function c2 w name args s.
Proof.
  rewrite !ccall_function_eq. destruct (c_fix w name (length args)); [apply run_chain_ext|apply (fallback_ext c1 c2 Hc)].
Qed.

Lemma cstep_ext w name args s : cstep c1 w name args s = cstep c2 w name args s.
Proof. rewrite !cstep_eq, ccall_function_ext. reflexivity. Qed.
End CallExtC.

Definition cworld_equiv (w1 w2 : cworld) : Prop :=
  forall call name args s, cstep call w1 name args s = cstep call w2 name args s.

Lemma cworld_equiv_refl w : cworld_equiv w w.
Proof. intros call name args s. reflexivity. Qed.
Lemma cworld_equiv_sym w1 w2 : cworld_equiv w1 w2 -> cworld_equiv w2 w1.
Proof. intros H call name args s. symmetry. apply H. Qed.
Lemma cworld_equiv_trans w1 w2 w3 : cworld_equiv w1 w2 -> cworld_equiv w2 w3 -> cworld_equiv w1 w3.
Proof. intros H1 H2 call name args s. transitivity (cstep call w2 name args s); [apply H1|apply H2]. Qed.

Theorem cworld_equiv_cquery w1 w2 : cworld_equiv w1 w2 ->
  forall n name args s, cquery n w1 name args s = cquery n w2 name args s.
Proof.
  intros H. induction n as [|n IH]; intros name args s; [reflexivity|].
  cbn [cquery]. rewrite (cstep_ext (cquery n w1) (cquery n w2) IH). apply H.
Qed.

Definition embed (w : world) : cworld :=
  {| c_fix := fun name k =>
       match w_fix w name k with
       | Some f => Some [CNat f]
       | None => match find_func (w_ir w) name k with Some f => Some [CIr f] | None => None end
       end;
     c_var := w_var w;
     c_dyn := w_dyn w |}.

Lemma cstep_embed call w name args s : cstep call (embed w) name args s = nstep call w name args s.
Proof.
  rewrite cstep_eq, nstep_eq, ccall_function_eq, call_function_eq. cbn [embed c_fix c_var c_dyn]. f_equal.
  destruct (w_fix w name (length args)) as [f|]; [apply run_chain_one|].
  destruct (find_func (w_ir w) name (length args)) as [f|]; [apply run_chain_one|reflexivity].
Qed.

Theorem cquery_refines_nquery w : forall n name args s, cquery n (embed w) name args s = nquery n w name args s.
Proof.
  induction n as [|n IH]; intros name args s; [reflexivity|].
  cbn [cquery nquery]. rewrite (cstep_ext (cquery n (embed w)) (nquery n w) IH). apply cstep_embed.
Qed.

(* two definitions under a key of arity k that a value-ignoring consumer cannot tell apart, whatever the calls mean *)
Definition def_equiv (k : nat) (d1 d2 : cdef) : Prop :=
  forall call args s, length args = k -> run_def call d1 args s = run_def call d2 args s.

Lemma def_equiv_refl k d : def_equiv k d d.
Proof. intros call args s _. reflexivity. Qed.
Lemma def_equiv_sym k d1 d2 : def_equiv k d1 d2 -> def_equiv k d2 d1.
Proof. intros H call args s L. symmetry. apply H. exact L. Qed.

(* what a Python predicate yields is irrelevant: only the answers count *)
Lemma def_equiv_yield k f1 f2 : (forall args s, drop (f1 args s) = drop (f2 args s)) -> def_equiv k (CNat f1) (CNat f2).
Proof. intros H call args s _. apply H. Qed.

Lemma def_equiv_rows_vals k rows vals1 vals2 : def_equiv k (CNat (native_rows rows vals1)) (CNat (native_rows rows vals2)).
Proof. apply def_equiv_yield. intros args s. rewrite !drop_native_rows. reflexivity. Qed.

(* a Python predicate over ground rows, whatever it yields = the generator function compiled from the facts *)
Lemma def_equiv_facts name k rows vals f cnt cnt' :
  Forall (fun row => ground_row row = true /\ length row = k) rows ->
  compile_clauses (map (fact_clause name) rows) cnt = Some (fn_body f, cnt') ->
  def_equiv k (CNat (native_rows (map row_of rows) vals)) (CIr f).
Proof.
  intros F HC call args s L. subst k.
  apply (native_equals_compiled_facts call name rows vals cnt (fn_body f) cnt' args s HC F).
Qed.

Definition chain_equiv (k : nat) (o1 o2 : option chain) : Prop :=
  match o1, o2 with
  | Some l1, Some l2 => Forall2 (def_equiv k) l1 l2
  | None, None => True
  | _, _ => False
  end.

Lemma chain_equiv_refl k o : chain_equiv k o o.
Proof.
  destruct o as [l|]; [|exact I]. cbn [chain_equiv]. induction l as [|d r IH]; constructor; [apply def_equiv_refl|exact IH].
Qed.

Lemma run_chain_equiv call k l1 l2 args s : Forall2 (def_equiv k) l1 l2 -> length args = k ->
  run_chain call l1 args s = run_chain call l2 args s.
Proof.
  intros F L. induction F as [|d1 d2 r1 r2 Hd _ IH]; [reflexivity|].
  cbn [run_chain]. rewrite (Hd call args s L), IH. reflexivity.
Qed.

Definition chain_sim (k : nat) (o1 o2 : option chain) : Prop :=
  match o1, o2 with
  | Some l1, Some l2 => forall call args s, length args = k -> run_chain call l1 args s = run_chain call l2 args s
  | None, None => True
  | _, _ => False
  end.

Lemma chain_equiv_sim k o1 o2 : chain_equiv k o1 o2 -> chain_sim k o1 o2.
Proof.
  destruct o1 as [l1|], o2 as [l2|]; cbn [chain_equiv chain_sim]; try tauto.
  intros F call args s L. apply (run_chain_equiv call k l1 l2 args s F L).
Qed.

Record chains_agree (w1 w2 : cworld) : Prop := {
  ca_fix : forall name k, chain_sim k (c_fix w1 name k) (c_fix w2 name k);
  ca_var : forall name, ofun_eq (c_var w1 name) (c_var w2 name);
  ca_dyn : forall name k, c_dyn w1 name k = c_dyn w2 name k
}.

Lemma chains_agree_equiv w1 w2 : chains_agree w1 w2 -> cworld_equiv w1 w2.
Proof.
  intros [Hf Hv Hd] call name args s. rewrite !cstep_eq, Hd. f_equal.
  rewrite !ccall_function_eq. specialize (Hf name (length args)).
  destruct (c_fix w1 name (length args)) as [l1|], (c_fix w2 name (length args)) as [l2|]; cbn [chain_sim] in Hf; try contradiction.
  - apply Hf. reflexivity.
  - apply fallback_equiv, Hv.
Qed.

Theorem chains_interchangeable w1 w2 : chains_agree w1 w2 ->
  forall n name args s, cquery n w1 name args s = cquery n w2 name args s.
Proof. intros H. apply cworld_equiv_cquery. apply chains_agree_equiv. exact H. Qed.

Record members_agree (w1 w2 : cworld) : Prop := {
  ma_fix : forall name k, chain_equiv k (c_fix w1 name k) (c_fix w2 name k);
  ma_var : forall name, ofun_eq (c_var w1 name) (c_var w2 name);
  ma_dyn : forall name k, c_dyn w1 name k = c_dyn w2 name k
}.

Lemma members_agree_equiv w1 w2 : members_agree w1 w2 -> cworld_equiv w1 w2.
Proof.
  intros [Hf Hv Hd]. apply chains_agree_equiv. split; [|exact Hv|exact Hd].
  intros name k. apply chain_equiv_sim, Hf.
Qed.

(* engines whose chains agree member by member answer every query alike, at every depth, in any context *)
Theorem chain_members_interchangeable w1 w2 : members_agree w1 w2 ->
  forall n name args s, cquery n w1 name args s = cquery n w2 name args s.
Proof. intros H. apply cworld_equiv_cquery. apply members_agree_equiv. exact H. Qed.

Inductive op :=
| OReg (name : str) (k : nat) (f : nfun)          (* register_function(name, f) / (name, f, arity=k) *)
| ORegVar (name : str) (f : nfun)                 (* register_function(name, f, arity=-1) *)
| OLoad (ir : ir_program) (overwrite : bool)      (* load_script_from_string(text of ir, overwrite=..) *)
| OAssert (name : str) (row : frow).              (* assert_fact(name, row) *)

Definition set_fix (t : str -> nat -> option chain) (name : str) (k : nat) (v : chain) : str -> nat -> option chain :=
  fun n0 k0 => if key_eq (n0, k0) (name, k) then Some v else t n0 k0.

(* for k, v in new_context.items(): if eval_context.get(k) != v: replace / chain after the old value *)
Definition load_fix (t : str -> nat -> option chain) (ir : ir_program) (ow : bool) : str -> nat -> option chain :=
  fun n0 k0 =>
    match find_func ir n0 k0 with
    | Some f => if ow then Some [CIr f] else Some (match t n0 k0 with Some old => old ++ [CIr f] | None => [CIr f] end)
    | None => t n0 k0
    end.

Definition apply_op (w : cworld) (o : op) : cworld :=
  match o with
  | OReg name k f => {| c_fix := set_fix (c_fix w) name k [CNat f]; c_var := c_var w; c_dyn := c_dyn w |}
  | ORegVar name f => {| c_fix := c_fix w; c_var := fun n0 => if str_eqb n0 name then Some f else c_var w n0; c_dyn := c_dyn w |}
  | OLoad ir ow => {| c_fix := load_fix (c_fix w) ir ow; c_var := c_var w; c_dyn := c_dyn w |}
  | OAssert name row =>
      {| c_fix := c_fix w; c_var := c_var w;
         c_dyn := fun n0 k0 => if key_eq (n0, k0) (name, length (r_vals row)) then c_dyn w n0 k0 ++ [row] else c_dyn w n0 k0 |}
  end.

Definition cempty : cworld := {| c_fix := fun _ _ => None; c_var := fun _ => None; c_dyn := fun _ _ => [] |}.

Definition build (w : cworld) (ops : list op) : cworld := fold_left apply_op ops w.

(* two operations that do the same to the engine, up to interchangeable members *)
Inductive op_twin : op -> op -> Prop :=
| twin_same o : op_twin o o
| twin_yield name k f1 f2 : (forall args s, drop (f1 args s) = drop (f2 args s)) -> op_twin (OReg name k f1) (OReg name k f2)
| twin_yield_var name f1 f2 : (forall args s, drop (f1 args s) = drop (f2 args s)) -> op_twin (ORegVar name f1) (ORegVar name f2)
  (* register_function(name, python predicate over the rows)  ~  load_script(name(row_1). .. name(row_n)., overwrite=True) *)
| twin_facts name k rows vals f cnt cnt' :
    rows <> [] ->
    Forall (fun row => ground_row row = true /\ length row = k) rows ->
    compile_clauses (map (fact_clause name) rows) cnt = Some (fn_body f, cnt') ->
    fn_name f = name -> fn_arity f = k ->
    op_twin (OReg name k (native_rows (map row_of rows) vals)) (OLoad [f] true)
| twin_facts_rev name k rows vals f cnt cnt' :
    rows <> [] ->
    Forall (fun row => ground_row row = true /\ length row = k) rows ->
    compile_clauses (map (fact_clause name) rows) cnt = Some (fn_body f, cnt') ->
    fn_name f = name -> fn_arity f = k ->
    op_twin (OLoad [f] true) (OReg name k (native_rows (map row_of rows) vals)).

Lemma find_func_one f n0 k0 :
  find_func [f] n0 k0 = if key_eq (n0, k0) (fn_name f, fn_arity f) then Some f else None.
Proof.
  cbn [find_func]. unfold key_eq. cbn [fst snd]. rewrite (str_eqb_sym (fn_name f) n0), (Nat.eqb_sym (fn_arity f) k0).
  destruct (str_eqb n0 (fn_name f) && Nat.eqb k0 (fn_arity f)); reflexivity.
Qed.

Lemma load_fix_one t f n0 k0 : load_fix t [f] true n0 k0 = set_fix t (fn_name f) (fn_arity f) [CIr f] n0 k0.
Proof. unfold load_fix, set_fix. rewrite find_func_one. destruct (key_eq (n0, k0) (fn_name f, fn_arity f)); reflexivity. Qed.

Lemma set_fix_equiv t1 t2 name k d1 d2 n0 k0 : chain_equiv k0 (t1 n0 k0) (t2 n0 k0) -> def_equiv k d1 d2 ->
  chain_equiv k0 (set_fix t1 name k [d1] n0 k0) (set_fix t2 name k [d2] n0 k0).
Proof.
  intros Ht Hd. unfold set_fix. destruct (key_eq (n0, k0) (name, k)) eqn:K; [|exact Ht].
  apply key_eq_true in K. injection K as -> ->. cbn [chain_equiv]. constructor; [exact Hd|constructor].
Qed.

Lemma chain_equiv_app k o1 o2 d1 d2 : chain_equiv k o1 o2 -> def_equiv k d1 d2 ->
  chain_equiv k (Some (match o1 with Some old => old ++ [d1] | None => [d1] end))
                (Some (match o2 with Some old => old ++ [d2] | None => [d2] end)).
Proof.
  intros H Hd. destruct o1 as [l1|], o2 as [l2|]; cbn [chain_equiv] in *; try contradiction.
  - apply Forall2_app; [exact H|]. constructor; [exact Hd|constructor].
  - constructor; [exact Hd|constructor].
Qed.

Lemma apply_op_twin w1 w2 o1 o2 : members_agree w1 w2 -> op_twin o1 o2 -> members_agree (apply_op w1 o1) (apply_op w2 o2).
Proof.
  intros [Hf Hv Hd] T. destruct T as [o|name k f1 f2 H|name f1 f2 H|name k rows vals f cnt cnt' NE F HC Hn Hk|name k rows vals f cnt cnt' NE F HC Hn Hk].
  - destruct o as [name k f|name f|ir ow|name row]; split; cbn [apply_op c_fix c_var c_dyn]; try assumption.
    + (* OReg: c_fix *) intros n0 k0. apply set_fix_equiv; [apply Hf|apply def_equiv_refl].
    + (* ORegVar: c_var *) intros n0. destruct (str_eqb n0 name); [apply ofun_eq_refl|apply Hv].
    + (* OLoad: c_fix *) intros n0 k0. unfold load_fix. destruct (find_func ir n0 k0) as [f|]; [|apply Hf].
      destruct ow; [apply chain_equiv_refl|]. apply chain_equiv_app; [apply Hf|apply def_equiv_refl].
    + (* OAssert: c_dyn *) intros n0 k0. rewrite Hd. reflexivity.
  - split; cbn [apply_op c_fix c_var c_dyn]; [intros n0 k0|exact Hv|exact Hd].
    apply set_fix_equiv; [apply Hf|apply def_equiv_yield, H].
  - split; cbn [apply_op c_fix c_var c_dyn]; [exact Hf|intros n0|exact Hd].
    destruct (str_eqb n0 name); [exact H|apply Hv].
  - split; cbn [apply_op c_fix c_var c_dyn]; [intros n0 k0|exact Hv|exact Hd].
    rewrite load_fix_one, Hn, Hk. apply set_fix_equiv; [apply Hf|]. exact (def_equiv_facts name k rows vals f cnt cnt' F HC).
  - split; cbn [apply_op c_fix c_var c_dyn]; [intros n0 k0|exact Hv|exact Hd].
    rewrite load_fix_one, Hn, Hk. apply set_fix_equiv; [apply Hf|]. exact (def_equiv_sym _ _ _ (def_equiv_facts name k rows vals f cnt cnt' F HC)).
Qed.

Lemma build_twin ops1 ops2 : Forall2 op_twin ops1 ops2 -> forall w1 w2, members_agree w1 w2 ->
  members_agree (build w1 ops1) (build w2 ops2).
Proof.
  intros F. induction F as [|o1 o2 r1 r2 T _ IH]; intros w1 w2 H; [exact H|].
  cbn [build fold_left]. apply IH. apply apply_op_twin; assumption.
Qed.

Lemma members_agree_refl w : members_agree w w.
Proof. split; intros; [apply chain_equiv_refl|apply ofun_eq_refl|reflexivity]. Qed.

(* engines built by the same sequence of register_function / load_script (overwrite or not) / assert_fact, where any of the
   register_function(python predicate over ground rows, yielding anything) is replaced by load_script(its facts,
   overwrite=True) - or the other way round - answer every query alike, at every depth *)
Theorem mixed_sources_interchangeable ops1 ops2 : Forall2 op_twin ops1 ops2 ->
  forall n name args s, cquery n (build cempty ops1) name args s = cquery n (build cempty ops2) name args s.
Proof.
  intros F. apply chain_members_interchangeable. apply build_twin; [exact F|apply members_agree_refl].
Qed.

(* what a chain is after  register_function(p, f); load_script(script defining p/k as g, overwrite=False):  [f; g],
   whose answers are f's followed by g's (run_chain_two), whatever f yields *)
Lemma build_reg_then_load w name k f g ir :
  find_func ir name k = Some g ->
  c_fix (build w [OReg name k f; OLoad ir false]) name k = Some [CNat f; CIr g].
Proof.
  intros H. cbn [build fold_left apply_op c_fix]. unfold load_fix, set_fix. rewrite H, key_eq_refl. reflexivity.
Qed.

Lemma build_load_then_reg w name k f ir ow :
  c_fix (build w [OLoad ir ow; OReg name k f]) name k = Some [CNat f].
Proof. cbn [build fold_left apply_op c_fix]. unfold set_fix. rewrite key_eq_refl. reflexivity. Qed.

Lemma build_reg_then_overwrite w name k f g ir :
  find_func ir name k = Some g ->
  c_fix (build w [OReg name k f; OLoad ir true]) name k = Some [CIr g].
Proof. intros H. cbn [build fold_left apply_op c_fix]. unfold load_fix. rewrite H. reflexivity. Qed.

(* a chain against ONE program

   register_function(p, python predicate over the rows); load_script(script with clauses cs2 of p/k, overwrite=False)
   answers like the single script   p(row_1). .. p(row_n). cs2   - the Python predicate's rows are the FIRST clauses of the
   predicate, whatever it yields.  (A compiled member that cuts does not stop the chain, a cut in one script does stop the
   later clauses: so this needs the first member to be cut-free, which rows are.) *)

Definition fin_err (f : fin) : bool := match f with FErr => true | _ => false end.

Lemma run_def_clauses call cs cnt cnt' f args s :
  compile_clauses cs cnt = Some (fn_body f, cnt') -> Forall good_clause cs ->
  run_def call (CIr f) args s =
  (map snd (fst (clausesA call cs (bind_args 0 args, s))), fin_err (snd (clausesA call cs (bind_args 0 args, s)))).
Proof. intros HC G. rewrite run_def_ir, (run_clauses call cs cnt (fn_body f) cnt' args s HC G). reflexivity. Qed.

(* entering a fact clause changes nothing, so the clauses after the facts start from the state of the call *)
Lemma clausesA_facts_app call name rows cs2 : forall args s,
  Forall (fun row => ground_row row = true /\ length row = length args) rows ->
  clausesA call (map (fact_clause name) rows ++ cs2) (bind_args 0 args, s) =
  (let '(ys, f) := clausesA call (map (fact_clause name) rows) (bind_args 0 args, s) in
   match f with
   | FNorm => let '(zs, g) := clausesA call cs2 (bind_args 0 args, s) in (ys ++ zs, g)
   | _ => (ys, f)
   end).
Proof.
  induction rows as [|row rest IH]; intros args s F.
  - cbn [map app clausesA]. destruct (clausesA call cs2 (bind_args 0 args, s)) as [zs g]. reflexivity.
  - apply Forall_cons_iff in F as [[G L] Fr]. cbn [map app clausesA].
    rewrite (fact_enter name row (bind_args 0 args, s) G), (IH args s Fr).
    destruct (clause_res call (fact_clause name row) (bind_args 0 args, s)) as [ys f]. destruct f; try reflexivity.
    destruct (clausesA call (map (fact_clause name) rest) (bind_args 0 args, s)) as [ys' f']. destruct f'; try reflexivity.
    destruct (clausesA call cs2 (bind_args 0 args, s)) as [zs g]. rewrite app_assoc. reflexivity.
Qed.

Theorem python_then_script_is_one_definition call name rows vals cs2 f2 f12 cnt2 cnt2' cnt12 cnt12' args s :
  Forall (fun row => ground_row row = true /\ length row = length args) rows ->
  Forall good_clause cs2 ->
  compile_clauses cs2 cnt2 = Some (fn_body f2, cnt2') ->
  compile_clauses (map (fact_clause name) rows ++ cs2) cnt12 = Some (fn_body f12, cnt12') ->
  run_chain call [CNat (native_rows (map row_of rows) vals); CIr f2] args s = run_def call (CIr f12) args s.
Proof.
  intros F G2 H2 H12.
  assert (G12 : Forall good_clause (map (fact_clause name) rows ++ cs2)).
  { apply Forall_app. split; [apply facts_good|exact G2]. }
  rewrite run_chain_two, (run_def_clauses call _ _ _ _ args s H12 G12), (run_def_clauses call _ _ _ _ args s H2 G2).
  cbn [run_def]. rewrite drop_native_rows, (clausesA_facts_app call name rows cs2 args s F), (fact_clauses_rows call name rows args s F).
  destruct (match_rows (map row_of rows) args s) as [xs e]. cbn [fst snd]. destruct e.
  - cbn [fst snd fin_err]. rewrite map_map. cbn [snd]. rewrite map_id. reflexivity.
  - destruct (clausesA call cs2 (bind_args 0 args, s)) as [zs g]. cbn [fst snd].
    rewrite map_app, map_map. cbn [snd]. rewrite map_id. reflexivity.
Qed.

(* at the level of engines: w has [python predicate over the rows; function of the later script], w' the function compiled
   from the single definition; everything else is the same: every query is answered alike *)
Record chained_vs_single (w w' : cworld) (name : str) (k : nat) (rows : list (list sterm)) (vals : list bool) (cs2 : list clause) : Prop := {
  cs_rows : Forall (fun row => ground_row row = true /\ length row = k) rows;
  cs_good : Forall good_clause cs2;
  cs_chain : exists f2 cnt2 cnt2', compile_clauses cs2 cnt2 = Some (fn_body f2, cnt2') /\
               c_fix w name k = Some [CNat (native_rows (map row_of rows) vals); CIr f2];
  cs_single : exists f12 cnt12 cnt12', compile_clauses (map (fact_clause name) rows ++ cs2) cnt12 = Some (fn_body f12, cnt12') /\
               c_fix w' name k = Some [CIr f12];
  cs_other : forall n0 k0, key_eq (n0, k0) (name, k) = false -> c_fix w' n0 k0 = c_fix w n0 k0;
  cs_var : forall n0, c_var w' n0 = c_var w n0;
  cs_dyn : forall n0 k0, c_dyn w' n0 k0 = c_dyn w n0 k0
}.

Theorem chained_python_predicate_is_first_clauses w w' name k rows vals cs2 :
  chained_vs_single w w' name k rows vals cs2 ->
  forall n qname args s, cquery n w qname args s = cquery n w' qname args s.
Proof.
  intros [Hrows Hgood [f2 [cnt2 [cnt2' [H2 Hw]]]] [f12 [cnt12 [cnt12' [H12 Hw']]]] Hother Hvar Hdyn].
  apply chains_interchangeable. split.
  - intros n0 k0. destruct (key_eq (n0, k0) (name, k)) eqn:K.
    + apply key_eq_true in K. injection K as -> ->. rewrite Hw, Hw'. cbn [chain_sim]. intros call args s L.
      rewrite (run_chain_one call (CIr f12)). subst k.
      eapply python_then_script_is_one_definition; eassumption.
    + rewrite (Hother _ _ K). apply chain_equiv_sim. apply chain_equiv_refl.
  - intros n0. rewrite Hvar. apply ofun_eq_refl.
  - intros n0 k0. symmetry. apply Hdyn.
Qed.

Lemma group_facts name k rows : Forall (fun row : list sterm => length row = k) rows -> forall acc,
  fold_left (fun g c => group_insert c g) (map (fact_clause name) rows) [((name, k), acc)] = [((name, k), acc ++ map (fact_clause name) rows)].
Proof.
  induction 1 as [|row rest L _ IH]; intros acc; [cbn [map fold_left]; rewrite app_nil_r; reflexivity|].
  cbn [map fold_left group_insert].
  unfold clause_key, key_eqb. cbn [fact_clause c_name c_args fst snd]. rewrite L, str_eqb_refl, Nat.eqb_refl. cbn [andb].
  rewrite IH, <- app_assoc. reflexivity.
Qed.

(* the script  name(row_1). .. name(row_n).  (n >= 1, rows of length k) compiles to ONE function, under the key name_k *)
Lemma compile_facts_program name k rows : rows <> [] -> Forall (fun row : list sterm => length row = k) rows ->
  exists f cnt', compile_program (map (fact_clause name) rows) = Some [f] /\ fn_name f = name /\ fn_arity f = k /\
                 compile_clauses (map (fact_clause name) rows) 0 = Some (fn_body f, cnt').
Proof.
  intros NE F. destruct rows as [|row rest]; [contradiction|]. apply Forall_cons_iff in F as [L Fr]. subst k.
  unfold compile_program, group_program. cbn [map fold_left group_insert].
  change (clause_key (fact_clause name row)) with (name, length row).
  match goal with |- context [compile_groups ?g 0] =>
    replace g with [((name, length row), [fact_clause name row] ++ map (fact_clause name) rest)]
      by (symmetry; apply (group_facts name (length row) rest Fr [fact_clause name row])) end.
  change ([fact_clause name row] ++ map (fact_clause name) rest) with (map (fact_clause name) (row :: rest)).
  destruct (compile_facts name (row :: rest) 0) as [code E]. cbn [compile_groups]. rewrite E. cbn [fst snd].
  eexists. exists 0. split; [reflexivity|]. repeat split. exact E.
Qed.

Inductive sop :=
| SReg (name : str) (k : nat) (rows : list (list sterm)) (vals : list bool)   (* register_function(name, python predicate over the rows) *)
| SRegAny (name : str) (k : nat) (f : nfun)                                    (* any other Python predicate *)
| SRegVar (name : str) (f : nfun)
| SLoad (p : program) (overwrite : bool)                                       (* compile p, load_script_from_string *)
| SAssert (name : str) (row : frow).

Definition sop_op (o : sop) : option op :=
  match o with
  | SReg name k rows vals => Some (OReg name k (native_rows (map row_of rows) vals))
  | SRegAny name k f => Some (OReg name k f)
  | SRegVar name f => Some (ORegVar name f)
  | SLoad p ow => match compile_program p with Some ir => Some (OLoad ir ow) | None => None end
  | SAssert name row => Some (OAssert name row)
  end.

Fixpoint sops_ops (l : list sop) : option (list op) :=
  match l with
  | [] => Some []
  | o :: r => match sop_op o, sops_ops r with Some x, Some xs => Some (x :: xs) | _, _ => None end
  end.

Inductive sop_twin : sop -> sop -> Prop :=
| stwin_same o : sop_twin o o
| stwin_vals name k rows vals1 vals2 : sop_twin (SReg name k rows vals1) (SReg name k rows vals2)
| stwin_facts name k rows vals : rows <> [] -> Forall (fun row => ground_row row = true /\ length row = k) rows ->
    sop_twin (SReg name k rows vals) (SLoad (map (fact_clause name) rows) true)
| stwin_facts_rev name k rows vals : rows <> [] -> Forall (fun row => ground_row row = true /\ length row = k) rows ->
    sop_twin (SLoad (map (fact_clause name) rows) true) (SReg name k rows vals).

Lemma Forall_len k (rows : list (list sterm)) : Forall (fun row => ground_row row = true /\ length row = k) rows ->
  Forall (fun row : list sterm => length row = k) rows.
Proof. intros F. eapply Forall_impl; [|exact F]. intros a [_ H]. exact H. Qed.

Lemma sop_facts name k rows x : rows <> [] -> Forall (fun row => ground_row row = true /\ length row = k) rows ->
  sop_op (SLoad (map (fact_clause name) rows) true) = Some x ->
  exists f cnt', x = OLoad [f] true /\ fn_name f = name /\ fn_arity f = k /\
                 compile_clauses (map (fact_clause name) rows) 0 = Some (fn_body f, cnt').
Proof.
  intros NE F E. cbn [sop_op] in E.
  destruct (compile_facts_program name k rows NE (Forall_len k rows F)) as [f [cnt' [EC H]]].
  rewrite EC in E. injection E as <-. exists f, cnt'. split; [reflexivity|exact H].
Qed.

Lemma sop_twin_op o1 o2 x1 x2 : sop_twin o1 o2 -> sop_op o1 = Some x1 -> sop_op o2 = Some x2 -> op_twin x1 x2.
Proof.
  intros T E1 E2. destruct T as [o|name k rows vals1 vals2|name k rows vals NE F|name k rows vals NE F].
  - rewrite E1 in E2. injection E2 as <-. apply twin_same.
  - cbn [sop_op] in E1, E2. injection E1 as <-. injection E2 as <-. apply twin_yield. intros args s. rewrite !drop_native_rows. reflexivity.
  - cbn [sop_op] in E1. injection E1 as <-. destruct (sop_facts name k rows x2 NE F E2) as [f [cnt' [-> [Hn [Hk HB]]]]].
    eapply twin_facts; eassumption.
  - cbn [sop_op] in E2. injection E2 as <-. destruct (sop_facts name k rows x1 NE F E1) as [f [cnt' [-> [Hn [Hk HB]]]]].
    eapply twin_facts_rev; eassumption.
Qed.

Lemma sops_twin_ops l1 l2 : Forall2 sop_twin l1 l2 -> forall o1 o2, sops_ops l1 = Some o1 -> sops_ops l2 = Some o2 -> Forall2 op_twin o1 o2.
Proof.
  intros F. induction F as [|a b r1 r2 T _ IH]; intros o1 o2 E1 E2.
  - cbn [sops_ops] in E1, E2. injection E1 as <-. injection E2 as <-. constructor.
  - cbn [sops_ops] in E1, E2.
    destruct (sop_op a) as [x1|] eqn:A1; [|discriminate]. destruct (sops_ops r1) as [xs1|]; [|discriminate].
    destruct (sop_op b) as [x2|] eqn:A2; [|discriminate]. destruct (sops_ops r2) as [xs2|]; [|discriminate].
    injection E1 as <-. injection E2 as <-. constructor; [eapply sop_twin_op; eassumption|apply IH; reflexivity].
Qed.

(* what the check does: two sequences of source-level operations, each script compiled on its own by the model compiler *)
Theorem source_mixed_sources_interchangeable l1 l2 o1 o2 : Forall2 sop_twin l1 l2 ->
  sops_ops l1 = Some o1 -> sops_ops l2 = Some o2 ->
  forall n name args s, cquery n (build cempty o1) name args s = cquery n (build cempty o2) name args s.
Proof. intros F E1 E2. apply mixed_sources_interchangeable. eapply sops_twin_ops; eassumption. Qed.
