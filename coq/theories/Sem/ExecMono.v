(* Monotonicity of the IR semantics (Sem/IRSem.v) in the interpretation of the iterator expressions.

   Partial answer lists (answers, "ended by an exception" flag) are ordered by
       le_b r1 r2  :=  if r1 ended by an exception then the answers of r1 are a prefix of those of r2
                       else r2 = r1
   (what a search with more call depth delivers: nothing changes for a search that ended by itself, a
   search that was cut short by the depth limit is continued).  If every iterator is answered by J2 at
   least as far as by J1, then every statement list delivers under J2 at least as far as under J1 - for
   EVERY statement list (break, return, cutIf blocks, flags), not only for compiled ones: an exception
   is never caught inside the emitted code, and the answers delivered before it stay delivered.

   Used by C17 (the machine's answers are prefix-monotone in the call depth) and C20. *)
From Coq Require Import List Arith Bool.
Import ListNotations.
From YP Require Import Base.Str Comp.IR Sem.IRSem.
Set Implicit Arguments.

Definition prefixl {A} (l m : list A) : Prop := exists r, m = l ++ r.

Lemma prefixl_refl {A} (l : list A) : prefixl l l.
Proof. exists []. rewrite app_nil_r. reflexivity. Qed.
Lemma prefixl_nil {A} (l : list A) : prefixl [] l.
Proof. exists l. reflexivity. Qed.
Lemma prefixl_trans {A} (a b c : list A) : prefixl a b -> prefixl b c -> prefixl a c.
Proof. intros [x ->] [y ->]. exists (x ++ y). rewrite app_assoc. reflexivity. Qed.
Lemma prefixl_app {A} (a b c : list A) : prefixl b c -> prefixl (a ++ b) (a ++ c).
Proof. intros [x ->]. exists x. rewrite app_assoc. reflexivity. Qed.
Lemma prefixl_app_r {A} (a b c : list A) : prefixl a b -> prefixl a (b ++ c).
Proof. intros [x ->]. exists (x ++ c). rewrite app_assoc. reflexivity. Qed.
Lemma prefixl_map {A B} (f : A -> B) (a b : list A) : prefixl a b -> prefixl (map f a) (map f b).
Proof. intros [x ->]. exists (map f x). apply map_app. Qed.

Definition le_b {A} (r1 r2 : list A * bool) : Prop :=
  if snd r1 then prefixl (fst r1) (fst r2) else r2 = r1.

Lemma le_b_refl {A} (r : list A * bool) : le_b r r.
Proof. unfold le_b. destruct (snd r); [apply prefixl_refl | reflexivity]. Qed.

Lemma le_b_trans {A} (a b c : list A * bool) : le_b a b -> le_b b c -> le_b a c.
Proof.
  unfold le_b. destruct a as [la ea], b as [lb eb], c as [lc ec]; simpl.
  destruct ea.
  - intros P. destruct eb.
    + intros Q. eapply prefixl_trans; eauto.
    + intros E. injection E as -> ->. exact P.
  - intros E. injection E as -> ->. auto.
Qed.

Lemma le_b_err {A} (l : list A) (r : list A * bool) : le_b ([], true) r.
Proof. unfold le_b; simpl. apply prefixl_nil. Qed.

Lemma le_b_map {A B} (f : A -> B) (r1 r2 : list A * bool) :
  le_b r1 r2 -> le_b (map f (fst r1), snd r1) (map f (fst r2), snd r2).
Proof.
  destruct r1 as [l1 e1], r2 as [l2 e2]. unfold le_b; simpl. destruct e1.
  - apply prefixl_map.
  - intros E. injection E as -> ->. reflexivity.
Qed.

Section Mono.
Variable S : Type.
Variable assign : str -> expr -> S -> S.

(* the same order on the outcomes of statements *)
Definition le_out (o1 o2 : out S) : Prop :=
  match o1 with
  | (ys, CErr, _) => prefixl ys (fst (fst o2))
  | _ => o2 = o1
  end.

Lemma le_out_refl o : le_out o o.
Proof. destruct o as [[ys k] f]. destruct k; simpl; try reflexivity. apply prefixl_refl. Qed.

(* g keeps the answers and keeps an exception *)
Lemma le_out_map (g : out S -> out S) :
  (forall ys f, g (ys, CErr, f) = (ys, CErr, f)) -> (forall o, fst (fst (g o)) = fst (fst o)) ->
  forall o1 o2, le_out o1 o2 -> le_out (g o1) (g o2).
Proof.
  intros G1 G2 [[ys k] f] o2 H. destruct k.
  1-3: simpl in H; subst o2; apply le_out_refl.
  rewrite G1. cbn [le_out]. rewrite G2. exact H.
Qed.

Lemma le_out_app ys o1 o2 : le_out o1 o2 ->
  le_out (let '(zs, k, f) := o1 in (ys ++ zs, k, f)) (let '(zs, k, f) := o2 in (ys ++ zs, k, f)).
Proof.
  destruct o1 as [[zs k] f]. destruct k; simpl; intros H.
  1-3: subst o2; reflexivity.
  destruct o2 as [[zs2 k2] f2]. simpl in *. apply prefixl_app. exact H.
Qed.

Definition andthen (kb : compl) (o : out S) (rest : flags -> out S) : out S :=
  let '(ys, k, f1) := o in
  match k with
  | CNorm => let '(zs, k2, f2) := rest f1 in (ys ++ zs, k2, f2)
  | CBrk => (ys, kb, f1)
  | _ => (ys, k, f1)
  end.

Lemma andthen_answers kb o rest : prefixl (fst (fst o)) (fst (fst (andthen kb o rest))).
Proof.
  destruct o as [[ys k] f1]. destruct k; cbn [andthen fst]; try apply prefixl_refl.
  destruct (rest f1) as [[zs k2] f2]. exists zs. reflexivity.
Qed.

Lemma le_out_andthen kb o1 o2 r1 r2 :
  le_out o1 o2 -> (forall f, le_out (r1 f) (r2 f)) -> le_out (andthen kb o1 r1) (andthen kb o2 r2).
Proof.
  intros H Hr. destruct o1 as [[ys k] f1]. destruct k; cbn [le_out] in H.
  - subst o2. exact (@le_out_app ys _ _ (Hr f1)).
  - subst o2. apply le_out_refl.
  - subst o2. apply le_out_refl.
  - (* an exception in o1 ends the sequence and keeps the answers of o1 *)
    exact (prefixl_trans H (andthen_answers kb o2 r2)).
Qed.

Lemma loop_cons body e x r f : loop body e (x :: r) f = andthen CNorm (body x f) (loop body e r).
Proof. cbn [loop]. destruct (body x f) as [[ys k] f1]. destruct k; reflexivity. Qed.

Section Loop.
  Variables body1 body2 : S -> flags -> out S.
  Hypothesis Hb : forall x f, le_out (body1 x f) (body2 x f).

  Lemma loop_mono_same e xs : forall f, le_out (loop body1 e xs f) (loop body2 e xs f).
  Proof.
    induction xs as [|x r IH]; intros f; [apply le_out_refl|].
    rewrite !loop_cons. apply le_out_andthen; [apply Hb | exact IH].
  Qed.

  (* the iterator delivered more before its exception, or ended differently after more answers *)
  Lemma loop_mono_more xs more e2 : forall f, le_out (loop body1 true xs f) (loop body2 e2 (xs ++ more) f).
  Proof.
    induction xs as [|x r IH]; intros f.
    - cbn [loop app]. apply prefixl_nil.
    - rewrite <- app_comm_cons, !loop_cons. apply le_out_andthen; [apply Hb | exact IH].
  Qed.

  Lemma loop_mono r1 r2 f : le_b r1 r2 -> le_out (loop body1 (snd r1) (fst r1) f) (loop body2 (snd r2) (fst r2) f).
  Proof.
    destruct r1 as [xs1 e1], r2 as [xs2 e2]. unfold le_b; cbn [fst snd]. destruct e1.
    - intros [more ->]. apply loop_mono_more.
    - intros E. injection E as -> ->. apply loop_mono_same.
  Qed.
End Loop.

Lemma after_loop_mono (o1 o2 : out S) : le_out o1 o2 -> le_out (after_loop o1) (after_loop o2).
Proof.
  apply le_out_map.
  - reflexivity.
  - intros [[ys k] f]. destruct k; reflexivity.
Qed.

Lemma end_block_mono l (o1 o2 : out S) : le_out o1 o2 -> le_out (end_block l o1) (end_block l o2).
Proof.
  apply le_out_map.
  - reflexivity.
  - intros [[ys k] f]. destruct k; reflexivity.
Qed.

Variables J1 J2 : expr -> S -> list S * bool.
Hypothesis HJ : forall it s, le_b (J1 it s) (J2 it s).

(* induction over statements with nested statement lists *)
Section StmtInd.
  Variable P : stmt -> Prop.
  Variable Q : list stmt -> Prop.
  Hypothesis Hassign : forall x e, P (SAssign x e).
  Hypothesis Hforeach : forall it body, Q body -> P (SForeach it body).
  Hypothesis Hyf : P SYieldFalse.
  Hypothesis Hyt : P SYieldTrue.
  Hypothesis Hret : P SReturn.
  Hypothesis Hblock : forall l body, Q body -> P (SBlock l body).
  Hypothesis Hbreak : forall l, P (SBreakBlock l).
  Hypothesis Hnil : Q [].
  Hypothesis Hcons : forall st r, P st -> Q r -> Q (st :: r).
  Fixpoint stmt_ind2 (st : stmt) : P st :=
    let go := fix go (c : list stmt) : Q c :=
      match c with [] => Hnil | x :: r => Hcons (stmt_ind2 x) (go r) end in
    match st with
    | SAssign x e => Hassign x e
    | SForeach it body => Hforeach it (go body)
    | SYieldFalse => Hyf | SYieldTrue => Hyt | SReturn => Hret
    | SBlock l body => Hblock l (go body)
    | SBreakBlock l => Hbreak l
    end.
  Fixpoint list_ind2 (c : list stmt) : Q c :=
    match c with [] => Hnil | x :: r => Hcons (stmt_ind2 x) (list_ind2 r) end.
End StmtInd.

Lemma exec_list_step (J : expr -> S -> list S * bool) st rest s f :
  exec_list J assign (st :: rest) s f =
  match st with
  | SAssign x e => exec_list J assign rest (assign x e s) f
  | _ => let '(ys, k, f1) := exec_stmt J assign st s f in
         match k with
         | CNorm => let '(zs, k2, f2) := exec_list J assign rest s f1 in (ys ++ zs, k2, f2)
         | _ => (ys, k, f1) end
  end.
Proof. destruct st; reflexivity. Qed.

Lemma exec_list_cons (J : expr -> S -> list S * bool) st rest s f :
  match st with SAssign _ _ => False | _ => True end ->
  exec_list J assign (st :: rest) s f = andthen CBrk (exec_stmt J assign st s f) (exec_list J assign rest s).
Proof.
  assert (G : forall o r, (let '(ys, k, f1) := o in
                           match k with
                           | CNorm => let '(zs, k2, f2) := r f1 in (ys ++ zs, k2, f2)
                           | _ => (ys, k, f1)
                           end) = andthen CBrk o r).
  { intros [[ys k] f1] r. destruct k; reflexivity. }
  intros H. rewrite exec_list_step. destruct st; try destruct H; apply G.
Qed.

Lemma exec_cons_mono st rest :
  (forall s f, le_out (exec_stmt J1 assign st s f) (exec_stmt J2 assign st s f)) ->
  (forall s f, le_out (exec_list J1 assign rest s f) (exec_list J2 assign rest s f)) ->
  forall s f, le_out (exec_list J1 assign (st :: rest) s f) (exec_list J2 assign (st :: rest) s f).
Proof.
  intros Hst Hrest s f.
  assert (G : match st with SAssign _ _ => False | _ => True end ->
              le_out (exec_list J1 assign (st :: rest) s f) (exec_list J2 assign (st :: rest) s f)).
  { intros H. rewrite !(exec_list_cons _ _ _ _ _ H). apply le_out_andthen; [apply Hst | apply Hrest]. }
  destruct st; try exact (G I). apply Hrest.
Qed.

Theorem exec_stmt_mono : forall st s f, le_out (exec_stmt J1 assign st s f) (exec_stmt J2 assign st s f).
Proof.
  apply (stmt_ind2 (fun st => forall s f, le_out (exec_stmt J1 assign st s f) (exec_stmt J2 assign st s f))
                   (fun c => forall s f, le_out (exec_list J1 assign c s f) (exec_list J2 assign c s f))).
  - intros x e s f. rewrite !exec_stmt_eq. apply le_out_refl.
  - (* the loop: the iterator by HJ, the body by induction *)
    intros it body IH s f. rewrite !exec_stmt_eq.
    specialize (HJ it s). destruct (J1 it s) as [xs1 e1] eqn:E1. destruct (J2 it s) as [xs2 e2] eqn:E2.
    apply after_loop_mono.
    exact (@loop_mono (exec_list J1 assign body) (exec_list J2 assign body) IH (xs1, e1) (xs2, e2) f HJ).
  - intros s f. apply le_out_refl.
  - intros s f. apply le_out_refl.
  - intros s f. apply le_out_refl.
  - intros l body IH s f. rewrite !exec_stmt_eq. apply end_block_mono. apply IH.
  - intros l s f. apply le_out_refl.
  - intros s f. apply le_out_refl.
  - intros st r Hst Hr. apply exec_cons_mono; assumption.
Qed.

Theorem exec_list_mono : forall c s f, le_out (exec_list J1 assign c s f) (exec_list J2 assign c s f).
Proof.
  induction c as [|st r IH]; intros s f; [apply le_out_refl|].
  apply exec_cons_mono; [apply exec_stmt_mono | exact IH].
Qed.

(* the generator function as a whole: answers and completion *)
Definition le_run (r1 r2 : list S * compl) : Prop :=
  match snd r1 with CErr => prefixl (fst r1) (fst r2) | _ => r2 = r1 end.

Theorem run_function_mono code s : le_run (run_function J1 assign code s) (run_function J2 assign code s).
Proof.
  unfold run_function. pose proof (exec_list_mono code s flags0) as H.
  destruct (exec_list J1 assign code s flags0) as [[ys k] f]. unfold le_run; simpl.
  destruct k; simpl in H.
  1-3: rewrite H; reflexivity.
  destruct (exec_list J2 assign code s flags0) as [[ys2 k2] f2]. exact H.
Qed.
End Mono.
