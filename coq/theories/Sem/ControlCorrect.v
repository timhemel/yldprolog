(* compile_body is correct with respect to the reference control semantics, for all bodies
   (a cut inside a condition or under \+ is local to it). *)
From Coq Require Import List Arith Bool Lia.
Import ListNotations.
From YP Require Import Base.Str Lang.Ast Sem.Res Sem.RefSem Sem.SemLemmas Comp.IR Comp.CompileBody Comp.CompileTotal Sem.IRSem.
Set Implicit Arguments.

Fixpoint wfm (cnt:nat) (b:body) : bool :=
  match b with
  | BMark l => l <=? cnt
  | BAnd a b | BOr a b | BIf a b => wfm cnt a && wfm cnt b
  | BNot a => wfm cnt a
  | _ => true end.

Fixpoint has_mark (l:nat) (b:body) : bool :=
  match b with
  | BMark m => Nat.eqb m l
  | BAnd a b | BOr a b | BIf a b => has_mark l a || has_mark l b
  | BNot a => has_mark l a
  | _ => false end.

Definition ends (b:body) (f:fin) : Prop :=
  match f with
  | FNorm | FErr => True
  | FCut => tcut b = true
  | FExit l => has_mark l b = true
  end.

Lemma ends_sub (a b:body) f :
  (tcut a = true -> tcut b = true) -> (forall l, has_mark l a = true -> has_mark l b = true) ->
  ends a f -> ends b f.
Proof. intros Hc Hm. destruct f; simpl; auto. Qed.

Lemma wfm_mark cnt l b : wfm cnt b = true -> has_mark l b = true -> l <= cnt.
Proof.
  induction b as [f a| | | |m|a IHa b IHb|a IHa b IHb|a IHa b IHb|a IHa]; simpl; intros W M; try discriminate.
  (* the three binary constructs alike *)
  2-4: apply andb_true_iff in W as [Wa Wb]; apply orb_true_iff in M as [M|M]; auto.
  - apply Nat.eqb_eq in M. subst m. apply Nat.leb_le. exact W.
  - auto.
Qed.

Section C.
Variable S : Type.
Variable I : str -> list sterm -> S -> list S * bool.
Variable J : expr -> S -> list S * bool.
Variable assign : str -> expr -> S -> S.
Hypothesis HJ : forall f args s, J (query_expr f args) s = I f args s.
Notation sem := (sem I).
Notation exec_list := (exec_list J assign).
Notation exec_stmt := (exec_stmt J assign).

(* which end markers a body can produce *)
Definition finP (P:fin -> Prop) (b:body) := forall s, P (snd (sem b s)).

Lemma seqr_fin (P:fin->Prop) (f:S->res S) xs e :
  P e -> (forall x, snd (f x) = FNorm \/ P (snd (f x))) -> P (snd (seqr f xs e)).
Proof.
  intros He Hf. induction xs as [|x r IH]; simpl; [exact He|].
  destruct (Hf x) as [H|H]; destruct (f x) as [ys g]; simpl in *.
  - subst g. destruct (seqr f r e); simpl in *; exact IH.
  - destruct g; simpl; try exact H. destruct (seqr f r e); simpl in *; exact IH.
Qed.

Lemma por_fin (P:fin->Prop) (ra rb:res S) : (snd ra = FNorm \/ P (snd ra)) -> P (snd rb) -> P (snd (por ra rb)).
Proof. destruct ra as [xs fa], rb as [ys g]; simpl; intros [H|H] Hb; subst; simpl; auto. destruct fa; simpl; auto. Qed.

Lemma ite_fin (P:fin->Prop) rc (t:S->res S) e :
  (snd rc = FNorm \/ P (snd rc)) -> (forall x, P (snd (t x))) -> P (snd e) -> P (snd (ite rc t e)).
Proof. destruct rc as [[|x r] f]; simpl; intros H Ht He; auto. destruct H as [H|H]; subst; auto. destruct f; simpl; auto. Qed.

Lemma cond_fin (c b:body) (r:res S) :
  (forall l, has_mark l c = true -> has_mark l b = true) ->
  ends c (snd r) -> snd (opaque r) = FNorm \/ ends b (snd (opaque r)).
Proof. intros Hm. destruct r as [xs f]. destruct f; simpl; auto. Qed.

Lemma sem_ends b : finP (ends b) b.
Proof.
  induction b as [f a| | | |l|a b IHa IHb|a b Hif IHa IHb|c t e IHc IHt IHe|c t IHc IHt|a IHa] using body_ind'; intros s.
  - cbn [RefSem.sem]. destruct (I f a s) as [xs e]. destruct e; exact Logic.I.
  - exact Logic.I.
  - exact Logic.I.
  - reflexivity.
  - simpl. apply Nat.eqb_refl.
  - cbn [RefSem.sem]. destruct (RefSem.sem I a s) as [xs e] eqn:E. apply seqr_fin.
    + specialize (IHa s). rewrite E in IHa. revert IHa.
      apply ends_sub; simpl; intros; rewrite H; reflexivity.
    + intros x. right. generalize (IHb x).
      apply ends_sub; simpl; intros; rewrite H; apply orb_true_r.
  - rewrite sem_or_plain by exact Hif. apply por_fin.
    + right. generalize (IHa s). apply ends_sub; simpl; intros; rewrite H; reflexivity.
    + generalize (IHb s). apply ends_sub; simpl; intros; rewrite H; apply orb_true_r.
  - rewrite sem_or_if. apply ite_fin.
    + apply cond_fin with (c := c); [|apply IHc]. simpl. intros l H. rewrite H. reflexivity.
    + intros x. generalize (IHt x). apply ends_sub; simpl; intros; rewrite H, ?orb_true_r; reflexivity.
    + generalize (IHe s). apply ends_sub; simpl; intros; rewrite H; apply orb_true_r.
  - rewrite sem_if. apply ite_fin.
    + apply cond_fin with (c := c); [|apply IHc]. simpl. intros l H. rewrite H. reflexivity.
    + intros x. generalize (IHt x). apply ends_sub; simpl; intros; rewrite H, ?orb_true_r; reflexivity.
    + exact Logic.I.
  - rewrite sem_not. apply ite_fin.
    + apply cond_fin with (c := a); [|apply IHa]. simpl. auto.
    + intros x. exact Logic.I.
    + exact Logic.I.
Qed.

Lemma tcut_sem b : tcut b = false -> forall s, snd (sem b s) <> FCut.
Proof. intros Htc s E. pose proof (sem_ends b s) as H. rewrite E in H. simpl in H. congruence. Qed.

Lemma wfm_sem cnt b : wfm cnt b = true -> forall s l, snd (sem b s) = FExit l -> l <= cnt.
Proof. intros W s l E. pose proof (sem_ends b s) as H. rewrite E in H. exact (wfm_mark _ _ _ W H). Qed.

Lemma wfm_mono cnt cnt' b : cnt <= cnt' -> wfm cnt b = true -> wfm cnt' b = true.
Proof.
  intros Hle. induction b; simpl; intros W; auto;
    try (apply andb_true_iff in W as [Wa Wb]; apply andb_true_iff; split; auto).
  apply Nat.leb_le in W. apply Nat.leb_le. lia.
Qed.

(* compile_body never emits an assignment *)
Definition isasg (st:stmt) : bool := match st with SAssign _ _ => true | _ => false end.
Definition noasg (c:list stmt) : bool := forallb (fun st => negb (isasg st)) c.
Lemma noasg_app c1 c2 : noasg (c1++c2) = noasg c1 && noasg c2.
Proof. apply forallb_app. Qed.

Lemma exec_list_cons st r s f : isasg st = false -> exec_list (st::r) s f =
  let '(ys,k,f1) := exec_stmt st s f in
  match k with CNorm => let '(zs,k2,f2) := exec_list r s f1 in (ys++zs,k2,f2) | _ => (ys,k,f1) end.
Proof. intros H. destruct st; try discriminate H; reflexivity. Qed.

Lemma exec_list_app c1 c2 s f : noasg c1 = true -> exec_list (c1++c2) s f =
  let '(ys,k,f1) := exec_list c1 s f in
  match k with CNorm => let '(zs,k2,f2) := exec_list c2 s f1 in (ys++zs,k2,f2) | _ => (ys,k,f1) end.
Proof.
  revert f. induction c1 as [|st r IH]; intros f NA.
  - simpl. destruct (exec_list c2 s f) as [[zs k2] f2]; reflexivity.
  - simpl in NA. apply andb_true_iff in NA as [NA1 NA2]. apply negb_true_iff in NA1.
    rewrite <- app_comm_cons, !exec_list_cons by exact NA1.
    destruct (exec_stmt st s f) as [[ys k] f1]. destruct k; try reflexivity.
    rewrite IH by exact NA2. destruct (exec_list r s f1) as [[zs k2] f2]. destruct k2; try reflexivity.
    destruct (exec_list c2 s f2) as [[ws k3] f3]. rewrite app_assoc. reflexivity.
Qed.

Lemma exec_list_single st s f : isasg st = false -> exec_list [st] s f = exec_stmt st s f.
Proof. intros NA. rewrite exec_list_cons by exact NA. simpl. destruct (exec_stmt st s f) as [[ys k] f1]. destruct k; try reflexivity. rewrite app_nil_r. reflexivity. Qed.

Definition catch l (r:res S) : res S :=
  match r with (xs,FExit l') => if Nat.eqb l' l then (xs,FNorm) else r | _ => r end.

Lemma catch_miss l (r:res S) : snd r <> FExit l -> catch l r = r.
Proof.
  destruct r as [xs g]. destruct g; try reflexivity. simpl. intros H.
  destruct (Nat.eqb_spec l0 l) as [->|_]; [congruence|reflexivity].
Qed.

Lemma seqr_mark_then l t x r e :
  seqr (sem (BAnd (BMark l) t)) (x::r) e = let '(ys,g) := sem t x in (ys, match g with FNorm => FExit l | _ => g end).
Proof. simpl. destruct (RefSem.sem I t x) as [ys g]; destruct g; try reflexivity. rewrite app_nil_r. reflexivity. Qed.

Lemma sem_block c t e l s :
  tcut c = false ->
  snd (sem c s) <> FExit l -> (forall x, snd (sem t x) <> FExit l) -> snd (sem e s) <> FExit l ->
  catch l (sem (BOr (BAnd c (BAnd (BMark l) t)) e) s) = sem (BOr (BIf c t) e) s.
Proof.
  intros Hc Xc Xt Xe.
  rewrite (@sem_or_plain _ I (BAnd c (BAnd (BMark l) t)) e s eq_refl), sem_or_if.
  rewrite sem_and. pose proof (tcut_sem c Hc s) as Nc.
  destruct (RefSem.sem I c s) as [xs fc]. simpl in Nc, Xc. unfold bindr; simpl fst; simpl snd.
  destruct xs as [|x r].
  - simpl seqr. destruct fc; try congruence.
    + rewrite por_nil. apply catch_miss. exact Xe.
    + reflexivity.
    + apply catch_miss. exact Xc.
  - rewrite seqr_mark_then. specialize (Xt x).
    replace (ite (opaque (x :: r, fc)) (RefSem.sem I t) (RefSem.sem I e s)) with (RefSem.sem I t x) by (destruct fc; reflexivity).
    destruct (RefSem.sem I t x) as [ys g]; simpl in *. destruct g; simpl; try reflexivity.
    + rewrite Nat.eqb_refl. reflexivity.
    + apply (@catch_miss l (ys, FExit l0)). exact Xt.
Qed.

Definition cof (fn:fin) : compl := match fn with FNorm => CNorm | FCut => CRet | FErr => CErr | FExit _ => CBrk end.
Definition post (cnt:nat) (fn:fin) (f f':flags) : Prop :=
  match fn with
  | FNorm => doBreak f' = false /\ (forall l, l <= cnt -> lab f' l = lab f l)
  | FExit l0 => doBreak f' = true /\ lab f' l0 = true /\ (forall l, l <= cnt -> l <> l0 -> lab f' l = lab f l)
  | _ => True
  end.
Definition okr (cnt:nat) (r:res S) (o:out S) (f:flags) : Prop :=
  exists f', o = (fst r, cof (snd r), f') /\ post cnt (snd r) f f'.
Definition ok (cnt:nat) (b:body) (code:list stmt) : Prop :=
  noasg code = true /\
  forall s f, doBreak f = false -> okr cnt (sem b s) (exec_list code s f) f.

Definition okR (cnt:nat) (R:S -> res S) (code:list stmt) : Prop :=
  noasg code = true /\
  forall s f, doBreak f = false -> okr cnt (R s) (exec_list code s f) f.

Lemma ok_okR cnt b code : ok cnt b code <-> okR cnt (sem b) code.
Proof. reflexivity. Qed.

Lemma post_mono cnt cnt' fn f f' : cnt <= cnt' -> post cnt' fn f f' -> post cnt fn f f'.
Proof. intros Hle. destruct fn; simpl; auto.
  - intros [H1 H2]; split; auto. intros l Hl; apply H2; lia.
  - intros [H1 [H2 H3]]; repeat split; auto. intros l0 Hl; apply H3; lia. Qed.

Lemma post_trans cnt fn f f1 f2 : post cnt FNorm f f1 -> post cnt fn f1 f2 -> post cnt fn f f2.
Proof.
  intros [P1 P2]. destruct fn; simpl; auto.
  - intros [Q1 Q2]. split; auto. intros l Hl. rewrite Q2 by auto. apply P2; auto.
  - intros [Q1 [Q2 Q3]]. repeat split; auto. intros l0 Hl Hn. rewrite Q3 by auto. apply P2; auto.
Qed.

Lemma okR_mono cnt cnt' R code : cnt <= cnt' -> okR cnt' R code -> okR cnt R code.
Proof. intros Hle [NA H]. split; [exact NA|]. intros s f Hf. destruct (H s f Hf) as [f' [E P]]. exists f'. split; [exact E|]. exact (post_mono _ _ _ Hle P). Qed.
Lemma okR_ext cnt R R' code : (forall s, R s = R' s) -> okR cnt R' code -> okR cnt R code.
Proof. intros E [NA H]. split; [exact NA|]. intros s f Hf. rewrite E. apply H; exact Hf. Qed.

Lemma ok_mono cnt cnt' b code : cnt <= cnt' -> ok cnt' b code -> ok cnt b code.
Proof. intros Hle O. apply ok_okR. apply ok_okR in O. exact (okR_mono Hle O). Qed.
Lemma ok_ext cnt b b' code : (forall s, sem b s = sem b' s) -> ok cnt b' code -> ok cnt b code.
Proof. intros E O. apply ok_okR. apply ok_okR in O. exact (okR_ext _ E O). Qed.

(* the loop of a Foreach realises seqr *)
Lemma after_loop_cons (body:S->flags->out S) e x r f :
  after_loop (loop body e (x::r) f) =
  let '(ys,k,f1) := body x f in
  match k with
  | CNorm => let '(zs,k2,f2) := after_loop (loop body e r f1) in (ys++zs,k2,f2)
  | CBrk => (ys, (if doBreak f1 then CBrk else CNorm), f1)
  | _ => (ys,k,f1) end.
Proof.
  simpl. destruct (body x f) as [[ys k] f1]. destruct k; try reflexivity.
  destruct (loop body e r f1) as [[zs k2] f2]. destruct k2; reflexivity.
Qed.

Lemma loop_ok cnt (K:S->res S) code (e:bool) :
  (forall x f, doBreak f = false -> okr cnt (K x) (exec_list code x f) f) ->
  forall xs f, doBreak f = false ->
  okr cnt (seqr K xs (if e then FErr else FNorm)) (after_loop (loop (exec_list code) e xs f)) f.
Proof.
  intros HK. induction xs as [|x r IH]; intros f Hf.
  - simpl. destruct e; simpl.
    + exists f; split; [reflexivity|exact Logic.I].
    + rewrite Hf. exists f; split; [reflexivity|]. simpl; auto.
  - rewrite after_loop_cons. destruct (HK x f Hf) as [f1 [E P]]. rewrite E. simpl seqr.
    destruct (K x) as [ys g]; simpl fst in *; simpl snd in *. destruct g; simpl cof; cbv iota.
    + destruct (IH f1 (proj1 P)) as [f2 [E2 Q]]. rewrite E2.
      destruct (seqr K r (if e then FErr else FNorm)) as [ws h]; simpl fst in *; simpl snd in *.
      exists f2. split; [reflexivity|]. exact (post_trans _ _ P Q).
    + exists f1; split; [reflexivity|exact Logic.I].
    + exists f1; split; [reflexivity|exact Logic.I].
    + destruct P as [P1 [P2 P3]]. rewrite P1. exists f1. split; [reflexivity|]. simpl. auto.
Qed.

Lemma okR_foreach cnt it K c :
  okR cnt K c ->
  okR cnt (fun s => let '(xs,e) := J it s in seqr K xs (if e then FErr else FNorm)) [SForeach it c].
Proof.
  intros [NA H]. split; [reflexivity|]. intros s f Hf. rewrite exec_list_single by reflexivity. rewrite exec_stmt_eq.
  destruct (J it s) as [xs e]. apply loop_ok; [exact H|exact Hf].
Qed.

Lemma okR_app cnt R1 R2 c1 c2 : okR cnt R1 c1 -> okR cnt R2 c2 -> okR cnt (fun s => por (R1 s) (R2 s)) (c1++c2).
Proof.
  intros [NA1 H1] [NA2 H2]. split; [rewrite noasg_app, NA1, NA2; reflexivity|].
  intros s f Hf. rewrite exec_list_app by exact NA1.
  destruct (H1 s f Hf) as [f1 [E P]]. rewrite E.
  destruct (R1 s) as [xs fa]; simpl fst in *; simpl snd in *.
  destruct fa; simpl cof; cbv iota; simpl por.
  - destruct (H2 s f1 (proj1 P)) as [f2 [E2 Q]]. rewrite E2.
    destruct (R2 s) as [ys g]; simpl fst in *; simpl snd in *.
    exists f2; split; [reflexivity|]. exact (post_trans _ _ P Q).
  - exists f1; split; [reflexivity|exact Logic.I].
  - exists f1; split; [reflexivity|exact Logic.I].
  - exists f1; split; [reflexivity|exact P].
Qed.

Lemma okR_return cnt : okR cnt (fun _ => ([],FCut)) [SReturn].
Proof. split; [reflexivity|]. intros s f Hf. exists f. split; [reflexivity|exact Logic.I]. Qed.

Lemma setlab_other l v f l0 : l0 <> l -> lab (setlab l v f) l0 = lab f l0.
Proof. intros Hn. simpl. destruct (Nat.eqb_spec l0 l) as [E|_]; [contradiction|reflexivity]. Qed.

Lemma okR_break cnt l : okR cnt (fun _ => ([],FExit l)) [SBreakBlock l].
Proof.
  split; [reflexivity|]. intros s f Hf. exists (setbrk true (setlab l true f)). split; [reflexivity|].
  simpl. rewrite Nat.eqb_refl. repeat split. intros l0 Hl Hn. exact (setlab_other true f Hn).
Qed.

Lemma okR_block cnt l R code :
  cnt < l -> okR l R code -> okR cnt (fun s => catch l (R s)) [SBlock l code].
Proof.
  intros Hl [NA H]. split; [reflexivity|]. intros s f Hf.
  rewrite exec_list_single by reflexivity. rewrite exec_stmt_eq.
  (* the body starts with label l cleared; by its post-condition the label is still clear when the body ends, unless
     it ended by the marker of l, which is what the block catches; the labels up to cnt are as the caller left them *)
  set (f0 := setlab l false f).
  assert (L0: lab f0 l = false) by (simpl; rewrite Nat.eqb_refl; reflexivity).
  assert (Old: forall l0, l0 <= cnt -> lab f0 l0 = lab f l0) by (intros l0 H0; apply setlab_other; lia).
  destruct (H s f0 Hf) as [f1 [E P]]. rewrite E.
  destruct (R s) as [ys g]; simpl fst in *; simpl snd in *.
  destruct g; simpl cof; simpl catch; unfold end_block.
  - destruct P as [P1 P2]. rewrite (P2 l), L0, P1 by lia. exists f1. split; [reflexivity|]. simpl. split; auto.
    intros l0 H0. rewrite P2 by lia. apply Old. exact H0.
  - exists f1; split; [reflexivity|exact Logic.I].
  - exists f1; split; [reflexivity|exact Logic.I].
  - destruct P as [P1 [P2 P3]]. destruct (Nat.eqb_spec l0 l) as [->|Hn].
    + rewrite P2. simpl. exists (setbrk false f1). split; [reflexivity|].
      simpl. split; auto. intros l0 H0. rewrite P3 by lia. apply Old. exact H0.
    + rewrite (P3 l), L0, P1 by (auto; lia). exists f1. split; [reflexivity|]. simpl. repeat split; auto.
      intros l1 H0 Hn1. rewrite P3 by lia. apply Old. exact H0.
Qed.

Lemma ok_foreach cnt g args K c : ok cnt K c -> ok cnt (BAnd (BCall g args) K) [SForeach (query_expr g args) c].
Proof.
  intros O. apply ok_okR. apply ok_okR in O. apply okR_ext with (2 := okR_foreach (query_expr g args) O).
  intros s. simpl RefSem.sem. rewrite HJ. destruct (I g args s) as [xs e]. reflexivity.
Qed.

Lemma ok_snoc_break cnt l K c : ok cnt K c -> ok cnt (BAnd (BMark l) K) (c ++ [SBreakBlock l]).
Proof.
  intros O. apply ok_okR. apply ok_okR in O. apply okR_ext with (2 := okR_app O (okR_break cnt l)).
  intros s. apply seqr_one.
Qed.

Lemma ok_snoc_return cnt K c : ok cnt K c -> ok cnt (BAnd BCut K) (c ++ [SReturn]).
Proof.
  intros O. apply ok_okR. apply ok_okR in O. apply okR_ext with (2 := okR_app O (okR_return cnt)).
  intros s. apply seqr_one.
Qed.

Lemma ok_app_or cnt x y c1 c2 : isif x = false -> ok cnt x c1 -> ok cnt y c2 -> ok cnt (BOr x y) (c1++c2).
Proof.
  intros Hx O1 O2. apply ok_okR. apply ok_okR in O1, O2. apply okR_ext with (2 := okR_app O1 O2).
  intros s. apply sem_or_plain. exact Hx.
Qed.

Lemma ok_block cnt c t e code :
  tcut c = false -> wfm cnt c = true -> wfm cnt t = true -> wfm cnt e = true ->
  ok (Datatypes.S cnt) (BOr (BAnd c (BAnd (BMark (Datatypes.S cnt)) t)) e) code ->
  ok cnt (BOr (BIf c t) e) [SBlock (Datatypes.S cnt) code].
Proof.
  intros Hc Wc Wt We O. apply ok_okR. apply ok_okR in O.
  apply okR_ext with (2 := okR_block (Nat.lt_succ_diag_r cnt) O). intros s.
  assert (Fr: forall b, wfm cnt b = true -> forall s0, snd (RefSem.sem I b s0) <> FExit (Datatypes.S cnt)).
  { intros b W s0 E. apply (@wfm_sem cnt b W) in E. lia. }
  symmetry. apply sem_block; auto.
Qed.

(* A cut inside a condition is replaced by the marker of the condition's own block. *)
Definition c2f (m:nat) (g:fin) : fin := match g with FCut => FExit m | _ => g end.
Definition c2e (m:nat) (r:res S) : res S := (fst r, c2f m (snd r)).

Lemma seqr_c2e m (f:S->res S) xs e : seqr (fun x => c2e m (f x)) xs (c2f m e) = c2e m (seqr f xs e).
Proof.
  induction xs as [|x r IH]; [reflexivity|]. cbn [seqr]. unfold c2e at 1. destruct (f x) as [ys g]. cbn [fst snd].
  destruct g; cbn [c2f]; try reflexivity.
  rewrite IH. destruct (seqr f r e) as [zs h]. reflexivity.
Qed.

Lemma por_c2e m (ra rb:res S) : por (c2e m ra) (c2e m rb) = c2e m (por ra rb).
Proof. destruct ra as [xs g], rb as [ys h]. unfold c2e. cbn [fst snd]. destruct g; reflexivity. Qed.

Lemma ite_c2e m rc (t:S->res S) e : snd rc <> FCut ->
  ite rc (fun x => c2e m (t x)) (c2e m e) = c2e m (ite rc t e).
Proof. destruct rc as [[|x r] g]; cbn [ite snd]; intros H; [|reflexivity]. destruct g; try reflexivity. congruence. Qed.

Lemma opaque_not_cut (r:res S) : snd (opaque r) <> FCut.
Proof. destruct r as [xs g]; destruct g; simpl; discriminate. Qed.

Lemma sem_loc m b : forall s, sem (loc m b) s = c2e m (sem b s).
Proof.
  induction b as [f a| | | |l|a b IHa IHb|a b Hif IHa IHb|c t e IHc IHt IHe|c t IHc IHt|a IHa] using body_ind'; intros s.
  - cbn [loc RefSem.sem]. destruct (I f a s) as [xs e]. destruct e; reflexivity.
  - reflexivity.
  - reflexivity.
  - reflexivity.
  - reflexivity.
  - cbn [loc RefSem.sem]. rewrite IHa. destruct (RefSem.sem I a s) as [xs e]. cbn [c2e fst snd].
    rewrite (seqr_ext _ (fun x => c2e m (RefSem.sem I b x)) _ _ IHb). apply seqr_c2e.
  - cbn [loc]. rewrite (@sem_or_plain _ I (loc m a) (loc m b) s) by (rewrite isif_loc; exact Hif).
    rewrite (@sem_or_plain _ I a b s Hif), IHa, IHb. apply por_c2e.
  - cbn [loc]. rewrite !sem_or_if. rewrite IHe.
    rewrite (ite_ext _ _ (fun x => c2e m (RefSem.sem I t x)) _ IHt). apply ite_c2e. apply opaque_not_cut.
  - cbn [loc RefSem.sem]. rewrite (ite_ext _ _ (fun x => c2e m (RefSem.sem I t x)) _ IHt).
    change (@nil S, FNorm) with (c2e m (@nil S, FNorm)). apply ite_c2e. apply opaque_not_cut.
  - cbn [loc RefSem.sem].
    change (fun _ : S => (@nil S, FNorm)) with (fun x : S => c2e m ((fun _ : S => (@nil S, FNorm)) x)).
    change ([s], FNorm) with (c2e m ([s], FNorm)). apply ite_c2e. apply opaque_not_cut.
Qed.

Lemma wfm_loc cnt m b k : wfm cnt b = true -> cnt <= k -> m <= k -> wfm k (loc m b) = true.
Proof.
  intros W L1 L2. induction b as [f a| | | |l|a IHa b IHb|a IHa b IHb|c IHc t IHt|a IHa]; cbn [loc wfm] in *.
  - reflexivity.
  - reflexivity.
  - reflexivity.
  - apply Nat.leb_le; exact L2.
  - apply Nat.leb_le in W. apply Nat.leb_le. lia.
  - apply andb_true_iff in W as [Wa Wb]. apply andb_true_iff; split; auto.
  - apply andb_true_iff in W as [Wa Wb]. apply andb_true_iff; split; auto.
  - apply andb_true_iff in W as [Wa Wb]. apply andb_true_iff; split; [exact (@wfm_mono cnt k c L1 Wa)|auto].
  - exact (@wfm_mono cnt k a L1 W).
Qed.

(* the two-block scheme for a condition with a cut of its own *)
Lemma sem_block2 c t e l m s :
  l <> m ->
  snd (sem c s) <> FExit l -> snd (sem c s) <> FExit m ->
  (forall x, snd (sem t x) <> FExit l) -> (forall x, snd (sem t x) <> FExit m) ->
  snd (sem e s) <> FExit l ->
  catch l (por (catch m (sem (BAnd (loc m c) (BAnd (BMark l) t)) s)) (sem e s)) = sem (BOr (BIf c t) e) s.
Proof.
  intros Hlm Xcl Xcm Xtl Xtm Xel.
  rewrite sem_or_if, sem_and, sem_loc. unfold bindr.
  destruct (RefSem.sem I c s) as [xs fc] eqn:Ec. cbn [c2e fst snd] in *.
  destruct xs as [|x r].
  - cbn [seqr]. destruct fc; cbn [c2f opaque ite].
    + cbn [catch]. rewrite por_nil. apply catch_miss. exact Xel.
    + cbn [catch]. rewrite Nat.eqb_refl, por_nil. apply catch_miss. exact Xel.
    + reflexivity.
    + rewrite (@catch_miss m ([], FExit l0)) by exact Xcm. apply (@catch_miss l ([], FExit l0)). exact Xcl.
  - rewrite seqr_mark_then. specialize (Xtl x). specialize (Xtm x).
    replace (ite (opaque (x :: r, fc)) (RefSem.sem I t) (RefSem.sem I e s)) with (RefSem.sem I t x) by (destruct fc; reflexivity).
    destruct (RefSem.sem I t x) as [ys g]; cbn [snd] in *. destruct g.
    + rewrite (@catch_miss m (ys, FExit l)) by (simpl; congruence). cbn [por catch]. rewrite Nat.eqb_refl. reflexivity.
    + reflexivity.
    + reflexivity.
    + rewrite (@catch_miss m (ys, FExit l0)) by exact Xtm. apply (@catch_miss l (ys, FExit l0)). exact Xtl.
Qed.

Lemma ok_block2 cnt c t e c1 c2 k1 :
  wfm cnt c = true -> wfm cnt t = true -> wfm cnt e = true ->
  Datatypes.S (Datatypes.S cnt) <= k1 ->
  ok (Datatypes.S (Datatypes.S cnt)) (BAnd (loc (Datatypes.S (Datatypes.S cnt)) c) (BAnd (BMark (Datatypes.S cnt)) t)) c1 ->
  ok k1 e c2 ->
  ok cnt (BOr (BIf c t) e) [SBlock (Datatypes.S cnt) ([SBlock (Datatypes.S (Datatypes.S cnt)) c1] ++ c2)].
Proof.
  intros Wc Wt We Lk O1 O2. apply ok_okR. apply ok_okR in O1, O2.
  set (l := Datatypes.S cnt) in *. set (m := Datatypes.S l) in *.
  assert (Fr: forall b, wfm cnt b = true -> forall s0 l0, cnt < l0 -> snd (RefSem.sem I b s0) <> FExit l0).
  { intros b W s0 l0 Hl E. apply (@wfm_sem cnt b W) in E. lia. }
  apply okR_ext with (R' := fun s => catch l (por (catch m (RefSem.sem I (BAnd (loc m c) (BAnd (BMark l) t)) s)) (RefSem.sem I e s))).
  { intros s. symmetry. apply sem_block2; try (apply Fr; auto; unfold m, l; lia); try (intros x; apply Fr; auto; unfold m, l; lia). unfold m; lia. }
  apply okR_block; [unfold l; lia|]. apply okR_app.
  - apply okR_block; [unfold m; lia|]. exact O1.
  - apply okR_mono with (cnt' := k1); [unfold l; lia|exact O2].
Qed.

Lemma ok_leaf cnt b code : ok cnt (BAnd b BTrue) code -> ok cnt b code.
Proof. apply ok_ext. intros s. symmetry. apply sem_and_true. Qed.

Lemma rewrites_sem b b' : rewrites b b' -> forall s, sem b s = sem b' s.
Proof.
  intros R s. destruct R as [x K|x y K|c t e K|x y K Hx|c t K|K|b Hb].
  - apply sem_not_and.
  - apply sem_and_assoc.
  - apply sem_ite_distr.
  - apply sem_or_distr. exact Hx.
  - apply sem_if_and.
  - apply sem_true_and.
  - symmetry. apply sem_and_true.
Qed.

Lemma rewrites_wfm cnt b b' : rewrites b b' -> wfm cnt b' = wfm cnt b.
Proof.
  intros R. destruct R as [x K|x y K|c t e K|x y K Hx|c t K|K|b Hb]; simpl; try destruct (wfm cnt K);
    rewrite ?andb_true_r, ?andb_false_r, ?andb_assoc; reflexivity.
Qed.

(* `compiled` is the graph of comp (Comp/CompileTotal.v: comp_compiled); one case per constructor, in their order *)
Lemma compiled_ok b cnt code k : compiled b cnt code k -> wfm cnt b = true -> ok cnt b code.
Proof.
  induction 1 as [b b' cnt code k R _ IH|l K cnt c k _ IH|f args K cnt c k _ IH|K cnt c k _ IH|K cnt
                 |c t e cnt c1 k1 c2 k2 Tc H1 IH1 H2 IH2|c t e cnt code k Tc _ IH
                 |x y cnt c1 k1 c2 k2 Hx H1 IH1 H2 IH2|cnt|cnt]; cbn [wfm]; intros W.
  - apply ok_ext with b'; [exact (rewrites_sem R)|]. apply IH. rewrite (rewrites_wfm cnt R). exact W.
  - apply andb_true_iff in W as [_ W]. apply ok_snoc_break, IH, W.
  - apply ok_foreach, IH, W.
  - apply ok_snoc_return, IH, W.
  - split; [reflexivity|]. intros s f Hf. exists f. simpl. auto.
  - (* the condition has a cut of its own: two blocks *)
    apply andb_true_iff in W as [W We]. apply andb_true_iff in W as [Wc Wt].
    pose proof (compiled_counter _ _ _ _ H1) as L1.
    apply ok_block2 with k1; auto.
    + apply IH1. cbn [wfm]. apply andb_true_iff. split; [apply (@wfm_loc cnt); auto; lia|].
      apply andb_true_iff. split; [apply Nat.leb_le; lia|apply wfm_mono with cnt; [lia|exact Wt]].
    + apply IH2. apply wfm_mono with cnt; [lia|exact We].
  - apply andb_true_iff in W as [W We]. apply andb_true_iff in W as [Wc Wt].
    apply ok_block; auto. apply IH. cbn [wfm]. rewrite Nat.leb_refl.
    rewrite !(@wfm_mono cnt (Datatypes.S cnt)) by (auto; lia). reflexivity.
  - apply andb_true_iff in W as [Wx Wy]. pose proof (compiled_counter _ _ _ _ H1) as L1.
    apply ok_app_or; [exact Hx|apply IH1, Wx|]. apply ok_mono with k1; [exact L1|].
    apply IH2. apply wfm_mono with cnt; [exact L1|exact Wy].
  - split; [reflexivity|]. intros s f Hf. exists f. simpl. auto.
  - split; [reflexivity|]. intros s f Hf. exists f. simpl. auto.
Qed.

Theorem comp_ok : forall n b cnt code cnt',
  comp n b cnt = Some (code,cnt') -> wfm cnt b = true ->
  cnt <= cnt' /\ ok cnt b code.
Proof.
  intros n b cnt code cnt' H W. apply comp_compiled in H.
  split; [exact (compiled_counter _ _ _ _ H)|exact (compiled_ok H W)].
Qed.

Definition fin_of_compl (k:compl) : fin :=
  match k with CNorm | CBrk => FNorm | CRet => FCut | CErr => FErr end.

Fixpoint nomark (b:body) : bool :=
  match b with BMark _ => false | BAnd a b | BOr a b | BIf a b => nomark a && nomark b | BNot a => nomark a | _ => true end.
Lemma nomark_wfm b cnt : nomark b = true -> wfm cnt b = true.
Proof.
  induction b as [f a| | | |m|a IHa b IHb|a IHa b IHb|a IHa b IHb|a IHa]; simpl; intros M; try reflexivity.
  2-4: apply andb_true_iff in M as [Ma Mb]; rewrite IHa, IHb by assumption; reflexivity.
  - discriminate.
  - auto.
Qed.

Lemma nomark_mark b l : nomark b = true -> has_mark l b = false.
Proof.
  induction b as [f a| | | |m|a IHa b IHb|a IHa b IHb|a IHa b IHb|a IHa]; simpl; intros M; try reflexivity.
  2-4: apply andb_true_iff in M as [Ma Mb]; rewrite IHa, IHb by assumption; reflexivity.
  - discriminate.
  - auto.
Qed.

Lemma nomark_sem b : nomark b = true -> forall s l, snd (sem b s) <> FExit l.
Proof.
  intros M s l E. pose proof (sem_ends b s) as H. rewrite E in H. simpl in H.
  rewrite (nomark_mark _ l M) in H. discriminate.
Qed.

(* C05/C06 core: for every body without $CUTIF markers (i.e. every body that can come from source text),
   for every interpretation of the leaves, whatever the label counter is when the body is compiled,
   the emitted code yields exactly the answers of the reference semantics, in order, and ends
   the same way (return <-> cut, exception <-> error), with doBreak false again at the end. *)
Theorem control_correct : forall n b cnt code cnt',
  comp n b cnt = Some (code,cnt') -> nomark b = true ->
  noasg code = true /\
  forall s f, doBreak f = false ->
    exists f', exec_list code s f = (fst (sem b s), cof (snd (sem b s)), f') /\
               (snd (sem b s) = FNorm -> doBreak f' = false) /\
               (forall l, snd (sem b s) <> FExit l).
Proof.
  intros n b cnt code cnt' H M. destruct (comp_ok _ _ _ H (nomark_wfm _ cnt M)) as [_ [NA O]].
  split; [exact NA|]. intros s f Hf.
  destruct (O s f Hf) as [f' [E P]]. exists f'. split; [exact E|].
  pose proof (@nomark_sem b M s) as X. split; [|exact X].
  intros EN. rewrite EN in P. apply P.
Qed.

(* a function whose body is the code of one clause body *)
Corollary control_correct_function : forall n b cnt code cnt',
  comp n b cnt = Some (code,cnt') -> nomark b = true ->
  forall s, (let '(ys,k) := run_function J assign code s in (ys, fin_of_compl k)) = sem b s.
Proof.
  intros n b cnt code cnt' H M s. destruct (control_correct _ _ _ H M) as [_ O].
  unfold run_function. destruct (O s flags0 eq_refl) as [f' [E [_ X]]]. rewrite E.
  destruct (RefSem.sem I b s) as [ys g]; simpl in *. destruct g; try reflexivity.
  exfalso. exact (X l eq_refl).
Qed.
End C.
