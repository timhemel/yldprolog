(* C20, "an exception raised inside the function reaches the consumer of the query unchanged".

   Sem/IRSem.v, Sem/Machine.v and Sem/Native.v record only THAT an enumeration ended by an exception (a bool).  This file
   is the same engine with the exception itself carried along:

       exn = XDepth (RecursionError: call depth exhausted) | XUnify (unification outside the model: fuel, cyclic)
           | XGoal (call/N on a goal that is not callable) | XCode (iterator expression that the compiler never emits)
           | XPy tag (the exception object raised by a registered Python predicate)

   and its theorems:
     erase_nqueryE   forgetting which exception it was gives exactly Sem/Native.nquery (so every theorem about nquery -
                     answers, order, where the enumeration ends - holds of this engine);
     exception_provenance   whatever property Q the engine's own exceptions and the exceptions raised by the registered
                     predicates have, the exception that ends any query has it: nothing in the emitted code, in the builtins
                     or in YP.query creates, wraps or replaces an exception - it is the object that was raised;
     exception_unchanged    the case of predicates that raise nothing but one object XPy tag. *)
From Coq Require Import String.
From Coq Require Import List Arith Bool.
Import ListNotations.
From YP Require Import Base.Str Term.Term Term.Fast Unify.Unify Unify.Fast Lang.Ast Comp.IR Comp.CompileBody
  Sem.Res Sem.IRSem Sem.ExecMono Sem.Machine Sem.Native Sem.NativeThms.
From YP Require Engine.Resolve.
Local Open Scope string_scope.
Local Open Scope list_scope.

Inductive exn := XDepth | XUnify | XGoal | XCode | XPy (tag : nat).

Definition eb (o : option exn) : bool := match o with Some _ => true | None => false end.
Definition er {A} (r : list A * option exn) : list A * bool := (fst r, eb (snd r)).

Inductive complE := ENorm | EBrk | ERet | EErr (x : exn).
Definition cer (k : complE) : compl := match k with ENorm => CNorm | EBrk => CBrk | ERet => CRet | EErr _ => CErr end.

Section ExecE.
Variable S : Type.
Variable J : expr -> S -> list S * option exn.
Variable assign : str -> expr -> S -> S.
Definition outE := (list S * complE * flags)%type.
Definition oer (o : outE) : out S := let '(ys, k, f) := o in (ys, cer k, f).

Definition after_loopE (r : outE) : outE :=
  let '(ys, k, f) := r in
  match k with ENorm => (ys, (if doBreak f then EBrk else ENorm), f) | _ => r end.

Section LoopE.
  Variable body : S -> flags -> outE.
  Fixpoint loopE (e : option exn) (xs : list S) (f : flags) : outE :=
    match xs with
    | [] => ([], (match e with Some x => EErr x | None => ENorm end), f)
    | x :: r => let '(ys, k, f1) := body x f in
        match k with
        | ENorm => let '(zs, k2, f2) := loopE e r f1 in (ys ++ zs, k2, f2)
        | EBrk => (ys, ENorm, f1)
        | _ => (ys, k, f1) end
    end.
End LoopE.

Definition end_blockE l (r : outE) : outE :=
  let '(ys, k, f1) := r in
  match k with
  | ENorm | EBrk =>
      let f2 := if lab f1 l then setbrk false f1 else f1 in
      (ys, (if doBreak f2 then EBrk else ENorm), f2)
  | _ => r end.

Fixpoint exec_stmtE (st : stmt) (s : S) (f : flags) {struct st} : outE :=
  let exec_list := fix exec_list (c : list stmt) (s : S) (f : flags) {struct c} : outE :=
      match c with
      | [] => ([], ENorm, f)
      | SAssign x e :: rest => exec_list rest (assign x e s) f
      | st :: rest => let '(ys, k, f1) := exec_stmtE st s f in
          match k with
          | ENorm => let '(zs, k2, f2) := exec_list rest s f1 in (ys ++ zs, k2, f2)
          | _ => (ys, k, f1) end
      end in
  match st with
  | SAssign _ _ => ([], ENorm, f)
  | SYieldFalse | SYieldTrue => ([s], ENorm, f)
  | SReturn => ([], ERet, f)
  | SBreakBlock l => ([], EBrk, setbrk true (setlab l true f))
  | SForeach it body =>
      let '(xs, e) := J it s in after_loopE (loopE (exec_list body) e xs f)
  | SBlock l body => end_blockE l (exec_list body s (setlab l false f))
  end.

Fixpoint exec_listE (c : list stmt) (s : S) (f : flags) {struct c} : outE :=
  match c with
  | [] => ([], ENorm, f)
  | SAssign x e :: rest => exec_listE rest (assign x e s) f
  | st :: rest => let '(ys, k, f1) := exec_stmtE st s f in
      match k with
      | ENorm => let '(zs, k2, f2) := exec_listE rest s f1 in (ys ++ zs, k2, f2)
      | _ => (ys, k, f1) end
  end.

Lemma exec_stmtE_eq st s f : exec_stmtE st s f =
  match st with
  | SAssign _ _ => ([], ENorm, f)
  | SYieldFalse | SYieldTrue => ([s], ENorm, f)
  | SReturn => ([], ERet, f)
  | SBreakBlock l => ([], EBrk, setbrk true (setlab l true f))
  | SForeach it body =>
      let '(xs, e) := J it s in after_loopE (loopE (exec_listE body) e xs f)
  | SBlock l body => end_blockE l (exec_listE body s (setlab l false f))
  end.
Proof. destruct st; reflexivity. Qed.

Definition run_functionE (code : list stmt) (s : S) : list S * complE :=
  let '(ys, k, _) := exec_listE code s flags0 in (ys, k).

Definition Jb (it : expr) (s : S) : list S * bool := er (J it s).

Lemma loopE_erase (bodyE : S -> flags -> outE) (body : S -> flags -> out S) e xs :
  (forall x f, oer (bodyE x f) = body x f) -> forall f, oer (loopE bodyE e xs f) = loop body (eb e) xs f.
Proof.
  intros H. induction xs as [|x r IH]; intros f; cbn [loopE loop].
  - destruct e; reflexivity.
  - rewrite <- H. destruct (bodyE x f) as [[ys k] f1]. cbn [oer cer]. destruct k; cbn [cer]; try reflexivity.
    rewrite <- IH. destruct (loopE bodyE e r f1) as [[zs k2] f2]. reflexivity.
Qed.

Lemma after_loopE_erase o : oer (after_loopE o) = after_loop (oer o).
Proof. destruct o as [[ys k] f]. destruct k; cbn; try reflexivity. destruct (doBreak f); reflexivity. Qed.

Lemma end_blockE_erase l o : oer (end_blockE l o) = end_block l (oer o).
Proof.
  destruct o as [[ys k] f]. destruct k; cbn [end_blockE end_block oer cer]; try reflexivity;
    destruct (lab f l); cbn [doBreak setbrk]; try reflexivity; destruct (doBreak f); reflexivity.
Qed.

Lemma exec_consE_erase st r :
  (forall s f, oer (exec_stmtE st s f) = exec_stmt Jb assign st s f) ->
  (forall s f, oer (exec_listE r s f) = exec_list Jb assign r s f) ->
  forall s f, oer (exec_listE (st :: r) s f) = exec_list Jb assign (st :: r) s f.
Proof.
  intros Hst Hr s f.
  assert (G : oer (let '(ys, k, f1) := exec_stmtE st s f in
                   match k with ENorm => let '(zs, k2, f2) := exec_listE r s f1 in (ys ++ zs, k2, f2) | _ => (ys, k, f1) end) =
              (let '(ys, k, f1) := exec_stmt Jb assign st s f in
               match k with CNorm => let '(zs, k2, f2) := exec_list Jb assign r s f1 in (ys ++ zs, k2, f2) | _ => (ys, k, f1) end)).
  { rewrite <- Hst. destruct (exec_stmtE st s f) as [[ys k] f1]. destruct k; try reflexivity.
    cbn [oer cer]. rewrite <- Hr. destruct (exec_listE r s f1) as [[zs k2] f2]. reflexivity. }
  (* as in NativeThms.exec_cons_ext: every statement but an assignment has G as its cons case *)
  destruct st; try exact G. apply Hr.
Qed.

Theorem exec_stmtE_erase : forall st s f, oer (exec_stmtE st s f) = exec_stmt Jb assign st s f.
Proof.
  apply (stmt_ind2 (fun st => forall s f, oer (exec_stmtE st s f) = exec_stmt Jb assign st s f)
                   (fun c => forall s f, oer (exec_listE c s f) = exec_list Jb assign c s f)); try reflexivity.
  - intros it body IH s f. rewrite exec_stmtE_eq, exec_stmt_eq. unfold Jb, er. destruct (J it s) as [xs e]. cbn [fst snd].
    rewrite after_loopE_erase, (loopE_erase _ _ e xs IH). reflexivity.
  - intros l body IH s f. rewrite exec_stmtE_eq, exec_stmt_eq, end_blockE_erase, IH. reflexivity.
  - exact exec_consE_erase.
Qed.

Theorem exec_listE_erase : forall c s f, oer (exec_listE c s f) = exec_list Jb assign c s f.
Proof.
  induction c as [|st r IH]; [reflexivity|]. apply exec_consE_erase; [apply exec_stmtE_erase|exact IH].
Qed.

Lemma run_functionE_erase code s :
  (let '(ys, k) := run_functionE code s in (ys, cer k)) = run_function Jb assign code s.
Proof.
  unfold run_functionE, run_function. rewrite <- exec_listE_erase.
  destruct (exec_listE code s flags0) as [[ys k] f]. reflexivity.
Qed.

(* an exception that ends a statement list came out of an iterator *)
Variable Q : exn -> Prop.
Hypothesis QJ : forall it s e, snd (J it s) = Some e -> Q e.
Definition okE (o : outE) : Prop := match snd (fst o) with EErr x => Q x | _ => True end.

Lemma loopE_ok (body : S -> flags -> outE) e xs : (forall x f, okE (body x f)) -> (forall x, e = Some x -> Q x) ->
  forall f, okE (loopE body e xs f).
Proof.
  intros Hb He. induction xs as [|x r IH]; intros f; cbn [loopE].
  - unfold okE; cbn. destruct e; [apply He; reflexivity | exact I].
  - specialize (Hb x f). destruct (body x f) as [[ys k] f1]. destruct k; try exact I.
    + specialize (IH f1). destruct (loopE body e r f1) as [[zs k2] f2]. exact IH.
    + exact Hb.
Qed.

Lemma exec_consE_ok st r : (forall s f, okE (exec_stmtE st s f)) -> (forall s f, okE (exec_listE r s f)) ->
  forall s f, okE (exec_listE (st :: r) s f).
Proof.
  intros Hst Hr s f.
  assert (G : okE (let '(ys, k, f1) := exec_stmtE st s f in
                   match k with ENorm => let '(zs, k2, f2) := exec_listE r s f1 in (ys ++ zs, k2, f2) | _ => (ys, k, f1) end)).
  { specialize (Hst s f). destruct (exec_stmtE st s f) as [[ys k] f1]. destruct k; try exact I; [|exact Hst].
    specialize (Hr s f1). destruct (exec_listE r s f1) as [[zs k2] f2]. exact Hr. }
  (* as in NativeThms.exec_cons_ext: every statement but an assignment has G as its cons case *)
  destruct st; try exact G. apply Hr.
Qed.

Theorem exec_stmtE_ok : forall st s f, okE (exec_stmtE st s f).
Proof.
  apply (stmt_ind2 (fun st => forall s f, okE (exec_stmtE st s f)) (fun c => forall s f, okE (exec_listE c s f)));
    try (intros; exact I).
  - intros it body IH s f. rewrite exec_stmtE_eq. pose proof (QJ it s) as H. destruct (J it s) as [xs e]. cbn [snd] in H.
    pose proof (loopE_ok (exec_listE body) e xs IH (fun x E => H x E) f) as L.
    destruct (loopE (exec_listE body) e xs f) as [[ys k] f1]. destruct k; cbn [after_loopE]; try exact I; [destruct (doBreak f1); exact I | exact L].
  - intros l body IH s f. rewrite exec_stmtE_eq. specialize (IH s (setlab l false f)).
    destruct (exec_listE body s (setlab l false f)) as [[ys k] f1].
    destruct k; cbn [end_blockE]; try exact I; try exact IH; destruct (lab f1 l); cbn [doBreak setbrk]; try exact I; destruct (doBreak f1); exact I.
  - exact exec_consE_ok.
Qed.

Theorem exec_listE_ok : forall c s f, okE (exec_listE c s f).
Proof.
  induction c as [|st r IH]; [intros; exact I|]. apply exec_consE_ok; [apply exec_stmtE_ok|exact IH].
Qed.
End ExecE.
Arguments run_functionE {S} J assign code s.
Arguments Jb {S} J it s.
Arguments exec_listE {S} J assign c s f.
Arguments okE {S} Q o.

Definition eresT := (list st * option exn)%type.
Definition callE := str -> list term -> st -> eresT.

Definition unify_stE (s : st) (a b : term) : eresT :=
  match unify_fast ufuel (sto s) a b with
  | UOk s' => ([{| sto := s'; nxt := nxt s |}], None)
  | UFail => ([], None)
  | UOof | UCyc => ([], Some XUnify)
  end.

(* \= : succeeds, binding nothing, iff the terms do not unify *)
Definition neq_stE (s : st) (a b : term) : eresT :=
  match unify_fast ufuel (sto s) a b with
  | UOk _ => ([], None) | UFail => ([s], None) | _ => ([], Some XUnify) end.

Section BuiltinsE.
Variable call : callE.

Definition call_goalE (g : term) (extra : list term) (s : st) : eresT :=
  match den_fast (sto s) g with
  | TAtom a => call a extra s
  | TFun f gargs => call f (gargs ++ extra) s
  | _ => ([], Some XGoal)
  end.

Definition builtinE (name : str) (args : list term) (s : st) : option eresT :=
  if str_eqb name (s_ "=") then
    match args with [a; b] => Some (unify_stE s a b) | _ => None end
  else if str_eqb name (s_ "\=") then
    match args with
    | [a; b] => Some (neq_stE s a b)
    | _ => None end
  else if str_eqb name (s_ "call") then
    match args with g :: extra => Some (call_goalE g extra s) | [] => Some ([], Some XGoal) end
  else if str_eqb name (s_ "once") then
    match args with
    | [g] => Some (match call_goalE g [] s with (x :: _, _) => ([x], None) | ([], e) => ([], e) end)
    | _ => None end
  else if str_eqb name (s_ "findall") then
    match args with
    | [t; g; l] =>
        Some (let '(xs, e) := call_goalE g [] s in
              match e with
              | Some x => ([], Some x)
              | None => let '(es, b) := collect 0 (nxt s) t xs in
                        unify_stE {| sto := sto s; nxt := b |} l (mk_list es)
              end)
    | _ => None end
  else None.
End BuiltinsE.

Definition iterE (call : callE) (it : expr) (c : cfg) : list cfg * option exn :=
  let '(r, s) := c in
  match it with
  | ECall f [a; b] =>
      if str_eqb f (s_ "unify") then
        let '(xs, e) := unify_stE s (eval_expr r a) (eval_expr r b) in (map (fun x => (r, x)) xs, e)
      else if str_eqb f (s_ "query") then
        match a, b with
        | EStr name, EList args =>
            let '(xs, e) := call name (map (eval_expr r) args) s in (map (fun x => (r, x)) xs, e)
        | _, _ => ([], Some XCode)
        end
      else ([], Some XCode)
  | _ => ([], Some XCode)
  end.

Fixpoint match_rowsE (rows : list frow) (args : list term) (s : st) : eresT :=
  match rows with
  | [] => ([], None)
  | r :: rest =>
      match unify_arrays_fast ufuel (sto s) args (row_terms r s) with
      | UOk s' => let '(zs, e) := match_rowsE rest args s in ({| sto := s'; nxt := nxt s + r_nv r |} :: zs, e)
      | UFail => match_rowsE rest args s
      | UOof | UCyc => ([], Some XUnify)
      end
  end.

(* a registered predicate: answers with yielded values, then possibly the exception object it raises *)
Definition nresE := (list (st * bool) * option exn)%type.
Definition nfunE := list term -> st -> nresE.
Definition dropE (r : nresE) : eresT := (map fst (fst r), snd r).

Record worldE := {
  e_ir  : ir_program;
  e_fix : str -> nat -> option nfunE;
  e_var : str -> option nfunE;
  e_dyn : str -> nat -> list frow
}.

Definition call_functionE (call : callE) (w : worldE) (name : str) (args : list term) (s : st) : eresT :=
  match e_fix w name (length args) with
  | Some f => dropE (f args s)
  | None =>
      match find_func (e_ir w) name (length args) with
      | Some f =>
          let '(ys, k) := run_functionE (iterE call) assign (fn_body f) (bind_args 0 args, s) in
          (map snd ys, match k with EErr x => Some x | _ => None end)
      | None =>
          if str_eqb name (s_ "call") then
            match e_var w name with
            | Some f => dropE (f args s)
            | None => match builtinE call name args s with Some r => r | None => ([], None) end
            end
          else
            match builtinE call name args s with
            | Some r => r
            | None => match e_var w name with Some f => dropE (f args s) | None => ([], None) end
            end
      end
  end.

Definition nstepE (call : callE) (w : worldE) (name : str) (args : list term) (s : st) : eresT :=
  let '(ds, de) := match_rowsE (e_dyn w name (length args)) args s in
  match de with
  | Some x => (ds, Some x)
  | None => if Resolve.reserved name then (ds, None)
            else let '(fs, fe) := call_functionE call w name args s in (ds ++ fs, fe)
  end.

Fixpoint nqueryE (n : nat) (w : worldE) (name : str) (args : list term) (s : st) {struct n} : eresT :=
  match n with
  | O => ([], Some XDepth)
  | S n' => nstepE (nqueryE n' w) w name args s
  end.

Definition run_codeE (call : callE) (code : list stmt) (args : list term) (s : st) : eresT :=
  let '(ys, k) := run_functionE (iterE call) assign code (bind_args 0 args, s) in
  (map snd ys, match k with EErr x => Some x | _ => None end).

Definition fallbackE (call : callE) (v : option nfunE) (name : str) (args : list term) (s : st) : eresT :=
  if str_eqb name (s_ "call") then
    match v with
    | Some f => dropE (f args s)
    | None => match builtinE call name args s with Some r => r | None => ([], None) end
    end
  else
    match builtinE call name args s with
    | Some r => r
    | None => match v with Some f => dropE (f args s) | None => ([], None) end
    end.

Lemma call_functionE_eq call w name args s :
  call_functionE call w name args s =
  match e_fix w name (length args) with
  | Some f => dropE (f args s)
  | None => match find_func (e_ir w) name (length args) with
            | Some f => run_codeE call (fn_body f) args s
            | None => fallbackE call (e_var w name) name args s
            end
  end.
Proof. reflexivity. Qed.

Definition dyn_firstE (rows : list frow) (name : str) (args : list term) (s : st) (r : eresT) : eresT :=
  let '(ds, de) := match_rowsE rows args s in
  match de with
  | Some x => (ds, Some x)
  | None => if Resolve.reserved name then (ds, None) else let '(fs, fe) := r in (ds ++ fs, fe)
  end.

Lemma nstepE_eq call w name args s :
  nstepE call w name args s = dyn_firstE (e_dyn w name (length args)) name args s (call_functionE call w name args s).
Proof. reflexivity. Qed.

Definition erf (f : nfunE) : nfun := fun args s => (fst (f args s), eb (snd (f args s))).
Definition erase_world (w : worldE) : world :=
  {| w_ir := e_ir w; w_fix := fun n k => option_map erf (e_fix w n k);
     w_var := fun n => option_map erf (e_var w n); w_dyn := e_dyn w |}.

Lemma unify_stE_erase s a b : er (unify_stE s a b) = unify_st s a b.
Proof. unfold unify_stE, unify_st. destruct (unify_fast ufuel (sto s) a b); reflexivity. Qed.

Lemma match_rowsE_erase rows args s : er (match_rowsE rows args s) = match_rows rows args s.
Proof.
  induction rows as [|r rest IH]; [reflexivity|]. cbn [match_rowsE match_rows].
  destruct (unify_arrays_fast ufuel (sto s) args (row_terms r s)); try reflexivity; try exact IH.
  rewrite <- IH. destruct (match_rowsE rest args s) as [zs e]. reflexivity.
Qed.

Lemma dyn_firstE_erase rows name args s r :
  er (dyn_firstE rows name args s r) = dyn_first rows name args s (er r).
Proof.
  unfold dyn_firstE, dyn_first. rewrite <- match_rowsE_erase.
  destruct (match_rowsE rows args s) as [ds [x|]]; [reflexivity|]. cbn [er fst snd eb].
  destruct (Resolve.reserved name); [reflexivity|]. destruct r as [fs fe]. reflexivity.
Qed.

Section EraseCall.
Variable cE : callE.
Variable c : callT.
Hypothesis Hc : forall name args s, er (cE name args s) = c name args s.

Lemma call_goalE_erase g extra s : er (call_goalE cE g extra s) = call_goal c g extra s.
Proof. unfold call_goalE, call_goal. destruct (den_fast (sto s) g); try reflexivity; apply Hc. Qed.

Lemma builtinE_erase name args s : option_map er (builtinE cE name args s) = builtin c name args s.
Proof.
  unfold builtinE, builtin.
  destruct (str_eqb name (s_ "=")).
  { destruct args as [|a [|b [|? ?]]]; try reflexivity. cbn [option_map]. rewrite unify_stE_erase. reflexivity. }
  destruct (str_eqb name (s_ "\=")).
  { destruct args as [|a [|b [|? ?]]]; try reflexivity. cbn [option_map]. unfold neq_stE. destruct (unify_fast ufuel (sto s) a b); reflexivity. }
  destruct (str_eqb name (s_ "call")).
  { destruct args as [|g extra]; [reflexivity|]. cbn [option_map]. rewrite call_goalE_erase. reflexivity. }
  destruct (str_eqb name (s_ "once")).
  { destruct args as [|g [|? ?]]; try reflexivity. cbn [option_map]. rewrite <- call_goalE_erase.
    destruct (call_goalE cE g [] s) as [[|x l] e]; reflexivity. }
  destruct (str_eqb name (s_ "findall")); [|reflexivity].
  destruct args as [|t [|g [|l [|? ?]]]]; try reflexivity. cbn [option_map]. rewrite <- call_goalE_erase.
  destruct (call_goalE cE g [] s) as [xs e]. unfold er at 2. cbn [fst snd]. destruct e as [x|]; cbn [eb]; [reflexivity|].
  destruct (collect 0 (nxt s) t xs) as [es b]. rewrite unify_stE_erase. reflexivity.
Qed.

Lemma iterE_erase it cf : er (iterE cE it cf) = iter c it cf.
Proof.
  destruct cf as [r s]. unfold iterE, iter.
  destruct it as [| | |f args|]; try reflexivity.
  destruct args as [|a [|b [|? ?]]]; try reflexivity.
  destruct (str_eqb f (s_ "unify")).
  { rewrite <- unify_stE_erase. destruct (unify_stE s (eval_expr r a) (eval_expr r b)) as [xs e]. reflexivity. }
  destruct (str_eqb f (s_ "query")); [|reflexivity].
  destruct a; try reflexivity. destruct b; try reflexivity.
  rewrite <- Hc. destruct (cE s0 (map (eval_expr r) items) s) as [xs e]. reflexivity.
Qed.

Lemma run_codeE_erase code args s : er (run_codeE cE code args s) = run_code c code args s.
Proof.
  unfold run_codeE, run_code.
  rewrite (@run_function_ext cfg assign (iter c) (Jb (iterE cE)) (fun it cf => eq_sym (iterE_erase it cf))).
  rewrite <- run_functionE_erase. destruct (run_functionE (iterE cE) assign code (bind_args 0 args, s)) as [ys k].
  destruct k; reflexivity.
Qed.

Lemma fallbackE_erase v name args s : er (fallbackE cE v name args s) = fallback c (option_map erf v) name args s.
Proof.
  unfold fallbackE, fallback. rewrite <- builtinE_erase.
  destruct (str_eqb name (s_ "call")).
  - destruct v as [f|]; [reflexivity|]. destruct (builtinE cE name args s); reflexivity.
  - destruct (builtinE cE name args s); [reflexivity|]. destruct v as [f|]; reflexivity.
Qed.

Lemma call_functionE_erase w name args s :
  er (call_functionE cE w name args s) = call_function c (erase_world w) name args s.
Proof.
  rewrite call_functionE_eq, call_function_eq. cbn [erase_world w_fix w_ir w_var].
  destruct (e_fix w name (length args)) as [f|]; [reflexivity|].
  destruct (find_func (e_ir w) name (length args)) as [f|]; [apply run_codeE_erase|apply fallbackE_erase].
Qed.

Lemma nstepE_erase w name args s : er (nstepE cE w name args s) = nstep c (erase_world w) name args s.
Proof. rewrite nstepE_eq, nstep_eq, dyn_firstE_erase, call_functionE_erase. reflexivity. Qed.
End EraseCall.

Theorem erase_nqueryE w : forall n name args s, er (nqueryE n w name args s) = nquery n (erase_world w) name args s.
Proof.
  induction n as [|n IH]; intros name args s; [reflexivity|].
  cbn [nqueryE nquery]. apply nstepE_erase. exact IH.
Qed.

Section Provenance.
Variable Q : exn -> Prop.
Hypothesis Qdepth : Q XDepth.
Hypothesis Qunify : Q XUnify.
Hypothesis Qgoal : Q XGoal.
Hypothesis Qcode : Q XCode.
Variable w : worldE.
Hypothesis Qfix : forall name k f args s e, e_fix w name k = Some f -> snd (f args s) = Some e -> Q e.
Hypothesis Qvar : forall name f args s e, e_var w name = Some f -> snd (f args s) = Some e -> Q e.

Definition okr {A} (r : list A * option exn) : Prop := forall e, snd r = Some e -> Q e.

Lemma okr_none {A} (xs : list A) : okr (xs, None).
Proof. intros e H. discriminate. Qed.

Lemma okr_some {A} (xs : list A) x : Q x -> okr (xs, Some x).
Proof. intros H e E. injection E as <-. exact H. Qed.

Lemma unify_stE_ok s a b : okr (unify_stE s a b).
Proof. unfold unify_stE. destruct (unify_fast ufuel (sto s) a b); try apply okr_none; apply okr_some, Qunify. Qed.

Lemma neq_stE_ok s a b : okr (neq_stE s a b).
Proof. unfold neq_stE. destruct (unify_fast ufuel (sto s) a b); try apply okr_none; apply okr_some, Qunify. Qed.

Lemma match_rowsE_ok rows args s : okr (match_rowsE rows args s).
Proof.
  induction rows as [|r rest IH]; [apply okr_none|]. cbn [match_rowsE].
  destruct (unify_arrays_fast ufuel (sto s) args (row_terms r s)); try exact IH; try (apply okr_some, Qunify).
  destruct (match_rowsE rest args s) as [zs e0]. exact IH.
Qed.

Lemma dyn_firstE_ok rows name args s r : okr r -> okr (dyn_firstE rows name args s r).
Proof.
  intros R. unfold dyn_firstE. pose proof (match_rowsE_ok rows args s) as D.
  destruct (match_rowsE rows args s) as [ds [x|]]; [exact D|].
  destruct (Resolve.reserved name); [apply okr_none|]. destruct r as [fs fe]. exact R.
Qed.

Section OkCall.
Variable cE : callE.
Hypothesis Hc : forall name args s, okr (cE name args s).

Lemma call_goalE_ok g extra s : okr (call_goalE cE g extra s).
Proof. unfold call_goalE. destruct (den_fast (sto s) g); try apply Hc; apply okr_some, Qgoal. Qed.

Lemma builtinE_ok name args s r : builtinE cE name args s = Some r -> okr r.
Proof.
  unfold builtinE.
  destruct (str_eqb name (s_ "=")).
  { destruct args as [|a [|b [|? ?]]]; try discriminate. intros H; injection H as <-. apply unify_stE_ok. }
  destruct (str_eqb name (s_ "\=")).
  { destruct args as [|a [|b [|? ?]]]; try discriminate. intros H; injection H as <-. apply neq_stE_ok. }
  destruct (str_eqb name (s_ "call")).
  { destruct args as [|g extra]; intros H; injection H as <-; [apply okr_some, Qgoal | apply call_goalE_ok]. }
  destruct (str_eqb name (s_ "once")).
  { destruct args as [|g [|? ?]]; try discriminate. intros H; injection H as <-.
    pose proof (call_goalE_ok g [] s) as G. destruct (call_goalE cE g [] s) as [[|x l] e0]; [exact G | apply okr_none]. }
  destruct (str_eqb name (s_ "findall")); [|discriminate].
  destruct args as [|t [|g [|l [|? ?]]]]; try discriminate. intros H; injection H as <-.
  pose proof (call_goalE_ok g [] s) as G. destruct (call_goalE cE g [] s) as [xs [x|]]; [exact G|].
  destruct (collect 0 (nxt s) t xs) as [es b]. apply unify_stE_ok.
Qed.

Lemma iterE_ok it cf : okr (iterE cE it cf).
Proof.
  destruct cf as [r s]. unfold iterE.
  destruct it as [| | |f args|]; try (apply okr_some, Qcode).
  destruct args as [|a [|b [|? ?]]]; try (apply okr_some, Qcode).
  destruct (str_eqb f (s_ "unify")).
  { pose proof (unify_stE_ok s (eval_expr r a) (eval_expr r b)) as U.
    destruct (unify_stE s (eval_expr r a) (eval_expr r b)) as [xs e0]. exact U. }
  destruct (str_eqb f (s_ "query")); [|apply okr_some, Qcode].
  destruct a; try (apply okr_some, Qcode). destruct b; try (apply okr_some, Qcode).
  pose proof (Hc s0 (map (eval_expr r) items) s) as C. destruct (cE s0 (map (eval_expr r) items) s) as [xs e0]. exact C.
Qed.

Lemma run_codeE_ok code args s : okr (run_codeE cE code args s).
Proof.
  unfold run_codeE, run_functionE.
  pose proof (@exec_listE_ok cfg (iterE cE) assign Q iterE_ok code (bind_args 0 args, s) flags0) as O.
  destruct (exec_listE (iterE cE) assign code (bind_args 0 args, s) flags0) as [[ys k] f1].
  destruct k; try apply okr_none. apply okr_some. exact O.
Qed.

Lemma fallbackE_ok v name args s : (forall f, v = Some f -> okr (f args s)) -> okr (fallbackE cE v name args s).
Proof.
  intros Hv. unfold fallbackE.
  assert (V : okr match v with Some f => dropE (f args s) | None => ([], None) end).
  { destruct v as [f|]; [exact (Hv f eq_refl)|apply okr_none]. }
  pose proof (builtinE_ok name args s) as B.
  destruct (str_eqb name (s_ "call")).
  - destruct v as [f|]; [exact V|]. destruct (builtinE cE name args s) as [r|]; [exact (B r eq_refl)|apply okr_none].
  - destruct (builtinE cE name args s) as [r|]; [exact (B r eq_refl)|exact V].
Qed.

Lemma call_functionE_ok name args s : okr (call_functionE cE w name args s).
Proof.
  rewrite call_functionE_eq.
  destruct (e_fix w name (length args)) as [f|] eqn:F.
  { intros e H. exact (Qfix name (length args) f args s e F H). }
  destruct (find_func (e_ir w) name (length args)) as [f|]; [apply run_codeE_ok|].
  apply fallbackE_ok. intros f V e H. exact (Qvar name f args s e V H).
Qed.

Lemma nstepE_ok name args s : okr (nstepE cE w name args s).
Proof. rewrite nstepE_eq. apply dyn_firstE_ok, call_functionE_ok. Qed.
End OkCall.

(* the exception that ends a query is one of the engine's own or one that a registered predicate raised - the very object *)
Theorem exception_provenance : forall n name args s e, snd (nqueryE n w name args s) = Some e -> Q e.
Proof.
  induction n as [|n IH]; intros name args s e H.
  - injection H as <-. exact Qdepth.
  - cbn [nqueryE] in H. exact (nstepE_ok (nqueryE n w) (fun nm a s0 e0 => IH nm a s0 e0) name args s e H).
Qed.
End Provenance.

(* the predicate of the property: it raises the exception object `XPy tag` instead of delivering its answer number j *)
Definition raisingE (f : nfunE) (j : nat) (tag : nat) : nfunE :=
  fun args s => let '(xs, e) := f args s in if Nat.ltb j (length xs) then (firstn j xs, Some (XPy tag)) else (xs, e).

Definition engine_exn (e : exn) : Prop := e = XDepth \/ e = XUnify \/ e = XGoal \/ e = XCode.

(* if the registered predicates raise nothing but `XPy tag`, then whatever ends a query is the engine's own exception or
   exactly that object *)
Corollary exception_unchanged w tag :
  (forall name k f args s e, e_fix w name k = Some f -> snd (f args s) = Some e -> e = XPy tag) ->
  (forall name f args s e, e_var w name = Some f -> snd (f args s) = Some e -> e = XPy tag) ->
  forall n name args s e, snd (nqueryE n w name args s) = Some e -> engine_exn e \/ e = XPy tag.
Proof.
  intros Hf Hv. apply (exception_provenance (fun e => engine_exn e \/ e = XPy tag)); unfold engine_exn; auto 6.
  - intros name k f args s e F H. right. exact (Hf name k f args s e F H).
  - intros name f args s e F H. right. exact (Hv name f args s e F H).
Qed.
