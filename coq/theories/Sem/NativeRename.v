(* C20 for rows WITH VARIABLES: a Python predicate over rows with variables creates fresh variables for the row at each
   use (Native.row_terms: cells nxt .. nxt+nv-1), the compiled fact creates fresh cells for the clause's variables
   (ClauseSem.clause_enter; the cells of the earlier clauses of the function stay allocated).  The two engines therefore
   number their cells differently and their answers can only be equal up to an injective renaming of the cells created
   during the query - the relation rel_st / ans_rel / same_answer of Sem/RenameSim.v.

   This holds for the rows in which the compiler "aliases" no head argument (noalias: no argument is a plain
   variable occurring once among the top-level arguments).  For an aliased row - p(X). - it is FALSE for same_answer
   (native_equals_compiled_facts_same_answer_refuted): the compiled code only names the goal argument (V_X = arg1,
   nothing is bound), the Python predicate unifies the goal argument with its fresh variable, and unify(arg, X') binds
   the unbound goal variable to X'.  The answers are variants of each other, but not by a renaming that fixes the
   query's own variables. *)
From Coq Require Import String.
From Coq Require Import List Arith Bool Lia.
Import ListNotations.
From YP Require Import Base.Str Term.Term Term.Fast Unify.Unify Unify.Fast Unify.Bounded Unify.Rename
  Lang.Ast Comp.IR Comp.CompileBody Comp.CompileClause
  Sem.Res Sem.RefSem Sem.SemRel Sem.IRSem Sem.Machine Sem.ClauseSem Sem.ProgramCorrect
  Sem.Fresh Sem.RenameSim Sem.Native Sem.NativeThms Sem.NativeFacts Sem.NativeSource.
From YP Require Comp.EmitShape Engine.Resolve.
Local Open Scope string_scope.
Local Open Scope list_scope.


Lemma tshift_fun off f args : tshift off (TFun f args) = TFun f (map (tshift off) args).
Proof. cbn [tshift]. rewrite tshift_map. reflexivity. Qed.

Lemma tshift_bounded off nv t : bounded nv t -> bounded (off + nv) (tshift off t).
Proof.
  induction t as [a|z|x|v|f args IH] using term_ind'; intros B; try (intros w Hw; discriminate).
  - cbn [tshift]. apply bounded_var. assert (v < nv) by (apply B; simpl; apply Nat.eqb_refl). lia.
  - rewrite tshift_fun. apply bounded_fun. apply bounded_fun in B.
    apply Forall_forall. intros y Hy. apply in_map_iff in Hy as [x0 [<- Hx]].
    apply (proj1 (Forall_forall _ _) IH x0 Hx). exact (proj1 (Forall_forall _ _) B x0 Hx).
Qed.

Lemma tshift_low off t w : occurs w (tshift off t) = true -> off <= w.
Proof.
  induction t as [a|z|x|v|f args IH] using term_ind'; intros Hw; try discriminate.
  - cbn [tshift] in Hw. simpl in Hw. apply Nat.eqb_eq in Hw. lia.
  - rewrite tshift_fun in Hw. simpl in Hw. rewrite existsb_exists in Hw. destruct Hw as [y [Hy Ho]].
    apply in_map_iff in Hy as [x0 [<- Hx]]. exact (proj1 (Forall_forall _ _) IH x0 Hx Ho).
Qed.

Lemma ren_tshift p offA offR nv t : (forall i, i < nv -> p (i + offA) = i + offR) -> bounded nv t ->
  ren p (tshift offA t) = tshift offR t.
Proof.
  intros Hp. induction t as [a|z|x|v|f args IH] using term_ind'; intros B; try reflexivity.
  - cbn [tshift ren]. rewrite Hp; [reflexivity|]. apply B. simpl. apply Nat.eqb_refl.
  - rewrite !tshift_fun. cbn [ren]. f_equal. rewrite map_map. apply map_ext_in. intros y Hy.
    apply (proj1 (Forall_forall _ _) IH y Hy). apply bounded_fun in B. exact (proj1 (Forall_forall _ _) B y Hy).
Qed.

Lemma tshift_den_id k s off t : store_bounded k s -> k <= off -> den s (tshift off t) = tshift off t.
Proof.
  intros SB L. apply den_id. intros w Hw. apply (lookup_bounded_none k); [exact SB|].
  pose proof (tshift_low _ _ _ Hw). lia.
Qed.


Definition frow_ok (r : frow) : Prop := Forall (bounded (r_nv r)) (r_vals r).

Lemma rel_vals_mono p sA sR p' sA' sR' la lb :
  rel_st p sA sR -> rel_st p' sA' sR' -> agree (nxt sA) p p' -> grows sA sA' -> grows sR sR' ->
  Forall2 (rel_val p sA sR) la lb -> Forall2 (rel_val p' sA' sR') la lb.
Proof. intros R R' A GA GR. apply Forall2_imp. intros a b. exact (rel_val_mono _ _ _ _ _ _ _ _ R R' A GA GR). Qed.

Lemma arr_rel : forall xsA xsR ysA ysR p sA sR, rel_st p sA sR ->
  Forall2 (rel_val p sA sR) xsA xsR -> Forall2 (rel_val p sA sR) ysA ysR ->
  urel p sA sR (arr (unify_fast ufuel) xsA ysA (sto sA)) (arr (unify_fast ufuel) xsR ysR (sto sR)).
Proof.
  induction xsA as [|a la IH]; intros xsR ysA ysR p sA sR R X Y.
  - inversion X; subst. inversion Y; subst; cbn [arr]; [|constructor].
    constructor; [rewrite !st_eta; exact R|apply ext_refl|apply ext_refl].
  - inversion X as [|? aR ? lR Va X']; subst. inversion Y as [|b bR lb lbR Vb Y']; subst; cbn [arr]; [constructor|].
    destruct (unify_fast_rel p sA sR a b aR bR ufuel R Va Vb) as [s1 s1R R1 XA XR| | |]; [|constructor|constructor|constructor].
    pose proof (grows_sto sA s1 XA) as GA. pose proof (grows_sto sR s1R XR) as GR.
    pose proof (IH lR lb lbR p _ _ R1
      (rel_vals_mono _ _ _ _ _ _ _ _ R R1 (agree_refl _ _) GA GR X')
      (rel_vals_mono _ _ _ _ _ _ _ _ R R1 (agree_refl _ _) GA GR Y')) as H2.
    cbn [sto nxt] in H2.
    destruct H2 as [s2 s2R R2 XA2 XR2| | |]; constructor; [exact R2| |].
    + exact (ext_trans XA XA2).
    + exact (ext_trans XR XR2).
Qed.

Lemma row_terms_rel r p' sA sR kR :
  frow_ok r -> inv sA -> inv sR -> nxt sR <= kR -> (forall i, i < r_nv r -> p' (nxt sA + i) = kR + i) ->
  Forall2 (rel_val p' (at_nxt sA (nxt sA + r_nv r)) (at_nxt sR (kR + r_nv r)))
          (map (tshift (nxt sA)) (r_vals r)) (map (tshift kR) (r_vals r)).
Proof.
  intros OK IA IR L Pn.
  assert (Pn': forall i, i < r_nv r -> p' (i + nxt sA) = i + kR).
  { intros i Li. rewrite (Nat.add_comm i (nxt sA)), (Nat.add_comm i kR). exact (Pn i Li). }
  induction OK as [|t l Bt Bl IHl]; cbn [map]; constructor; [|exact IHl].
  split; [apply tshift_bounded; exact Bt|]. split; [apply tshift_bounded; exact Bt|].
  cbn [sto at_nxt]. rewrite (tshift_den_id (nxt sR) (sto sR) kR t IR L), (tshift_den_id (nxt sA) (sto sA) (nxt sA) t IA (le_n _)).
  symmetry. exact (ren_tshift p' (nxt sA) kR (r_nv r) t Pn' Bt).
Qed.

(* the row r unified with related goal arguments: on the left its variables are the cells nxt sA .., on the right the
   cells kR .. for any kR >= nxt sR *)
Lemma row_rel r p sA sR kR argsA argsR :
  frow_ok r -> rel_st p sA sR -> nxt sR <= kR -> Forall2 (rel_val p sA sR) argsA argsR ->
  match arr (unify_fast ufuel) argsA (row_terms r sA) (sto sA) with
  | UOk s1 => exists s1R, arr (unify_fast ufuel) argsR (map (tshift kR) (r_vals r)) (sto sR) = UOk s1R /\
                ans_rel p sA sR {| sto := s1; nxt := nxt sA + r_nv r |} {| sto := s1R; nxt := kR + r_nv r |}
  | x => arr (unify_fast ufuel) argsR (map (tshift kR) (r_vals r)) (sto sR) = x
  end.
Proof.
  intros OK R L E. unfold row_terms.
  destruct (block_shift_rel p sA sR kR (r_nv r) R L) as [p' [R1 [F1 Pn]]].
  set (SA1 := at_nxt sA (nxt sA + r_nv r)) in *. set (SR1 := at_nxt sR (kR + r_nv r)) in *.
  pose proof F1 as [A1 [GA [GR _]]].
  pose proof (row_terms_rel r p' sA sR kR OK (r_invA R) (r_invR R) L Pn) as Y. fold SA1 SR1 in Y.
  pose proof (arr_rel argsA argsR _ _ p' SA1 SR1 R1 (rel_vals_mono _ _ _ _ _ _ _ _ R R1 A1 GA GR E) Y) as H.
  cbn [sto nxt at_nxt SA1 SR1] in H.
  destruct H as [s1 s1R R2 XA XR| | |]; try reflexivity.
  exists s1R. split; [reflexivity|]. apply ans_rel_iff. exists p'. split; [exact R2|].
  exact (frame_ext_trans F1 (frame_ext_grow p' SA1 SR1 _ _ (grows_sto SA1 s1 XA) (grows_sto SR1 s1R XR) eq_refl)).
Qed.

(* the row loop (stored facts; Python predicate over rows) from related states *)
Lemma match_rows_rel rows : Forall frow_ok rows -> forall p sA sR argsA argsR,
  rel_st p sA sR -> Forall2 (rel_val p sA sR) argsA argsR ->
  res_rel p sA sR (match_rows rows argsA sA) (match_rows rows argsR sR).
Proof.
  induction 1 as [|r rest OK F IH]; intros p sA sR argsA argsR R E; cbn [match_rows].
  - split; [constructor|reflexivity].
  - unfold unify_arrays_fast, row_terms. rewrite !map_length, <- (Forall2_length_eq _ _ _ E).
    destruct (Nat.eqb (length argsA) (length (r_vals r))); [|apply IH; assumption].
    pose proof (row_rel r p sA sR (nxt sR) argsA argsR OK R (le_n _) E) as H. unfold row_terms in H.
    destruct (IH p sA sR argsA argsR R E) as [Q1 Q2].
    destruct (arr (unify_fast ufuel) argsA (map (tshift (nxt sA)) (r_vals r)) (sto sA)) as [s1| | |].
    + destruct H as [s1R [U HA]]. rewrite U.
      destruct (match_rows rest argsA sA) as [zsA eA], (match_rows rest argsR sR) as [zsR eR]. cbn [fst snd] in *.
      split; [constructor; assumption|exact Q2].
    + rewrite H. split; assumption.
    + rewrite H. split; [constructor|reflexivity].
    + rewrite H. split; [constructor|reflexivity].
Qed.


(* the variables of a row in order of first occurrence - what the compiler declares for a clause without aliased
   arguments, and how the Python predicate of the check numbers them *)
Definition row_vars (row : list sterm) : list str := filter_free [] (flat_map sterm_vars row).
Definition row_env (vs : list str) (off : nat) : env := fst (fresh_env vs [] off).
Definition row_of_src (row : list sterm) : frow :=
  {| r_vals := map (instA (row_env (row_vars row) 0)) row; r_nv := length (row_vars row) |}.

Lemma env_get_app x a b : env_get x (a ++ b) = match env_get x a with Some t => Some t | None => env_get x b end.
Proof. induction a as [|[k t] r IH]; cbn [app env_get]; [reflexivity|]. destruct (str_eqb x k); [reflexivity|exact IH]. Qed.

Lemma fresh_env_fst vs r k : fst (fresh_env vs r k) = row_env vs k ++ r.
Proof. unfold row_env. rewrite !fresh_env_cells. cbn [fst]. rewrite app_nil_r. reflexivity. Qed.

Lemma fresh_env_shift off vs : forall r0 r1 k,
  (forall x, env_get x r1 = option_map (tshift off) (env_get x r0)) ->
  forall x, env_get x (fst (fresh_env vs r1 (k + off))) = option_map (tshift off) (env_get x (fst (fresh_env vs r0 k))).
Proof.
  induction vs as [|v l IH]; intros r0 r1 k H x; cbn [fresh_env]; [apply H|].
  apply (IH ((pyvar v, TVar k) :: r0) ((pyvar v, TVar (k + off)) :: r1) (S k)).
  intros y. cbn [env_get]. destruct (str_eqb y (pyvar v)); [reflexivity|apply H].
Qed.

Lemma row_env_shift vs off x : env_get x (row_env vs off) = option_map (tshift off) (env_get x (row_env vs 0)).
Proof. unfold row_env. apply (fresh_env_shift off vs [] [] 0). intros y. reflexivity. Qed.

Lemma instA_tshift off r0 r1 : (forall x, env_get x r1 = option_map (tshift off) (env_get x r0)) ->
  forall t, instA r1 t = tshift off (instA r0 t).
Proof.
  intros H t. induction t as [a|n|v|f args IH|items IH|h t IHh IHt] using sterm_ind'; cbn [instA].
  - reflexivity.
  - reflexivity.
  - rewrite H. destruct (env_get (pyvar v) r0); reflexivity.
  - rewrite tshift_fun, map_map. f_equal. apply map_ext_Forall. exact IH.
  - rewrite tshift_mk_list, map_map. f_equal. apply map_ext_Forall. exact IH.
  - unfold cons_term. cbn [tshift]. rewrite IHh, IHt. reflexivity.
Qed.

Lemma instA_ext_on r r' t : (forall v, In v (sterm_vars t) -> env_get (pyvar v) r = env_get (pyvar v) r') ->
  instA r t = instA r' t.
Proof.
  induction t as [a|n|v|f args IH|items IH|h t IHh IHt] using sterm_ind'; intros H; cbn [instA].
  - reflexivity.
  - reflexivity.
  - rewrite (H v); [reflexivity|left; reflexivity].
  - f_equal. apply map_ext_in. intros y Hy. apply (proj1 (Forall_forall _ _) IH y Hy).
    intros v Hv. apply H. cbn [sterm_vars]. apply in_flat_map. exists y. split; assumption.
  - f_equal. apply map_ext_in. intros y Hy. apply (proj1 (Forall_forall _ _) IH y Hy).
    intros v Hv. apply H. cbn [sterm_vars]. apply in_flat_map. exists y. split; assumption.
  - rewrite IHh, IHt; [reflexivity| |]; intros v Hv; apply H; cbn [sterm_vars]; apply in_or_app; auto.
Qed.

Lemma fresh_env_has v vs : forall r k, In v vs \/ env_get (pyvar v) r <> None ->
  env_get (pyvar v) (fst (fresh_env vs r k)) <> None.
Proof.
  induction vs as [|v0 l IH]; intros r k H; cbn [fresh_env].
  - destruct H as [[]|H]; exact H.
  - apply IH. destruct H as [[->|Hin]|Hr].
    + right. cbn [env_get]. rewrite str_eqb_refl. discriminate.
    + left. exact Hin.
    + right. cbn [env_get]. destruct (str_eqb (pyvar v) (pyvar v0)); [discriminate|exact Hr].
Qed.

Lemma argvar_not_pyvar j v : str_eqb (argvar j) (pyvar v) = false.
Proof. reflexivity. Qed.

Lemma fresh_env_argvar j vs : forall r k, env_get (argvar j) (fst (fresh_env vs r k)) = env_get (argvar j) r.
Proof.
  induction vs as [|v0 l IH]; intros r k; cbn [fresh_env]; [reflexivity|].
  rewrite IH. cbn [env_get]. rewrite argvar_not_pyvar. reflexivity.
Qed.

Lemma row_of_src_ok row : frow_ok (row_of_src row).
Proof.
  unfold frow_ok, row_of_src. cbn [r_vals r_nv]. apply Forall_map, Forall_forall. intros a _.
  apply instA_bounded. unfold row_env.
  destruct (fresh_env (row_vars row) [] 0) as [r2 k2] eqn:E. destruct (fresh_env_spec _ _ _ _ _ E) as [Ek B].
  cbn [fst]. subst k2. cbn in B. apply B. intros x t [].
Qed.


Definition noalias (row : list sterm) : Prop := head_args_by_pos row = map (fun _ => None) row.

Lemma ground_noalias row : ground_row row = true -> noalias row.
Proof. intros G. exact (fact_pos (s_ "p") row G). Qed.

Lemma alias_none (row : list sterm) r : forall i, alias_env i (map (fun _ => None) row) r = r.
Proof. induction row as [|a l IH]; intros i; [reflexivity|]. cbn [map alias_env]. apply IH. Qed.

Lemma noalias_enter name row rR s : noalias row ->
  clause_enter (fact_clause name row) (rR, s) =
  (row_env (row_vars row) (nxt s) ++ rR, {| sto := sto s; nxt := nxt s + length (row_vars row) |}).
Proof.
  intros NA. unfold clause_enter, clause_fv_head, clause_fv_body, clause_pos. cbn [fact_clause c_args c_body body_vars].
  rewrite NA, some_list_none, alias_none. cbn [app]. fold (row_vars row).
  change (filter_free (row_vars row) []) with (@nil str). rewrite app_nil_r.
  destruct (fresh_env (row_vars row) rR (nxt s)) as [r2 k] eqn:E.
  pose proof (fresh_env_fst (row_vars row) rR (nxt s)) as E1. pose proof (fresh_env_snd (row_vars row) rR (nxt s)) as E2.
  rewrite E in E1, E2. cbn [fst snd] in E1, E2. subst. reflexivity.
Qed.

Lemma noalias_head_terms row rR k : map (instA (row_env (row_vars row) k ++ rR)) row = map (tshift k) (r_vals (row_of_src row)).
Proof.
  cbn [row_of_src r_vals]. rewrite map_map. apply map_ext_in. intros a Ha.
  rewrite <- (instA_tshift k (row_env (row_vars row) 0) (row_env (row_vars row) k) (row_env_shift _ k) a).
  apply instA_ext_on. intros v Hv. rewrite env_get_app.
  assert (In v (row_vars row)) as Hin.
  { destruct (EmitShape.filter_free_cover [] (flat_map sterm_vars row) v) as [[]|H]; [|exact H].
    apply in_flat_map. exists a. split; assumption. }
  pose proof (fresh_env_has v (row_vars row) [] k (or_introl Hin)) as NN. fold (row_env (row_vars row) k) in NN.
  destruct (env_get (pyvar v) (row_env (row_vars row) k)); [reflexivity|congruence].
Qed.

Lemma noalias_argval row rR k j : argval j (row_env (row_vars row) k ++ rR) = argval j rR.
Proof. unfold argval. rewrite <- fresh_env_fst, fresh_env_argvar. reflexivity. Qed.

(* the Python predicate's row loop (left) and the clause loop of the compiled facts (right; entered with the cells of
   the earlier clauses already allocated: sRk) from related states *)
Section FactsRows.
Variable call : str -> list term -> st -> list st * bool.
Variable name : str.

Lemma facts_rows_rel rows : forall p sA sR argsA argsR rR sRk,
  rel_st p sA sR -> Forall2 (rel_val p sA sR) argsA argsR ->
  Forall (fun row => noalias row /\ length row = length argsA) rows ->
  sto sRk = sto sR -> nxt sR <= nxt sRk -> (forall j, argval j rR = argval j (bind_args 0 argsR)) ->
  Forall2 (ans_rel p sA sR) (fst (match_rows (map row_of_src rows) argsA sA))
                            (map snd (fst (clausesA call (map (fact_clause name) rows) (rR, sRk)))) /\
  snd (match_rows (map row_of_src rows) argsA sA) =
  match snd (clausesA call (map (fact_clause name) rows) (rR, sRk)) with FErr => true | _ => false end.
Proof.
  induction rows as [|row rest IH]; intros p sA sR argsA argsR rR sRk R E F ES LS AV.
  - cbn. split; [constructor|reflexivity].
  - inversion F as [|? ? [NA L] Fr]; subst.
    cbn [map clausesA match_rows]. rewrite (noalias_enter name row rR sRk NA).
    set (r2 := row_env (row_vars row) (nxt sRk) ++ rR).
    set (s2 := {| sto := sto sRk; nxt := nxt sRk + length (row_vars row) |}).
    unfold clause_res, clause_pos. cbn [fact_clause c_args c_body]. rewrite NA.
    rewrite head_unify_arr. cbn [sto nxt s2]. replace (map (instA r2) row) with (map (tshift (nxt sRk)) (r_vals (row_of_src row))) by (symmetry; apply noalias_head_terms).
    assert (EA: map (fun j => argval j r2) (seq 0 (length row)) = argsR).
    { rewrite L, (Forall2_length_eq _ _ _ E). rewrite <- (argvals_bind argsR) at 2. apply map_ext. intros j.
      unfold r2. rewrite noalias_argval. apply AV. }
    rewrite EA, ES.
    unfold unify_arrays_fast, row_terms. rewrite !map_length. cbn [row_of_src r_vals]. rewrite map_length, L, Nat.eqb_refl.
    pose proof (row_rel (row_of_src row) p sA sR (nxt sRk) argsA argsR (row_of_src_ok row) R LS E) as H.
    unfold row_terms in H. cbn [row_of_src r_vals r_nv] in H.
    assert (IH': Forall2 (ans_rel p sA sR) (fst (match_rows (map row_of_src rest) argsA sA))
                   (map snd (fst (clausesA call (map (fact_clause name) rest) (r2, s2)))) /\
                 snd (match_rows (map row_of_src rest) argsA sA) =
                 match snd (clausesA call (map (fact_clause name) rest) (r2, s2)) with FErr => true | _ => false end).
    { apply (IH p sA sR argsA argsR r2 s2 R E Fr); cbn [sto nxt s2]; [exact ES|lia|].
      intros j. unfold r2. rewrite noalias_argval. apply AV. }
    destruct IH' as [Q1 Q2].
    destruct (arr (unify_fast ufuel) argsA (map (tshift (nxt sA)) (map (instA (row_env (row_vars row) 0)) row)) (sto sA)) as [s1| | |].
    + destruct H as [s1R [U HA]]. rewrite U. cbn [NativeFacts.lift sem].
      destruct (match_rows (map row_of_src rest) argsA sA) as [zsA eA].
      destruct (clausesA call (map (fact_clause name) rest) (r2, s2)) as [zsR gR]. cbn [fst snd map app] in *.
      split; [constructor; [exact HA|exact Q1]|exact Q2].
    + rewrite H. cbn [NativeFacts.lift].
      destruct (match_rows (map row_of_src rest) argsA sA) as [zsA eA].
      destruct (clausesA call (map (fact_clause name) rest) (r2, s2)) as [zsR gR]. cbn [fst snd map app] in *.
      split; assumption.
    + rewrite H. cbn [NativeFacts.lift fst snd map]. split; [constructor|reflexivity].
    + rewrite H. cbn [NativeFacts.lift fst snd map]. split; [constructor|reflexivity].
Qed.
End FactsRows.


(* the generator function compiled from name(row_1). ... name(row_n). and the Python predicate over the same rows, called
   from related states with related arguments (in particular: from the same state with the same arguments), deliver the
   same number of answers, in the same order, ending the same way, the k-th answers related by an injective renaming of
   the cells created by the call *)
Theorem native_equals_compiled_facts_rel call name rows vals cnt code cnt' p sA sR argsA argsR :
  compile_clauses (map (fact_clause name) rows) cnt = Some (code, cnt') ->
  Forall (fun row => noalias row /\ length row = length argsA) rows ->
  rel_st p sA sR -> Forall2 (rel_val p sA sR) argsA argsR ->
  res_rel p sA sR (drop (native_rows (map row_of_src rows) vals argsA sA))
    (let '(ys, k) := run_function (iter call) assign code (bind_args 0 argsR, sR) in
     (map snd ys, match k with CErr => true | _ => false end)).
Proof.
  intros HC F R E. rewrite drop_native_rows.
  change (res_rel p sA sR (match_rows (map row_of_src rows) argsA sA) (run_code call code argsR sR)).
  rewrite (run_clauses call _ cnt code cnt' argsR sR HC (facts_good name rows)).
  exact (facts_rows_rel call name rows p sA sR argsA argsR (bind_args 0 argsR) sR R E F eq_refl (le_n _) (fun j => eq_refl)).
Qed.

Theorem native_equals_compiled_facts_renaming call name rows vals cnt code cnt' args s :
  compile_clauses (map (fact_clause name) rows) cnt = Some (code, cnt') ->
  Forall (fun row => noalias row /\ length row = length args) rows ->
  wf (sto s) -> inv s -> Forall (bounded (nxt s)) args ->
  let rN := drop (native_rows (map row_of_src rows) vals args s) in
  let rC := (let '(ys, k) := run_function (iter call) assign code (bind_args 0 args, s) in
             (map snd ys, match k with CErr => true | _ => false end)) in
  Forall2 (same_answer s) (fst rN) (fst rC) /\ snd rN = snd rC.
Proof.
  intros HC F W I B. cbv zeta. apply res_rel_same_answer.
  apply (native_equals_compiled_facts_rel call name rows vals cnt code cnt' id_ren s s args args HC F (rel_st_id s W I)
           (rel_vals_id s args B)).
Qed.

Lemma row_of_src_ground row : ground_row row = true -> row_of_src row = row_of row.
Proof.
  intros G. unfold row_of_src, row_of, row_vars. rewrite (ground_row_vars row G). cbn. f_equal.
Qed.


Definition cx_rows : list (list sterm) := [[SVar (s_ "X")]].
Definition cx_code : list stmt :=
  match compile_clauses (map (fact_clause (s_ "p")) cx_rows) 0 with Some (c, _) => c | None => [] end.
Definition cx_s : st := {| sto := []; nxt := 1 |}.
Definition cx_call : str -> list term -> st -> list st * bool := fun _ _ _ => ([], false).
Definition cx_native : st := {| sto := [(0, TVar 1)]; nxt := 2 |}.     (* the query's variable is bound to the row's fresh one *)
Definition cx_compiled : st := {| sto := []; nxt := 1 |}.              (* nothing is bound *)

Theorem native_equals_compiled_facts_same_answer_refuted :
  compile_clauses (map (fact_clause (s_ "p")) cx_rows) 0 = Some (cx_code, 0) /\
  wf (sto cx_s) /\ inv cx_s /\ Forall (bounded (nxt cx_s)) [TVar 0] /\
  drop (native_rows (map row_of_src cx_rows) [] [TVar 0] cx_s) = ([cx_native], false) /\
  (let '(ys, k) := run_function (iter cx_call) assign cx_code (bind_args 0 [TVar 0], cx_s) in
   (map snd ys, match k with CErr => true | _ => false end)) = ([cx_compiled], false) /\
  ~ same_answer cx_s cx_native cx_compiled /\ ~ same_answer cx_s cx_compiled cx_native.
Proof.
  split; [reflexivity|]. split; [constructor|]. split; [intros v t []|].
  split; [constructor; [apply bounded_var; cbn; lia|constructor]|].
  split; [vm_compute; reflexivity|]. split; [vm_compute; reflexivity|]. split.
  - intros [p' [Inj [Id D]]]. specialize (D 0 (le_n 1)). specialize (Id 0 (le_n 1)). cbn in D, Id.
    injection D as D. assert (1 = 0) as X by (apply Inj; cbn; lia). discriminate.
  - intros [p' [Inj [Id D]]]. specialize (D 0 (le_n 1)). specialize (Id 0 (le_n 1)). cbn in D, Id.
    injection D as D. lia.
Qed.


Lemma alias_env_rel p sA sR pos : forall i rA rR, rel_env p sA sR rA rR ->
  rel_env p sA sR (alias_env i pos rA) (alias_env i pos rR).
Proof.
  induction pos as [|[v|] pr IH]; intros i rA rR E; cbn [alias_env]; auto.
  apply IH. constructor; [|exact E]. split; [reflexivity|]. cbn [snd]. apply argval_rel. exact E.
Qed.

Lemma enter_relAA p0 sA0 sR0 c rA sA rR sR : cfg_rel0 p0 sA0 sR0 (rA, sA) (rR, sR) ->
  cfg_rel0 p0 sA0 sR0 (clause_enter c (rA, sA)) (clause_enter c (rR, sR)).
Proof.
  intros H. apply cfg_rel0_iff in H as [p1 [R1 [E1 F1]]]. rewrite !clause_enter_eq. apply cfg_fresh_rel.
  apply cfg_rel0_iff. exists p1. cbn [fst snd] in *. split; [exact R1|]. split; [apply alias_env_rel; exact E1|exact F1].
Qed.

Section ActivationAA.
Variables cA cR : str -> list term -> st -> list st * bool.
Hypothesis Hcall : call_rel cA cR.
Variable p0 : nat -> nat.
Variables sA0 sR0 : st.

Lemma clausesAA_rel cs : forall c1 c2, cfg_rel0 p0 sA0 sR0 c1 c2 ->
  Forall2 (cfg_rel0 p0 sA0 sR0) (fst (clausesA cA cs c1)) (fst (clausesA cR cs c2)) /\
  snd (clausesA cA cs c1) = snd (clausesA cR cs c2).
Proof.
  induction cs as [|c rest IH]; intros c1 c2 H; [split; [constructor|reflexivity]|].
  rewrite !clausesA_cons. destruct c1 as [rA sA], c2 as [rR sR].
  pose proof (enter_relAA p0 sA0 sR0 c rA sA rR sR H) as H1.
  apply (por_rel cfg cfg (cfg_rel0 p0 sA0 sR0)); [apply (clause_res_rel cA cR Hcall); exact H1|apply IH; exact H1].
Qed.
End ActivationAA.


Definition py_fun_src (x : list (list sterm) * list bool) : nfun := native_rows (map row_of_src (fst x)) (snd x).
Definition py_table_src (l : list pyspec) : list (str * nat * nfun) := map (fun e => (fst e, py_fun_src (snd e))) l.

(* stored facts are closed rows: their variables are 0 .. r_nv-1 (what assert_fact's copy produces) *)
Definition dyn_ok (dynl : list (str * nat * list frow)) : Prop := Forall (fun e => Forall frow_ok (snd e)) dynl.

Lemma dyn_ok_lookup dynl name k : dyn_ok dynl ->
  Forall frow_ok (match lookup_fix dynl name k with Some rows => rows | None => [] end).
Proof.
  induction dynl as [|[[n0 k0] rows] r IH]; intros H; cbn [lookup_fix]; [constructor|].
  inversion H; subst. destruct (key_eq (n0, k0) (name, k)); [assumption|apply IH; assumption].
Qed.

Section SourceRel.
Variables rules P : program.
Variables ir irf : ir_program.
Variable specs : list pyspec.
Variable dynl : list (str * nat * list frow).
Hypothesis Hrules : compile_program rules = Some ir.
Hypothesis HP : compile_program P = Some irf.
Hypothesis Grules : good_program rules.
Hypothesis GP : good_program P.
Hypothesis Hdyn : dyn_ok dynl.
(* P = rules + the facts of the replaced predicates; rows with variables allowed, no aliased head argument *)
Hypothesis Hsplit : forall name k,
  match lookup_fix specs name k with
  | Some (rows, vals) => rows <> [] /\ Forall (fun row => noalias row /\ length row = k) rows /\
                         clauses_for P name k = map (fact_clause name) rows
  | None => clauses_for P name k = clauses_for rules name k
  end.

Definition w_python_src : world := mk_world ir (py_table_src specs) [] dynl.

Lemma call_function_rel cA cR : call_rel cA cR -> forall p sA sR name argsA argsR,
  rel_st p sA sR -> Forall2 (rel_val p sA sR) argsA argsR ->
  res_rel p sA sR (call_function cA w_python_src name argsA sA) (call_function cR (w_compiled irf dynl) name argsR sR).
Proof.
  intros Hc p sA sR name argsA argsR R E.
  pose proof (Forall2_length_eq _ _ _ E) as EL.
  unfold call_function. cbn [w_python_src w_compiled mk_world w_fix w_ir w_var lookup_fix lookup_var].
  unfold py_table_src. rewrite lookup_fix_map. rewrite <- EL.
  pose proof (Hsplit name (length argsA)) as Hs.
  pose proof (compiled_key_run P irf cR name argsR sR HP GP) as RP. rewrite <- EL in RP.
  destruct (lookup_fix specs name (length argsA)) as [[rows vals]|]; cbn [option_map].
  - destruct Hs as [NE [Fr EC]]. rewrite EC in RP.
    destruct (map (fact_clause name) rows) as [|c0 cs0] eqn:EM; [destruct rows; [congruence|discriminate]|].
    destruct RP as [f [HF RUN]]. rewrite HF, RUN. rewrite <- EM.
    unfold py_fun_src. cbn [fst snd]. rewrite drop_native_rows.
    destruct (facts_rows_rel cR name rows p sA sR argsA argsR (bind_args 0 argsR) sR R E Fr eq_refl (le_n _) (fun j => eq_refl))
      as [Q1 Q2].
    split; cbn [fst snd]; assumption.
  - pose proof (compiled_key_run rules ir cA name argsA sA Hrules Grules) as RR. rewrite Hs in RP.
    destruct (clauses_for rules name (length argsA)) as [|c cs].
    + rewrite RR, RP.
      pose proof (builtin_rel cA cR Hc p sA sR name argsA argsR R E) as HB.
      destruct (str_eqb name (s_ "call")); destruct (builtin cA name argsA sA) as [rA|], (builtin cR name argsR sR) as [rR|];
        try contradiction; try exact HB; (split; [apply Forall2_nil|reflexivity]).
    + destruct RR as [f1 [HF1 RUN1]]. destruct RP as [f2 [HF2 RUN2]]. rewrite HF1, HF2, RUN1, RUN2.
      destruct (clausesAA_rel cA cR Hc p sA sR (c :: cs) _ _ (cfg_rel0_start p sA sR argsA argsR R E)) as [Q1 Q2].
      destruct (clausesA cA (c :: cs) (bind_args 0 argsA, sA)) as [ysA fA].
      destruct (clausesA cR (c :: cs) (bind_args 0 argsR, sR)) as [ysR fR]. cbn [fst snd] in *. subst fR.
      split; [exact (cfg_rel0_ans p sA sR ysA ysR Q1)|reflexivity].
Qed.

(* one level of YP.query *)
Lemma nstep_rel cA cR : call_rel cA cR -> call_rel (nstep cA w_python_src) (nstep cR (w_compiled irf dynl)).
Proof.
  intros Hc p sA sR name argsA argsR R E. unfold nstep. cbn [w_python_src w_compiled mk_world w_dyn].
  rewrite <- (Forall2_length_eq _ _ _ E).
  destruct (match_rows_rel _ (dyn_ok_lookup dynl name (length argsA) Hdyn) p sA sR argsA argsR R E) as [D1 D2].
  destruct (match_rows match lookup_fix dynl name (length argsA) with Some rows => rows | None => [] end argsA sA) as [dsA deA].
  destruct (match_rows match lookup_fix dynl name (length argsA) with Some rows => rows | None => [] end argsR sR) as [dsR deR].
  cbn [fst snd] in *. subst deR.
  destruct deA; [split; [exact D1|reflexivity]|].
  destruct (Resolve.reserved name); [split; [exact D1|reflexivity]|].
  destruct (call_function_rel cA cR Hc p sA sR name argsA argsR R E) as [Q1 Q2].
  destruct (call_function cA w_python_src name argsA sA) as [fsA feA].
  destruct (call_function cR (w_compiled irf dynl) name argsR sR) as [fsR feR]. cbn [fst snd] in *.
  split; [apply Forall2_app; assumption|exact Q2].
Qed.

(* subset_interchangeable for rows with variables: the engine with Python predicates and the all-compiled engine are in
   the relation call_rel of Sem/RenameSim.v at every depth *)
Theorem source_call_rel : forall n, call_rel (nquery n w_python_src) (nquery n (w_compiled irf dynl)).
Proof.
  induction n as [|n IH]; intros p sA sR f argsA argsR R E; [split; [constructor|reflexivity]|].
  cbn [nquery]. exact (nstep_rel _ _ IH p sA sR f argsA argsR R E).
Qed.

Theorem source_subset_interchangeable_renaming : forall n name args s,
  wf (sto s) -> inv s -> Forall (bounded (nxt s)) args ->
  Forall2 (same_answer s) (fst (nquery n w_python_src name args s)) (fst (nquery n (w_compiled irf dynl) name args s)) /\
  snd (nquery n w_python_src name args s) = snd (nquery n (w_compiled irf dynl) name args s).
Proof.
  intros n name args s W I B. apply res_rel_same_answer. unfold res_rel.
  apply (source_call_rel n id_ren s s name args args (rel_st_id s W I) (rel_vals_id s args B)).
Qed.
End SourceRel.


Definition spec_ok_src (e : pyspec) : Prop :=
  fst (snd e) <> [] /\ Forall (fun row => noalias row /\ length row = snd (fst e)) (fst (snd e)).

(* rules compiled alone + Python predicates over rows with variables (no aliased head argument) vs the compiled program
   rules ++ facts: related answers for related calls, at every depth, next to any (closed) dynamic facts *)
Theorem program_with_python_predicates_rel rules specs dynl ir irf :
  compile_program rules = Some ir -> compile_program (rules ++ py_clauses specs) = Some irf ->
  good_program rules -> Forall spec_ok_src specs -> NoDup (map fst specs) -> dyn_ok dynl ->
  (forall c, In c rules -> lookup_fix specs (c_name c) (length (c_args c)) = None) ->
  forall n, call_rel (nquery n (mk_world ir (py_table_src specs) [] dynl)) (nquery n (mk_world irf [] [] dynl)).
Proof.
  intros Hr HP Gr Ok ND Hd Dis.
  apply (source_call_rel rules (rules ++ py_clauses specs) ir irf specs dynl Hr HP Gr).
  - apply Forall_app. split; [exact Gr | apply py_clauses_good].
  - exact Hd.
  - apply (py_split noalias); assumption.
Qed.

Theorem program_with_python_predicates_renaming rules specs dynl ir irf :
  compile_program rules = Some ir -> compile_program (rules ++ py_clauses specs) = Some irf ->
  good_program rules -> Forall spec_ok_src specs -> NoDup (map fst specs) -> dyn_ok dynl ->
  (forall c, In c rules -> lookup_fix specs (c_name c) (length (c_args c)) = None) ->
  forall n name args s, wf (sto s) -> inv s -> Forall (bounded (nxt s)) args ->
    Forall2 (same_answer s) (fst (nquery n (mk_world ir (py_table_src specs) [] dynl) name args s))
                            (fst (nquery n (mk_world irf [] [] dynl) name args s)) /\
    snd (nquery n (mk_world ir (py_table_src specs) [] dynl) name args s) =
    snd (nquery n (mk_world irf [] [] dynl) name args s).
Proof.
  intros Hr HP Gr Ok ND Hd Dis n name args s W I B. apply res_rel_same_answer. unfold res_rel.
  apply (program_with_python_predicates_rel rules specs dynl ir irf Hr HP Gr Ok ND Hd Dis n id_ren s s name args args
           (rel_st_id s W I) (rel_vals_id s args B)).
Qed.
