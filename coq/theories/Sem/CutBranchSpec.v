(* Readable consequences of the reference semantics RefSem.sem for a cut that is NOT a top-level goal of the
   clause body: a cut at the end of a branch of a disjunction, in the then branch and in the else branch of an
   if-then-else commits exactly like a top-level cut (the result ends with FCut, which makes the clause loop stop:
   SpecLemmas.cut_prunes_later_clauses), the other branch is not tried, and whatever follows the construct in the
   body (goals to the right of the cut) runs on every answer produced and cannot make the cut forgotten. *)
From Coq Require Import List Arith Bool.
Import ListNotations.
From YP Require Import Base.Str Lang.Ast Sem.Res Sem.RefSem Sem.SemLemmas.

Section CutBranches.
Variable S : Type.
Variable I : str -> list sterm -> S -> list S * bool.
Notation sem := (RefSem.sem I).

(* ( A, ! ; B ): the first answer of A only; B is not tried; the clause is cut.  B is tried iff A has no answer. *)
Lemma cut_in_disjunction_branch A B s :
  sem (BOr (BAnd A BCut) B) s =
  match sem A s with
  | (x :: _, _) => ([x], FCut)
  | ([], FNorm) => sem B s
  | ([], g) => ([], g)
  end.
Proof.
  rewrite sem_or_plain by reflexivity. cbn [RefSem.sem].
  destruct (RefSem.sem I A s) as [[|x r] e].
  - cbn [seqr]. destruct e; try reflexivity. apply por_nil.
  - cbn [seqr]. reflexivity.
Qed.

(* ( C -> ! ; E ): commit to the first answer of C and cut the clause; E runs iff C has no answer *)
Lemma cut_in_then_branch C E s :
  sem (BOr (BIf C BCut) E) s =
  match opaque (sem C s) with
  | (x :: _, _) => ([x], FCut)
  | ([], FNorm) => sem E s
  | ([], f) => ([], f)
  end.
Proof. rewrite sem_or_if. reflexivity. Qed.

(* ( C -> T ; ! ): the cut is reached iff C has no answer *)
Lemma cut_in_else_branch C T s :
  sem (BOr (BIf C T) BCut) s =
  match opaque (sem C s) with
  | (x :: _, _) => sem T x
  | ([], FNorm) => ([s], FCut)
  | ([], f) => ([], f)
  end.
Proof. rewrite sem_or_if. reflexivity. Qed.

(* goals to the right of a construct that ended by cut: they run, in order, on every answer it produced ... *)
Lemma cut_then_continue A B s xs :
  sem A s = (xs, FCut) -> sem (BAnd A B) s = seqr (sem B) xs FCut.
Proof. intros H. cbn [RefSem.sem]. rewrite H. reflexivity. Qed.

(* ... and nothing they do makes the cut forgotten: the body never ends normally *)
Lemma cut_survives_continuation A B s xs :
  sem A s = (xs, FCut) -> snd (sem (BAnd A B) s) <> FNorm.
Proof. intros H. rewrite (cut_then_continue A B s xs H). apply seqr_nonnorm. discriminate. Qed.

(* when the goals to the right all end normally, the body's answers are theirs, in order, and the end is the cut *)
Lemma cut_continuation_backtracks A B s xs :
  sem A s = (xs, FCut) -> (forall x, In x xs -> snd (sem B x) = FNorm) ->
  sem (BAnd A B) s = (flat_map (fun x => fst (sem B x)) xs, FCut).
Proof.
  intros H Hn. rewrite (cut_then_continue A B s xs H). clear H.
  induction xs as [|x r IH]; [reflexivity|].
  cbn [seqr flat_map]. pose proof (Hn x (or_introl eq_refl)) as Hx.
  destruct (RefSem.sem I B x) as [ys g]. cbn [snd fst] in *. subst g.
  rewrite IH by (intros y Hy; apply Hn; right; exact Hy). reflexivity.
Qed.
End CutBranches.
