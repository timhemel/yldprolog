(* Algebra of the reference semantics: one lemma per rewrite case of compile_body
   (sem lhs = sem rhs), valid in the presence of cut because seqr stops at a cut. *)
From Coq Require Import List Arith Bool Lia.
Import ListNotations.
From YP Require Import Base.Str Lang.Ast Sem.Res Sem.RefSem.
Set Implicit Arguments.

Section L.
Variable S : Type.
Variable I : str -> list sterm -> S -> list S * bool.
Notation sem := (sem I).

Lemma seqr_nonnorm (f:S->res S) xs e : e <> FNorm -> snd (seqr f xs e) <> FNorm.
Proof.
  induction xs as [|x r IH]; simpl; intros He; [exact He|].
  destruct (f x) as [ys g]; destruct g; simpl; try discriminate.
  specialize (IH He). destruct (seqr f r e); simpl in *; exact IH.
Qed.

Lemma seqr_app (f:S->res S) xs ys e :
  seqr f (xs++ys) e =
  let '(a,fa) := seqr f xs FNorm in
  match fa with FNorm => let '(b,fb) := seqr f ys e in (a++b,fb) | _ => (a,fa) end.
Proof.
  induction xs as [|x r IH]; simpl.
  - destruct (seqr f ys e); reflexivity.
  - destruct (f x) as [zs g]; destruct g; try reflexivity.
    rewrite IH. destruct (seqr f r FNorm) as [a fa]; destruct fa; try reflexivity.
    destruct (seqr f ys e). rewrite app_assoc. reflexivity.
Qed.

Lemma seqr_unit xs e : seqr (fun x:S => ([x],FNorm)) xs e = (xs,e).
Proof. induction xs as [|x r IH]; simpl; [reflexivity|]. rewrite IH. reflexivity. Qed.

Lemma seqr_stop (f:S->res S) x r e : snd (f x) <> FNorm -> seqr f (x::r) e = f x.
Proof. simpl. destruct (f x) as [ys g]. destruct g; simpl; intros H; try reflexivity. congruence. Qed.

Lemma seqr_one (f:S->res S) x e : seqr f [x] e = por (f x) ([],e).
Proof. simpl. destruct (f x) as [ys g]. destruct g; reflexivity. Qed.

Lemma por_nonnorm (ra rb:res S) : snd ra <> FNorm -> por ra rb = ra.
Proof. destruct ra as [xs f]. destruct f; simpl; intros H; try reflexivity. congruence. Qed.

Lemma por_nil (rb:res S) : por ([],FNorm) rb = rb.
Proof. destruct rb; reflexivity. Qed.

Lemma seqr_assoc (f g:S->res S) xs e :
  bindr (seqr f xs e) g = seqr (fun x => bindr (f x) g) xs e.
Proof.
  induction xs as [|x r IH]; [reflexivity|].
  destruct (f x) as [ys h] eqn:Hf. destruct h.
  (* f x does not end normally: x is the last answer used, on both sides *)
  2-4: rewrite (@seqr_stop f) by (rewrite Hf; discriminate).
  2-4: rewrite seqr_stop by (cbv beta; unfold bindr; rewrite Hf; apply seqr_nonnorm; discriminate).
  2-4: rewrite Hf; reflexivity.
  simpl. rewrite Hf. unfold bindr at 2. simpl.
  destruct (seqr f r e) as [zs k] eqn:Hr. unfold bindr in *. simpl in *.
  rewrite seqr_app. destruct (seqr g ys FNorm) as [a fa]; destruct fa; try reflexivity.
  rewrite IH. destruct (seqr _ r e). reflexivity.
Qed.

Lemma sem_and b K s : sem (BAnd b K) s = bindr (sem b s) (sem K).
Proof. simpl. destruct (sem b s); reflexivity. Qed.

Lemma seqr_ext (f g:S->res S) xs e : (forall x, f x = g x) -> seqr f xs e = seqr g xs e.
Proof. intros H; induction xs as [|x r IH]; simpl; [reflexivity|]. rewrite H, IH. reflexivity. Qed.

Lemma sem_and_assoc x y K s : sem (BAnd (BAnd x y) K) s = sem (BAnd x (BAnd y K)) s.
Proof.
  rewrite (sem_and (BAnd x y) K), (sem_and x y), (sem_and x (BAnd y K)).
  unfold bindr at 2. unfold bindr at 1.
  fold (bindr (seqr (sem y) (fst (sem x s)) (snd (sem x s))) (sem K)).
  rewrite seqr_assoc. unfold bindr at 2. apply seqr_ext. intros z. symmetry. apply sem_and.
Qed.


Lemma sem_or_plain a b s : isif a = false -> sem (BOr a b) s = por (sem a s) (sem b s).
Proof. destruct a; simpl; intros H; try discriminate; reflexivity. Qed.

Lemma sem_or_if c t e s : sem (BOr (BIf c t) e) s = ite (opaque (sem c s)) (sem t) (sem e s).
Proof. reflexivity. Qed.

Lemma sem_if c t s : sem (BIf c t) s = ite (opaque (sem c s)) (sem t) ([],FNorm).
Proof. reflexivity. Qed.

Lemma sem_not a s : sem (BNot a) s = ite (opaque (sem a s)) (fun _ => ([],FNorm)) ([s],FNorm).
Proof. reflexivity. Qed.

Lemma bindr_por ra rb (K:S->res S) : bindr (por ra rb) K = por (bindr ra K) (bindr rb K).
Proof.
  destruct ra as [xs fa]. destruct rb as [ys g]. unfold bindr. simpl.
  destruct fa; simpl.
  (* ra does not end normally, and neither does its continuation *)
  2-4: symmetry; apply por_nonnorm, seqr_nonnorm; discriminate.
  rewrite seqr_app. destruct (seqr K xs FNorm) as [a fa]; destruct fa; simpl; reflexivity.
Qed.

Lemma bindr_ite rc (t:S->res S) e (K:S->res S) :
  bindr (ite rc t e) K = ite rc (fun x => bindr (t x) K) (bindr e K).
Proof. destruct rc as [[|x r] f]; simpl; [destruct f|]; reflexivity. Qed.

Lemma ite_ext rc (t t':S->res S) e : (forall x, t x = t' x) -> ite rc t e = ite rc t' e.
Proof. intros H. destruct rc as [[|x r] f]; simpl; [reflexivity|apply H]. Qed.

Lemma sem_true_and K s : sem (BAnd BTrue K) s = sem K s.
Proof. simpl. destruct (sem K s) as [ys g]. destruct g; try reflexivity. rewrite app_nil_r. reflexivity. Qed.

Lemma sem_and_true b s : sem (BAnd b BTrue) s = sem b s.
Proof. rewrite sem_and. unfold bindr. rewrite (seqr_ext _ (fun x => ([x],FNorm))) by reflexivity.
  rewrite seqr_unit. destruct (sem b s); reflexivity. Qed.

Lemma sem_or_distr x y K s : isif x = false ->
  sem (BAnd (BOr x y) K) s = sem (BOr (BAnd x K) (BAnd y K)) s.
Proof.
  intros Hx. rewrite sem_and, (@sem_or_plain x y s Hx), (@sem_or_plain (BAnd x K) (BAnd y K) s eq_refl).
  rewrite bindr_por, !sem_and. reflexivity.
Qed.

Lemma sem_ite_distr c t e K s :
  sem (BAnd (BOr (BIf c t) e) K) s = sem (BOr (BIf c (BAnd t K)) (BAnd e K)) s.
Proof.
  rewrite sem_and, !sem_or_if, bindr_ite, sem_and. apply ite_ext. intros z. symmetry. apply sem_and.
Qed.

Lemma sem_if_and c t K s : sem (BAnd (BIf c t) K) s = sem (BAnd (BOr (BIf c t) BFail) K) s.
Proof. rewrite !sem_and. reflexivity. Qed.

Lemma sem_not_and x K s : sem (BAnd (BNot x) K) s = sem (BAnd (BOr (BIf x BFail) BTrue) K) s.
Proof. rewrite !sem_and. reflexivity. Qed.
End L.
