(* Bindings live in the answers only.  The reference semantics passes states along answers, so whatever a goal A binds
   (A may be X = T, the first occurrence of X or not) is visible to the goals that run on A's answers and to nothing else:
   when the goals after A in the same scope fail for every answer of A, the construct around the scope continues from the
   state in which it was ENTERED - the else branch of an if-then-else, the goals after a negation, the other branch of a
   disjunction see none of A's bindings.  (Compiled code: `for l in unify(X, T): ...` - the binding is undone when the loop
   is left; an emitted assignment `X = T` instead would survive, which is what these statements exclude.) *)
From Coq Require Import List Arith Bool.
Import ListNotations.
From YP Require Import Base.Str Lang.Ast Sem.Res Sem.RefSem Sem.SemLemmas.

Section Scope.
Variable S : Type.
Variable I : str -> list sterm -> S -> list S * bool.
Notation sem := (RefSem.sem I).

Lemma seqr_all_fail (f : S -> res S) xs : (forall x, In x xs -> f x = ([], FNorm)) -> seqr f xs FNorm = ([], FNorm).
Proof.
  induction xs as [|x r IH]; intros H; [reflexivity|].
  cbn [seqr]. rewrite (H x (or_introl eq_refl)). rewrite IH by (intros y Hy; apply H; right; exact Hy). reflexivity.
Qed.

Lemma scope_fails A G s xs :
  sem A s = (xs, FNorm) -> (forall x, In x xs -> sem G x = ([], FNorm)) -> sem (BAnd A G) s = ([], FNorm).
Proof. intros HA HG. cbn [RefSem.sem]. rewrite HA. apply seqr_all_fail. exact HG. Qed.

(* ( A, G -> T ; E ) with G failing on every answer of A  =  E from the entry state *)
Lemma condition_failure_discards_bindings A G T E s xs :
  sem A s = (xs, FNorm) -> (forall x, In x xs -> sem G x = ([], FNorm)) ->
  sem (BOr (BIf (BAnd A G) T) E) s = sem E s.
Proof. intros HA HG. rewrite sem_or_if. rewrite (scope_fails A G s xs HA HG). reflexivity. Qed.

(* \+ ( A, G ) then succeeds once, with the entry state *)
Lemma negation_discards_bindings A G s xs :
  sem A s = (xs, FNorm) -> (forall x, In x xs -> sem G x = ([], FNorm)) ->
  sem (BNot (BAnd A G)) s = ([s], FNorm).
Proof.
  intros HA HG. rewrite sem_not, (scope_fails A G s xs HA HG). reflexivity.
Qed.

(* ( A, G ; B ) with G failing on every answer of A  =  B from the entry state *)
Lemma branch_failure_discards_bindings A G B s xs :
  sem A s = (xs, FNorm) -> (forall x, In x xs -> sem G x = ([], FNorm)) ->
  sem (BOr (BAnd A G) B) s = sem B s.
Proof.
  intros HA HG. rewrite sem_or_plain by reflexivity. rewrite (scope_fails A G s xs HA HG). apply por_nil.
Qed.

(* the goals after an if-then-else whose condition failed run from the state the else branch leaves - not from one of A's *)
Lemma after_failed_condition A G T E K s xs :
  sem A s = (xs, FNorm) -> (forall x, In x xs -> sem G x = ([], FNorm)) ->
  sem (BAnd (BOr (BIf (BAnd A G) T) E) K) s = sem (BAnd E K) s.
Proof.
  intros HA HG. rewrite !sem_and, (condition_failure_discards_bindings A G T E s xs HA HG). reflexivity.
Qed.
End Scope.
