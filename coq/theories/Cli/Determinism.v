(* C18 - list lemmas for the part of "compilation is a deterministic function of the source text"
   that is about an algorithm and not about CPython (used by Cli/DetCompile.v, which proves that
   CompileClause.filter_free - the function inside the model compiler - is the function below):

   1. YPPrologCompiler.filter_free_variables as it is now

          def filter_free_variables(self,variables):
              return list(dict.fromkeys([ v for v in variables if v not in self.bound_vars[-1] ]))

      (`variables` = expr.variables, the variable names of the clause head / body in textual order
      with repetitions).  dict.fromkeys keeps the first occurrence of every key, in insertion order.
      The old code was list(set(...)), whose order depends on the string hash seed.

   2. the counters (YPPrologVisitor.anonymousVariableCounter, YPPrologCompiler.cut_if_counter) live
      in objects created by every call of _compile_prolog_from_stream.

   REMARK (not a theorem): the model of the compiler is a Gallina function, so that the MODEL is
   deterministic holds by construction and says nothing about the implementation.  That the
   implementation's bytes do not depend on process, hash seed or history is OBSERVED by the
   correspondence check of C18 (harness/props/c18.py), not proved. *)
From Coq Require Import String.
From Coq Require Import List NArith Bool Arith Lia Permutation.
Import ListNotations.
From YP Require Import Base.Str.
Local Open Scope string_scope.
Local Open Scope list_scope.

Fixpoint mem (v : str) (l : list str) : bool :=
  match l with [] => false | x :: r => str_eqb x v || mem v r end.

Lemma mem_In v l : mem v l = true <-> In v l.
Proof.
  induction l as [|x r IH]; cbn; [split; [discriminate|tauto]|].
  rewrite orb_true_iff, IH, str_eqb_eq. tauto.
Qed.

Lemma mem_not_In v l : mem v l = false <-> ~ In v l.
Proof. rewrite <- mem_In. destruct (mem v l); split; congruence. Qed.

(* list(dict.fromkeys(xs)): keys are inserted in order, a key that is already there keeps its place *)
Fixpoint fromkeys (seen : list str) (xs : list str) : list str :=
  match xs with
  | [] => []
  | x :: r => if mem x seen then fromkeys seen r else x :: fromkeys (x :: seen) r
  end.

Definition filter_free_variables (bound vars : list str) : list str :=
  fromkeys [] (filter (fun v => negb (mem v bound)) vars).

Fixpoint first_index (v : str) (l : list str) : option nat :=
  match l with
  | [] => None
  | x :: r => if str_eqb x v then Some 0 else option_map S (first_index v r)
  end.

Definition sorted_by_first (vars res : list str) : Prop :=
  forall i j x y, nth_error res i = Some x -> nth_error res j = Some y -> i < j ->
    exists ix iy, first_index x vars = Some ix /\ first_index y vars = Some iy /\ ix < iy.

Lemma first_index_In v l : In v l -> exists i, first_index v l = Some i.
Proof.
  induction l as [|x r IH]; [intros []|]. intros H. cbn.
  destruct (str_eqb_spec x v) as [->|Hn]; [exists 0; reflexivity|].
  destruct H as [H|H]; [congruence|]. destruct (IH H) as [i ->]. exists (S i). reflexivity.
Qed.

Lemma fromkeys_In : forall xs seen v, In v (fromkeys seen xs) <-> In v xs /\ ~ In v seen.
Proof.
  induction xs as [|x r IH]; intros seen v; cbn [fromkeys].
  - cbn. tauto.
  - destruct (mem x seen) eqn:E.
    + rewrite IH. apply mem_In in E. cbn. split.
      * intros [H1 H2]. tauto.
      * intros [[->|H1] H2]; [contradiction|tauto].
    + apply mem_not_In in E. cbn [In]. rewrite IH. cbn [In]. split.
      * intros [->|[H1 H2]]; [tauto|]. split; [tauto|]. intros H. apply H2. right. exact H.
      * intros [[->|H1] H2]; [left; reflexivity|].
        destruct (str_eqb_spec x v) as [->|Hn]; [left; reflexivity|].
        right. split; [exact H1|]. intros [H|H]; [congruence|contradiction].
Qed.

Lemma fromkeys_NoDup : forall xs seen, NoDup (fromkeys seen xs).
Proof.
  induction xs as [|x r IH]; intros seen; cbn [fromkeys]; [constructor|].
  destruct (mem x seen); [apply IH|].
  constructor; [|apply IH]. rewrite fromkeys_In. intros [_ H]. apply H. left. reflexivity.
Qed.

Lemma fromkeys_nth seen xs i x : nth_error (fromkeys seen xs) i = Some x -> In x xs /\ ~ In x seen.
Proof. intros H. apply fromkeys_In. exact (nth_error_In _ _ H). Qed.

Lemma first_index_later a x r ix : a <> x -> first_index x r = Some ix ->
  first_index x (a :: r) = Some (S ix).
Proof. intros Hn H. apply str_eqb_neq in Hn. cbn [first_index]. rewrite Hn, H. reflexivity. Qed.

Lemma fromkeys_order : forall xs seen, sorted_by_first xs (fromkeys seen xs).
Proof.
  unfold sorted_by_first. induction xs as [|a r IH]; intros seen i j x y Hx Hy Hlt; cbn [fromkeys] in *.
  - destruct i; discriminate.
  - destruct (mem a seen) eqn:E.
    + (* a is dropped; x and y come from r and are not a, which has been seen *)
      apply mem_In in E.
      destruct (IH seen i j x y Hx Hy Hlt) as [ix [iy [H1 [H2 H3]]]].
      apply fromkeys_nth in Hx, Hy.
      exists (S ix), (S iy). split; [|split; [|lia]].
      * apply first_index_later; [intros ->; tauto|exact H1].
      * apply first_index_later; [intros ->; tauto|exact H2].
    + (* a is kept, at position 0; y comes later, from r with a seen, so it is not a *)
      destruct j as [|j]; [lia|]. cbn [nth_error] in Hy.
      destruct (fromkeys_nth _ _ _ _ Hy) as [Hyr Hya].
      assert (Hay : a <> y) by (intros ->; apply Hya; left; reflexivity).
      destruct i as [|i]; cbn [nth_error] in Hx.
      * injection Hx as <-. destruct (first_index_In y r Hyr) as [iy Hiy].
        exists 0, (S iy). split; [|split; [|lia]].
        -- cbn [first_index]. rewrite str_eqb_refl. reflexivity.
        -- apply first_index_later; assumption.
      * destruct (fromkeys_nth _ _ _ _ Hx) as [_ Hxa].
        destruct (IH (a :: seen) i j x y Hx Hy ltac:(lia)) as [ix [iy [H1 [H2 H3]]]].
        exists (S ix), (S iy). split; [|split; [|lia]].
        -- apply first_index_later; [intros ->; apply Hxa; left; reflexivity|exact H1].
        -- apply first_index_later; assumption.
Qed.

Lemma mem_app v a b : mem v (a ++ b) = mem v a || mem v b.
Proof. induction a as [|x r IH]; cbn; [reflexivity|]. rewrite IH, orb_assoc. reflexivity. Qed.

Lemma filter_fromkeys bound : forall vars seen,
  fromkeys seen (filter (fun v => negb (mem v bound)) vars) = fromkeys (seen ++ bound) vars.
Proof.
  induction vars as [|x r IH]; intros seen; [reflexivity|]. cbn [filter fromkeys].
  rewrite mem_app. destruct (mem x bound) eqn:Eb; cbn [negb].
  - rewrite orb_true_r. apply IH.
  - rewrite orb_false_r. cbn [fromkeys]. destruct (mem x seen); [apply IH|].
    rewrite (IH (x :: seen)). reflexivity.
Qed.

(* C18: the declared fresh variables are exactly the variables of the expression that are not
   bound, each once, in the order of their first occurrence in the text - a function of the
   clause syntax (bound, vars) alone: no set, no hash. *)
Theorem dedup_keeps_first_occurrence_order : forall bound vars,
  let res := filter_free_variables bound vars in
  NoDup res
  /\ (forall v, In v res <-> In v vars /\ ~ In v bound)
  /\ (forall i j x y, nth_error res i = Some x -> nth_error res j = Some y -> i < j ->
        exists ix iy, first_index x vars = Some ix /\ first_index y vars = Some iy /\ ix < iy).
Proof.
  intros bound vars res. unfold res, filter_free_variables. split; [apply fromkeys_NoDup|]. split.
  - intros v. rewrite fromkeys_In, filter_In, negb_true_iff, mem_not_In. cbn. tauto.
  - rewrite filter_fromkeys. apply fromkeys_order.
Qed.

(* these three properties determine the list: any two lists that have them are equal - so the
   declaration order is a function of (bound, vars) and of nothing else *)
Lemma first_occurrence_order_unique : forall vars l1 l2,
  NoDup l1 -> NoDup l2 -> (forall v, In v l1 <-> In v l2) ->
  sorted_by_first vars l1 -> sorted_by_first vars l2 -> l1 = l2.
Proof.
  intros vars l1. induction l1 as [|a r IH]; intros l2 N1 N2 Hin S1 S2.
  - destruct l2 as [|b q]; [reflexivity|]. exfalso. apply (Hin b). left. reflexivity.
  - destruct l2 as [|b q]; [exfalso; apply (Hin a); left; reflexivity|].
    assert (Hab : a = b).
    { destruct (str_eqb_spec a b) as [E|Hn]; [exact E|exfalso].
      (* a occurs later in b :: q, b occurs later in a :: r: two contradictory index orders *)
      assert (Ha : In a q). { destruct (proj1 (Hin a) (or_introl eq_refl)) as [E|H]; [congruence|exact H]. }
      assert (Hb : In b r). { destruct (proj2 (Hin b) (or_introl eq_refl)) as [E|H]; [congruence|exact H]. }
      apply In_nth_error in Ha, Hb. destruct Ha as [ja Hja]. destruct Hb as [jb Hjb].
      destruct (S1 0 (S jb) a b eq_refl Hjb ltac:(lia)) as [ix [iy [H1 [H2 H3]]]].
      destruct (S2 0 (S ja) b a eq_refl Hja ltac:(lia)) as [ix' [iy' [H1' [H2' H3']]]].
      rewrite H1 in H2'. rewrite H2 in H1'. inversion H2'; inversion H1'; subst. lia. }
    subst b. f_equal. inversion N1 as [|? ? Na Nr]; inversion N2 as [|? ? Nb Nq]; subst.
    apply IH; [exact Nr|exact Nq| | |].
    + intros v. split; intros H.
      * destruct (proj1 (Hin v) (or_intror H)) as [E|H']; [subst; contradiction|exact H'].
      * destruct (proj2 (Hin v) (or_intror H)) as [E|H']; [subst; contradiction|exact H'].
    + intros i j x y Hx Hy Hlt. apply (S1 (S i) (S j) x y Hx Hy). lia.
    + intros i j x y Hx Hy Hlt. apply (S2 (S i) (S j) x y Hx Hy). lia.
Qed.

(* the current function has no parameter through which anything but (bound, vars) could enter; for the record: *)
Example filter_free_example :
  filter_free_variables [d "X"] [d "X"; d "Y"; d "Z"; d "Y"; d "x1"; d "Z"; d "X"] = [d "Y"; d "Z"; d "x1"].
Proof. reflexivity. Qed.
