(* The command line compiler yldpc (compiler.py: main, _set_debug_options, _open_output_file,
   _open_input_file, _compile_prolog_from_stream) as a function

       (flags, outfile, sources, file system, stdin) -> (stdout text, file written, how it ended)

   The library compiler is a Section variable `compile` - an ARBITRARY function from the source
   text to a result - and so is the sequence of debug messages that the visitor / the compiler
   try to emit while they work on a source (`trace`): the theorems hold whatever the compiler
   produces and whatever the debug messages say.

       def main(ctx, source, outfile, debug, debug_parser, debug_generator, debug_filename):
           _set_debug_options(ctx)
           with _open_output_file(outfile) as outf:          # '-' = sys.stdout, else open(fn,'w')
               ctx.outf = outf
               for s in source:
                   ctx.current_source_file = s
                   with _open_input_file(s) as inf:          # '-' = stdin, decoded as UTF-8
                       try:
                           pythoncode = _compile_prolog_from_stream(inf, ctx)
                           outf.write(pythoncode)
                       except CompilerError as e:
                           raise click.ClickException(str(e)) from e

   While _compile_prolog_from_stream runs, YPPrologVisitor._debug / YPPrologCompiler._debug write
   comment_lines(message) straight into ctx.outf when their flag is set; the code of the source is
   written after the compilation has returned. *)
From Coq Require Import String.
From Coq Require Import List NArith Bool.
Import ListNotations.
From YP Require Import Base.Str Cli.Comment.
Local Open Scope string_scope.
Local Open Scope list_scope.
Local Open Scope N_scope.

(* the four switches of the command line *)
Record flags := Flags { f_debug : bool; f_parser : bool; f_generator : bool; f_filename : bool }.
Definition no_flags := Flags false false false false.

(* _set_debug_options: -d switches all three on *)
Definition dbg_parser (f : flags) : bool := f_parser f || f_debug f.
Definition dbg_generator (f : flags) : bool := f_generator f || f_debug f.
Definition dbg_filename (f : flags) : bool := f_filename f || f_debug f.

(* result of the library compiler on one source text: the text that code.generate() returns (what
   follows the header), a CompilerError with position and message, or any other exception *)
Inductive cres := COk (body : str) | CErr (line col : N) (msg : str) | CCrash.

(* reading a source: its text, or bytes that are not UTF-8 (UnicodeDecodeError, not a CompilerError) *)
Inductive rdres := RText (t : str) | RBad.

Definition fsys := str -> option rdres.
Definition upd (fs : fsys) (p : str) (v : rdres) : fsys := fun q => if str_eqb q p then Some v else fs q.

(* which _debug method a message comes from *)
Inductive chan := ChParser | ChGenerator.

(* how the process ends: exit 0 | click.ClickException: "Error: <msg>" on stderr, exit 1 |
   uncaught exception: traceback, exit 1 | click usage error (a source does not exist), exit 2 *)
Inductive ending := EOk | EError (msg : str) | ECrash | EUsage.
Definition status (e : ending) : N :=
  match e with EOk => 0 | EError _ => 1 | ECrash => 1 | EUsage => 2 end.

Record result := Result { r_stdout : str; r_file : option (str * str); r_end : ending }.

Definition is_dash (s : str) : bool := str_eqb s (d "-").

(* _output_header *)
Definition header : str := Eval vm_compute in d "#\10;# This code is generated by the yldprolog compiler.\10;#\10;".

(* YPPythonCodeGenerator.generate *)
Definition gen_text (dfn : bool) (fname body : str) : str :=
  header ++ (if dfn then comment_lines (d "from " ++ fname) ++ d "#\10;\10;" else [10]) ++ body.

(* CompilerError.__str__ *)
Definition err_msg (fname : str) (line col : N) (msg : str) : str :=
  fname ++ 58 :: dec_of_N line ++ 58 :: dec_of_N col ++ 58 :: msg.

(* the messages that are really written: _debug tests its flag at every call *)
Definition emitted (dp dg : bool) (evs : list (chan * str)) : list str :=
  map snd (filter (fun e => match fst e with ChParser => dp | ChGenerator => dg end) evs).

(* the library function compile_prolog_from_string with default options *)
Definition lib_text_of (r : cres) : option str :=
  match r with COk body => Some (gen_text false [] body) | _ => None end.

Section CLI.
  (* the library compiler: arbitrary *)
  Variable compile : str -> cres.
  (* all calls of _debug made while the source text t of file s is compiled (up to the point of
     failure if it fails), with the channel; may depend on debug_filename (the visitor announces
     the file name): arbitrary *)
  Variable trace : bool -> str -> str -> list (chan * str).

  Definition lib_text (t : str) : option str := lib_text_of (compile t).

  (* what one readable source contributes to the output, and whether the loop goes on *)
  Definition one_source (dp dg dfn : bool) (s t : str) : str * ending :=
    let dbg := concat (map comment_lines (emitted dp dg (trace dfn s t))) in
    match compile t with
    | COk body => (dbg ++ gen_text dfn s body, EOk)
    | CErr l c m => (dbg, EError (err_msg s l c m))
    | CCrash => (dbg, ECrash)
    end.

  (* the loop over the sources; stdin is consumed by the first `-` (sys.stdin.buffer.read()) *)
  Fixpoint run_sources (dp dg dfn : bool) (fs : fsys) (stdin : rdres) (srcs : list str) : str * ending :=
    match srcs with
    | [] => ([], EOk)
    | s :: rest =>
        let rd := if is_dash s then stdin else match fs s with Some r => r | None => RBad end in
        let stdin' := if is_dash s then RText [] else stdin in
        match rd with
        | RBad => ([], ECrash)
        | RText t =>
            match one_source dp dg dfn s t with
            | (o, EOk) => let (o', e) := run_sources dp dg dfn fs stdin' rest in (o ++ o', e)
            | (o, e) => (o, e)
            end
        end
    end.

  Definition yldpc (f : flags) (outfile : str) (srcs : list str) (fs : fsys) (stdin : rdres) : result :=
    (* click.Path(exists=True, allow_dash=True) on every SOURCE, before main runs *)
    if existsb (fun s => negb (is_dash s) && match fs s with None => true | Some _ => false end) srcs
    then Result [] None EUsage
    else
      (* _open_output_file: open(fn,'w') creates / truncates the file before any source is read *)
      let fs1 := if is_dash outfile then fs else upd fs outfile (RText []) in
      let (o, e) := run_sources (dbg_parser f) (dbg_generator f) (dbg_filename f) fs1 stdin srcs in
      if is_dash outfile then Result o None e else Result [] (Some (outfile, o)) e.

  (* the sources as they are read, in order *)
  Fixpoint contents (fs : fsys) (stdin : rdres) (srcs : list str) : list rdres :=
    match srcs with
    | [] => []
    | s :: rest =>
        if is_dash s then stdin :: contents fs (RText []) rest
        else match fs s with Some r => r | None => RBad end :: contents fs stdin rest
    end.

  Fixpoint run_items (dp dg dfn : bool) (items : list (str * rdres)) : str * ending :=
    match items with
    | [] => ([], EOk)
    | (s, RBad) :: _ => ([], ECrash)
    | (s, RText t) :: rest =>
        match one_source dp dg dfn s t with
        | (o, EOk) => let (o', e) := run_items dp dg dfn rest in (o ++ o', e)
        | (o, e) => (o, e)
        end
    end.

  Lemma run_sources_items dp dg dfn fs : forall srcs stdin,
    run_sources dp dg dfn fs stdin srcs = run_items dp dg dfn (combine srcs (contents fs stdin srcs)).
  Proof.
    induction srcs as [|s rest IH]; intros stdin; [reflexivity|].
    cbn [run_sources contents].
    destruct (is_dash s).
    - cbn [combine run_items]. destruct stdin as [t|]; [|reflexivity].
      rewrite IH. reflexivity.
    - cbn [combine run_items]. destruct (match fs s with Some r => r | None => RBad end) as [t|]; [|reflexivity].
      rewrite IH. reflexivity.
  Qed.

  Lemma contents_length fs : forall srcs stdin, length (contents fs stdin srcs) = length srcs.
  Proof.
    induction srcs as [|s r IH]; intros stdin; [reflexivity|]. cbn [contents].
    destruct (is_dash s); cbn; rewrite IH; reflexivity.
  Qed.

  Lemma contents_items_snd fs srcs stdin :
    map snd (combine srcs (contents fs stdin srcs)) = contents fs stdin srcs.
  Proof.
    generalize (contents_length fs srcs stdin). generalize (contents fs stdin srcs) as cs.
    induction srcs as [|s r IH]; intros [|c cs] Hl; try discriminate; [reflexivity|].
    injection Hl as Hl. cbn [combine map snd]. rewrite (IH cs Hl). reflexivity.
  Qed.

  (* the text of the output, wherever it went *)
  Definition output (r : result) : str :=
    match r_file r with Some (_, c) => c | None => r_stdout r end.

  Definition all_exist (fs : fsys) (srcs : list str) : Prop :=
    forall s, In s srcs -> is_dash s = false -> fs s <> None.

  Lemma existsb_all_exist fs srcs :
    existsb (fun s => negb (is_dash s) && match fs s with None => true | Some _ => false end) srcs = false
    <-> all_exist fs srcs.
  Proof.
    unfold all_exist. split.
    - intros H s Hin Hd Hn.
      assert (X : existsb (fun s => negb (is_dash s) && match fs s with None => true | Some _ => false end) srcs = true).
      { apply existsb_exists. exists s. split; [exact Hin|]. rewrite Hd, Hn. reflexivity. }
      congruence.
    - intros H. destruct (existsb _ srcs) eqn:E; [|reflexivity].
      apply existsb_exists in E. destruct E as [s [Hin Hs]].
      apply andb_true_iff in Hs. destruct Hs as [Hd Hn].
      apply negb_true_iff in Hd. specialize (H s Hin Hd).
      destruct (fs s); [discriminate|congruence].
  Qed.

  Lemma all_exist_dec fs srcs : all_exist fs srcs \/ ~ all_exist fs srcs.
  Proof.
    rewrite <- existsb_all_exist. destruct (existsb _ srcs); [right; discriminate|left; reflexivity].
  Qed.

  (* the file system as the sources see it *)
  Definition fs_seen (fs : fsys) (outfile : str) : fsys :=
    if is_dash outfile then fs else upd fs outfile (RText []).

  (* where the output goes *)
  Definition placed (outfile o : str) (e : ending) : result :=
    if is_dash outfile then Result o None e else Result [] (Some (outfile, o)) e.

  Lemma r_end_placed outfile o e : r_end (placed outfile o e) = e.
  Proof. unfold placed. destruct (is_dash outfile); reflexivity. Qed.

  Lemma yldpc_items f outfile srcs fs stdin : all_exist fs srcs ->
    yldpc f outfile srcs fs stdin =
    let r := run_items (dbg_parser f) (dbg_generator f) (dbg_filename f)
               (combine srcs (contents (fs_seen fs outfile) stdin srcs)) in
    placed outfile (fst r) (snd r).
  Proof.
    intros H. unfold yldpc. apply existsb_all_exist in H. rewrite H.
    rewrite run_sources_items. unfold fs_seen, placed.
    destruct (run_items _ _ _ _) as [o e]. reflexivity.
  Qed.

  (* a source that does not exist: click rejects the command line, exit status 2, nothing is
     written and the output file is not even created *)
  Theorem missing_source_usage_error : forall f outfile srcs fs stdin,
    ~ all_exist fs srcs ->
    yldpc f outfile srcs fs stdin = Result [] None EUsage.
  Proof.
    intros f outfile srcs fs stdin H. unfold yldpc.
    destruct (existsb _ srcs) eqn:E; [reflexivity|].
    apply existsb_all_exist in E. contradiction.
  Qed.

  (* what the implementation side checks about the library: the generated code has no line that
     starts with #, and it is empty or ends with a newline *)
  Definition clean_body (body : str) : Prop := strip body = body /\ nl_term body.
  Hypothesis compile_clean : forall t body, compile t = COk body -> clean_body body.

  Lemma header_nl_term : nl_term header.
  Proof. right. eexists (removelast header). reflexivity. Qed.

  Lemma strip_header : strip header = [].
  Proof. reflexivity. Qed.

  Lemma gen_text_strip dfn s body : clean_body body ->
    strip (gen_text dfn s body) = 10 :: body /\ nl_term (gen_text dfn s body).
  Proof.
    intros [Hs Hn]. unfold gen_text.
    assert (Hmid : strip (if dfn then comment_lines (d "from " ++ s) ++ d "#\10;\10;" else [10]) = [10]
                   /\ nl_term (if dfn then comment_lines (d "from " ++ s) ++ d "#\10;\10;" else [10])).
    { destruct dfn.
      - split.
        + rewrite (strip_app _ _ (comment_lines_nl_term _)), strip_comment_lines. reflexivity.
        + apply nl_term_app; [apply comment_lines_nl_term|]. right. exists (d "#\10;"). reflexivity.
      - split; [reflexivity|]. right. exists []. reflexivity. }
    destruct Hmid as [Hm1 Hm2]. split.
    - rewrite (strip_app _ _ header_nl_term), strip_header, (strip_app _ _ Hm2), Hm1, Hs. reflexivity.
    - apply nl_term_app; [apply header_nl_term|]. apply nl_term_app; assumption.
  Qed.

  Lemma emitted_none evs : emitted false false evs = [].
  Proof. unfold emitted. induction evs as [|[[|] m] r IH]; cbn; auto. Qed.

  (* the run without any debug option: library text after library text *)
  Lemma one_source_plain s t :
    one_source false false false s t =
    match compile t with
    | COk body => (gen_text false s body, EOk)
    | CErr l c m => ([], EError (err_msg s l c m))
    | CCrash => ([], ECrash)
    end.
  Proof. unfold one_source. rewrite emitted_none. destruct (compile t); reflexivity. Qed.

  Lemma one_source_strip dp dg dfn s t :
    nl_term (fst (one_source dp dg dfn s t))
    /\ strip (fst (one_source dp dg dfn s t)) = strip (fst (one_source false false false s t))
    /\ snd (one_source dp dg dfn s t) = snd (one_source false false false s t).
  Proof.
    rewrite one_source_plain. unfold one_source.
    destruct (compile t) as [body|l c m|] eqn:E; cbn [fst snd].
    - pose proof (compile_clean _ _ E) as Hc.
      destruct (gen_text_strip dfn s body Hc) as [G1 G2].
      destruct (gen_text_strip false s body Hc) as [G3 _].
      split; [apply nl_term_app; [apply comment_msgs_nl_term|exact G2]|]. split; [|reflexivity].
      rewrite (strip_app _ _ (comment_msgs_nl_term _)), strip_comment_msgs, G1, G3. reflexivity.
    - split; [apply comment_msgs_nl_term|]. split; [|reflexivity]. apply strip_comment_msgs.
    - split; [apply comment_msgs_nl_term|]. split; [|reflexivity]. apply strip_comment_msgs.
  Qed.

  Lemma gen_text_plain s body : gen_text false s body = gen_text false [] body.
  Proof. unfold gen_text. reflexivity. Qed.

  Lemma run_items_strip dp dg dfn : forall items,
    nl_term (fst (run_items dp dg dfn items))
    /\ strip (fst (run_items dp dg dfn items)) = strip (fst (run_items false false false items))
    /\ snd (run_items dp dg dfn items) = snd (run_items false false false items).
  Proof.
    induction items as [|[s [t|]] rest IH].
    - cbn. split; [left; reflexivity|split; reflexivity].
    - cbn [run_items].
      destruct (one_source_strip dp dg dfn s t) as [N1 [S1 E1]].
      destruct (one_source_strip false false false s t) as [N0 _].
      destruct (one_source dp dg dfn s t) as [o e].
      destruct (one_source false false false s t) as [o0 e0].
      cbn [fst snd] in *. subst e0.
      destruct (run_items dp dg dfn rest) as [o' e'].
      destruct (run_items false false false rest) as [o0' e0'].
      cbn [fst snd] in *. destruct IH as [N2 [S2 E2]].
      destruct e; cbn [fst snd]; try (split; [exact N1|split; [exact S1|reflexivity]]).
      split; [apply nl_term_app; assumption|]. split; [|exact E2].
      rewrite (strip_app _ _ N1), (strip_app _ _ N0), S1, S2. reflexivity.
    - cbn. split; [left; reflexivity|split; reflexivity].
  Qed.

  Definition strip_result (r : result) : result :=
    Result (strip (r_stdout r))
           (match r_file r with Some (n, c) => Some (n, strip c) | None => None end)
           (r_end r).

  (* C19, second sentence: for every combination of debug options, every input, every debug
     message text: with the comment lines removed the result (stdout, file written, the way the
     process ends) is the one of the run without debug options. *)
  Theorem debug_only_comments : forall f outfile srcs fs stdin,
    strip_result (yldpc f outfile srcs fs stdin) = strip_result (yldpc no_flags outfile srcs fs stdin).
  Proof.
    intros f outfile srcs fs stdin.
    destruct (all_exist_dec fs srcs) as [Hex|Hn].
    2: { rewrite !(missing_source_usage_error _ _ _ _ _ Hn). reflexivity. }
    rewrite (yldpc_items f _ _ _ _ Hex), (yldpc_items no_flags _ _ _ _ Hex). cbv zeta.
    set (items := combine srcs (contents (fs_seen fs outfile) stdin srcs)).
    destruct (run_items_strip (dbg_parser f) (dbg_generator f) (dbg_filename f) items) as [_ [S E]].
    change (run_items (dbg_parser no_flags) (dbg_generator no_flags) (dbg_filename no_flags) items)
      with (run_items false false false items).
    rewrite E. unfold placed, strip_result.
    destruct (is_dash outfile); cbn [r_stdout r_file r_end]; rewrite S; reflexivity.
  Qed.

  (* and the run without debug options contains no comment line except the three header lines
     of each source: its stripped form is "\n" + code per source *)
  Lemma run_items_plain_strip : forall items bodies,
    Forall2 (fun it body => exists t, snd it = RText t /\ compile t = COk body) items bodies ->
    strip (fst (run_items false false false items)) = concat (map (fun b => 10 :: b) bodies).
  Proof.
    induction 1 as [|[s r] body items bodies [t [Hr Hc]] HF IH]; [reflexivity|].
    cbn [snd] in Hr; subst r. cbn [run_items]. rewrite one_source_plain, Hc.
    destruct (run_items false false false items) as [o' e']. cbn [fst] in *.
    destruct (gen_text_strip false s body (compile_clean _ _ Hc)) as [G1 G2].
    rewrite (strip_app _ _ G2), G1, IH. reflexivity.
  Qed.

End CLI.

(* theorems that need no hypothesis on the compiler *)
Section CLI2.
  Variable compile : str -> cres.
  Variable trace : bool -> str -> str -> list (chan * str).

  (* the definitions of the section above, at this section's compiler and messages; where a proof
     needs the constant itself (unfold, cbn) it is written Cli.run_items *)
  Notation lib_text := (lib_text compile).
  Notation yldpc := (yldpc compile trace).
  Notation run_items := (run_items compile trace).

  Lemma yldpc_plain outfile srcs fs stdin : all_exist fs srcs ->
    yldpc no_flags outfile srcs fs stdin =
    let r := run_items false false false (combine srcs (contents (fs_seen fs outfile) stdin srcs)) in
    placed outfile (fst r) (snd r).
  Proof. exact (yldpc_items compile trace no_flags outfile srcs fs stdin). Qed.

  Lemma run_items_app : forall pre outs rest,
    Forall2 (fun it o => exists t, snd it = RText t /\ lib_text t = Some o) pre outs ->
    run_items false false false (pre ++ rest) =
    (concat outs ++ fst (run_items false false false rest), snd (run_items false false false rest)).
  Proof.
    intros pre outs rest. induction 1 as [|[s r] o pre outs [t [Hr Hc]] HF IH].
    - cbn [app concat]. destruct (run_items false false false rest). reflexivity.
    - cbn [snd] in Hr; subst r. cbn [app Cli.run_items concat]. rewrite one_source_plain.
      unfold Cli.lib_text, lib_text_of in Hc. destruct (compile t) as [body| |]; try discriminate.
      inversion Hc; subst o. rewrite IH, (gen_text_plain s body), app_assoc. reflexivity.
  Qed.

  Lemma run_items_ok : forall items outs,
    Forall2 (fun it o => exists t, snd it = RText t /\ lib_text t = Some o) items outs ->
    run_items false false false items = (concat outs, EOk).
  Proof.
    intros items outs H. rewrite <- (app_nil_r items), (run_items_app items outs [] H).
    cbn [Cli.run_items fst snd]. rewrite app_nil_r. reflexivity.
  Qed.

  (* C19, first sentence (success): without debug options, when every source is readable and
     compiles, the output is the concatenation, in argument order, of the texts the library
     returns for the source texts - on stdout when outfile is `-`, else in the file outfile and
     nothing on stdout - and the exit status is 0. *)
  Theorem cli_equals_library : forall outfile srcs fs stdin texts outs,
    all_exist fs srcs ->
    contents (fs_seen fs outfile) stdin srcs = map RText texts ->
    Forall2 (fun t o => lib_text t = Some o) texts outs ->
    yldpc no_flags outfile srcs fs stdin = placed outfile (concat outs) EOk.
  Proof.
    intros outfile srcs fs stdin texts outs Hex Hc HF.
    rewrite (yldpc_plain _ _ _ _ Hex). cbn zeta.
    rewrite Hc.
    assert (Hlen : length srcs = length texts).
    { rewrite <- (contents_length (fs_seen fs outfile) srcs stdin), Hc, map_length. reflexivity. }
    rewrite (run_items_ok (combine srcs (map RText texts)) outs); [reflexivity|].
    clear Hc Hex. revert srcs Hlen. induction HF as [|t o texts outs Ht HF IH]; intros srcs Hlen.
    - destruct srcs; [constructor|discriminate].
    - destruct srcs as [|s srcs]; [discriminate|]. cbn [map combine]. constructor.
      + exists t. split; [reflexivity|exact Ht].
      + apply IH. injection Hlen as Hlen. exact Hlen.
  Qed.

  (* a source that is not the output file is read as it is in the file system *)
  Lemma contents_fs_seen fs outfile : forall srcs stdin, ~ In outfile srcs ->
    contents (fs_seen fs outfile) stdin srcs = contents fs stdin srcs.
  Proof.
    unfold fs_seen. destruct (is_dash outfile); [reflexivity|].
    induction srcs as [|s r IH]; intros stdin Hn; [reflexivity|]. cbn [contents].
    assert (Hs : str_eqb s outfile = false).
    { apply str_eqb_neq. intros ->. apply Hn. left. reflexivity. }
    assert (Hr : ~ In outfile r) by (intros X; apply Hn; right; exact X).
    destruct (is_dash s); [rewrite IH by exact Hr; reflexivity|].
    unfold upd at 1. rewrite Hs, IH by exact Hr. reflexivity.
  Qed.

  (* the first source that cannot be read or does not compile *)
  Definition fails (it : str * rdres) (e : ending) : Prop :=
    match snd it with
    | RBad => e = ECrash
    | RText t =>
        match compile t with
        | COk _ => False
        | CErr l c m => e = EError (err_msg (fst it) l c m)
        | CCrash => e = ECrash
        end
    end.

  Lemma run_items_fail : forall pre outs it post e,
    Forall2 (fun it o => exists t, snd it = RText t /\ lib_text t = Some o) pre outs ->
    fails it e ->
    run_items false false false (pre ++ it :: post) = (concat outs, e).
  Proof.
    intros pre outs it post e HF Hf. rewrite (run_items_app pre outs (it :: post) HF).
    assert (E : run_items false false false (it :: post) = ([], e)).
    { destruct it as [s [t|]]; unfold fails in Hf; cbn [fst snd] in Hf; cbn [Cli.run_items].
      - rewrite one_source_plain. destruct (compile t); [contradiction|subst e; reflexivity|subst e; reflexivity].
      - subst e; reflexivity. }
    rewrite E. cbn [fst snd]. rewrite app_nil_r. reflexivity.
  Qed.

  (* C19, first sentence (failure): without debug options, when the sources before the k-th are
     readable and compile and the k-th does not, the output (stdout or the file, which exists
     even if it stays empty) is the concatenation of the library texts of the sources before it -
     nothing of the failing source and nothing of the later ones - and the process ends with
     "Error: <file>:<line>:<column>:<message>" (CompilerError, e.g. a syntax error) or with a
     traceback (any other exception), exit status 1 in both cases. *)
  Theorem cli_first_failure : forall outfile srcs fs stdin pre it post outs e,
    all_exist fs srcs ->
    combine srcs (contents (fs_seen fs outfile) stdin srcs) = pre ++ it :: post ->
    Forall2 (fun it o => exists t, snd it = RText t /\ lib_text t = Some o) pre outs ->
    fails it e ->
    yldpc no_flags outfile srcs fs stdin = placed outfile (concat outs) e /\ status e = 1.
  Proof.
    intros outfile srcs fs stdin pre it post outs e Hex Hc HF Hf.
    rewrite (yldpc_plain _ _ _ _ Hex). cbn zeta.
    rewrite Hc, (run_items_fail pre outs it post e HF Hf). split; [reflexivity|].
    unfold fails in Hf. destruct (snd it) as [t|]; [|subst e; reflexivity].
    destruct (compile t); [contradiction|subst e; reflexivity|subst e; reflexivity].
  Qed.

  (* every run is of one of the two kinds *)
  Lemma run_items_cases dp dg dfn : forall items,
    (snd (run_items dp dg dfn items) = EOk
     /\ Forall (fun it => exists t body, snd it = RText t /\ compile t = COk body) items)
    \/ (exists pre it post e, items = pre ++ it :: post
        /\ Forall (fun it => exists t body, snd it = RText t /\ compile t = COk body) pre
        /\ fails it e /\ e <> EOk /\ snd (run_items dp dg dfn items) = e).
  Proof.
    induction items as [|[s [t|]] rest IH].
    - left. split; [reflexivity|constructor].
    - cbn [Cli.run_items]. unfold one_source.
      destruct (compile t) as [body|l c m|] eqn:Ec.
      + destruct IH as [[E HF]|[pre [it [post [e [-> [HF [Hf [Hne E]]]]]]]]].
        * left. destruct (Cli.run_items _ _ _ _ _ rest) as [o' e']. cbn [snd] in *. split; [exact E|].
          constructor; [|exact HF]. exists t, body. split; [reflexivity|exact Ec].
        * right. exists ((s, RText t) :: pre), it, post, e. split; [reflexivity|].
          split; [constructor; [exists t, body; split; [reflexivity|exact Ec]|exact HF]|].
          split; [exact Hf|]. split; [exact Hne|].
          destruct (Cli.run_items _ _ _ _ _ (pre ++ it :: post)) as [o' e']. exact E.
      + right. exists [], (s, RText t), rest, (EError (err_msg s l c m)).
        split; [reflexivity|]. split; [constructor|]. split; [unfold fails; cbn [fst snd]; rewrite Ec; reflexivity|].
        split; [discriminate|reflexivity].
      + right. exists [], (s, RText t), rest, ECrash.
        split; [reflexivity|]. split; [constructor|]. split; [unfold fails; cbn [fst snd]; rewrite Ec; reflexivity|].
        split; [discriminate|reflexivity].
    - right. exists [], (s, RBad), rest, ECrash.
      split; [reflexivity|]. split; [constructor|]. split; [reflexivity|]. split; [discriminate|reflexivity].
  Qed.

  (* C19 "exits non-zero when a file does not compile": for every combination of options the exit
     status is 0 if and only if every source exists, is readable and compiles. *)
  Theorem exit_status : forall f outfile srcs fs stdin,
    status (r_end (yldpc f outfile srcs fs stdin)) = 0 <->
    (all_exist fs srcs /\
     Forall (fun r => exists t body, r = RText t /\ compile t = COk body)
            (contents (fs_seen fs outfile) stdin srcs)).
  Proof.
    intros f outfile srcs fs stdin.
    destruct (all_exist_dec fs srcs) as [Hex|Hn].
    2: { rewrite (missing_source_usage_error compile trace _ _ _ _ _ Hn). cbn. split; [discriminate|].
         intros [Hex _]. contradiction. }
    rewrite (yldpc_items compile trace _ _ _ _ _ Hex). cbn zeta. rewrite r_end_placed.
    pose proof (contents_items_snd (fs_seen fs outfile) srcs stdin) as Hsnd.
    set (items := combine srcs (contents (fs_seen fs outfile) stdin srcs)) in *.
    rewrite <- Hsnd, Forall_map.
    destruct (run_items_cases (dbg_parser f) (dbg_generator f) (dbg_filename f) items)
      as [[E HF]|[pre [it [post [e [Hit [HF [Hf [Hne E]]]]]]]]]; rewrite E.
    - split; [intros _|reflexivity]. split; [exact Hex|exact HF].
    - split.
      + intros Hs. destruct e; try discriminate Hs. contradiction Hne. reflexivity.
      + (* the failing source would have to compile *)
        intros [_ HA]. exfalso. rewrite Hit in HA. apply Forall_app in HA. destruct HA as [_ HA].
        inversion HA as [|? ? [t [body [Ht Hc]]] _]; subst.
        unfold fails in Hf. rewrite Ht, Hc in Hf. exact Hf.
  Qed.

End CLI2.
