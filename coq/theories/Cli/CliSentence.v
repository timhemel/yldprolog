(* C10: the command line judges every source text ALONE.  (At the end, an evaluated example for C19.)

   The model command line (Cli/Cli.v `yldpc`, over the model compiler `compile_text`) compiles the sources one by
   one.  Hence a run that exits with status 0 has read only sentences of the grammar: a source that ends inside a
   comment, a quoted atom or a clause is refused even if the beginning of the NEXT source would complete it.  (The
   check of C10, harness/props/c10.py, compares the real `yldpc` with this on sequences of sources that are one
   sentence cut into pieces.) *)
From Coq Require Import String.
From Coq Require Import List NArith Bool.
Import ListNotations.
From YP Require Import Base.Str Lang.Front Lang.FrontSpec Comp.CompileText Comp.CompileTextSound Cli.Comment Cli.Cli Cli.CliCompile.
Local Open Scope string_scope.

Lemma front_some_sentence s prog : front s = Some prog -> sentence s.
Proof.
  intros H. apply front_spec in H. destruct H as [items [cst [k [Hl [_ [Y _]]]]]].
  exists items, cst. split; assumption.
Qed.

Lemma compile_text_sentence printable s text : compile_text printable s = CText text -> sentence s.
Proof.
  intros H. apply compile_text_accepts_good in H. destruct H as [p [ir [Hf _]]].
  exact (front_some_sentence s p Hf).
Qed.

(* exit status 0 => every source exists and every text that was read - each file, standard input - is a sentence *)
Theorem cli_sources_sentences : forall printable failure trace f outfile srcs fs stdin,
  status (r_end (yldpc_lib printable failure trace f outfile srcs fs stdin)) = 0%N ->
  all_exist fs srcs /\
  Forall (fun r => exists t, r = RText t /\ sentence t) (contents (fs_seen fs outfile) stdin srcs).
Proof.
  intros printable failure trace f outfile srcs fs stdin H.
  apply exit_status_lib in H. destruct H as [H1 H2]. split; [exact H1|].
  eapply Forall_impl; [|exact H2]. cbv beta. intros r [t [text [-> Hc]]].
  exists t. split; [reflexivity|]. exact (compile_text_sentence printable t text Hc).
Qed.

(* the contrapositive: one source whose text is not a sentence makes the run fail, whatever the other sources are *)
Theorem cli_non_sentence_fails : forall printable failure trace f outfile srcs fs stdin t,
  In (RText t) (contents (fs_seen fs outfile) stdin srcs) -> ~ sentence t ->
  status (r_end (yldpc_lib printable failure trace f outfile srcs fs stdin)) <> 0%N.
Proof.
  intros printable failure trace f outfile srcs fs stdin t Hin Hn H.
  apply cli_sources_sentences in H. destruct H as [_ H].
  rewrite Forall_forall in H. destruct (H _ Hin) as [t' [E S]]. injection E as <-. exact (Hn S).
Qed.

(* non-vacuity: two sources that are one sentence cut inside a quoted atom, and one cut before the full stop.  The
   joined text compiles; the run over the two files exits with status 1 and writes nothing. *)
Example cli_pieces_refused :
  let printable := fun _ : N => false in
  let failure := fun _ : str => CErr 1 0 (d "syntax error") in
  let trace := fun (dfn : bool) (s t : str) => @nil (chan * str) in
  let a := d "k(1).\10;p('ab" in
  let b := d "cd').\10;" in
  let fs := fun s => if str_eqb s (d "x.pl") then Some (RText a) else
                     if str_eqb s (d "y.pl") then Some (RText b) else None in
  let r := yldpc_lib printable failure trace (Flags false false false false) (d "-") [d "x.pl"; d "y.pl"] fs (RText []) in
  (exists text, compile_text printable (a ++ b)%list = CText text)
  /\ compile_text printable a = CRejectFront /\ compile_text printable b = CRejectFront
  /\ status (r_end r) = 1%N /\ output r = [].
Proof.
  intros printable failure trace a b fs r. split.
  - assert (H : match compile_text printable (a ++ b)%list with CText _ => True | _ => False end).
    { vm_compute. exact I. }
    apply text_such_that in H. destruct H as [text [E _]]. exists text. exact E.
  - vm_compute. repeat split.
Qed.

(* C19, non-vacuity in the class "predicates none of whose clauses generates code": the function body is the
   placeholder, for one and for several such clauses, and with every debug option on the output differs by comment lines
   only (instance of debug_only_comments_lib; the generator's messages here contain line breaks). *)
Example cli_nocode_predicates :
  let printable := fun _ : N => false in
  let failure := fun _ : str => CErr 1 0 (d "syntax error") in
  let trace := fun (dfn : bool) (s t : str) =>
     [(ChGenerator, d "Compiling clauses for ('none', 0)"); (ChGenerator, d "-- Clause: none :- fail\10;x = 1"); (ChParser, d "visit")] in
  let src := d "k(a).\10;none :- fail.\10;none :- true, fail, k(a).\10;none :- fail, !.\10;" in
  let fs := fun s => if str_eqb s (d "x.pl") then Some (RText src) else None in
  let run := fun f => yldpc_lib printable failure trace f (d "-") [d "x.pl"] fs (RText []) in
  (exists text, compile_text printable src = CText text /\ r_end (run (Flags false false false false)) = EOk /\
     output (run (Flags false false false false)) = text)
  /\ strip_result (run (Flags true false false false)) = strip_result (run (Flags false false false false))
  /\ strip_result (run (Flags false false true false)) = strip_result (run (Flags false false false false))
  /\ output (run (Flags false false true false)) <> output (run (Flags false false false false)).
Proof.
  intros printable failure trace src fs run.
  (* the only evaluation of the compiler: the source is accepted *)
  assert (H : match compile_text printable src with CText _ => True | _ => False end).
  { vm_compute. exact I. }
  apply text_such_that in H. destruct H as [text [E _]].
  unfold run. clear run. change (Flags false false false false) with no_flags.
  assert (Hex : all_exist fs [d "x.pl"]).
  { apply existsb_all_exist. reflexivity. }
  split; [|split; [apply debug_only_comments_lib|split; [apply debug_only_comments_lib|]]].
  - exists text. split; [exact E|].
    rewrite (cli_equals_compile_text printable failure trace (d "-") [d "x.pl"] fs (RText []) [src] [text] Hex).
    + cbn [concat]. rewrite app_nil_r. split; reflexivity.
    + reflexivity.
    + constructor; [exact E|constructor].
  - (* the two runs are unfolded down to the call of the compiler, which returns some code for src; the rest
       is evaluated with that code left abstract: the generator's messages stand in front of it *)
    assert (Hc : lib_compile printable failure src = COk (body_of text)).
    { apply lib_compile_ok. exists text. split; [exact E|reflexivity]. }
    unfold yldpc_lib.
    pose proof (fun f => yldpc_items (lib_compile printable failure) trace f (d "-") [d "x.pl"] fs (RText []) Hex)
      as Run.
    cbv zeta in Run. rewrite Run, Run.
    change (combine [d "x.pl"] (contents (fs_seen fs (d "-")) (RText []) [d "x.pl"])) with [(d "x.pl", RText src)].
    cbn [run_items]. unfold one_source. rewrite Hc. generalize (body_of text) as body. intros body.
    vm_compute. discriminate.
Qed.
