(* C18 on the REAL model of the compiler (Comp/CompileClause.v, Comp/CompileText.v), not on a copy.

   compile_text : printable -> source -> cresult is a closed Gallina function; that it returns the
   same value every time is true by construction and is NOT claimed as a result.  What has content:

   The `V_x = variable()` lines that compile_clause (the model of compile_function_body) produces
   are `map declare` of two lists that are the canonical enumeration - no duplicates, exactly the
   not-yet-bound variables, ordered by first occurrence in the clause text - of the head's and of
   the body's variables, and a canonical enumeration is unique: there is no place where a set's
   iteration order could enter.

   compile_text_g is the same pipeline with three extra parameters that the real code does not
   have: `ord`, a function applied to the de-duplicated variable list (the model of list(set(...))
   of the old code: some permutation chosen by the hash seed), `gord`, the same for the iteration
   order of the predicate dictionary, and the initial values (a, k) of the two counters
   (anonymousVariableCounter, cut_if_counter).  At (identity, identity, (0,0)) it IS compile_text,
   and it is invariant in none of the three (for the counters: as if they were module-level or
   class-level and survived a call).  A process that creates its visitor and compiler objects
   (counters 0) per call, as _compile_prolog_from_stream does, returns for every source
   compile_text of that source, whatever was compiled (or failed to compile) before and after it. *)
From Coq Require Import String.
From Coq Require Import List NArith Bool Arith Permutation.
Import ListNotations.
From YP Require Import Comp.NumeralName.
From YP Require Import Base.Str Lang.Ast Lang.Lexer Lang.Cst Lang.Parser Lang.Unquote Lang.Front
  Comp.IR Comp.CompileBody Comp.CompileClause Comp.CompileTotal Comp.Emit Comp.PyRepr Comp.Limits Comp.CompileText
  Cli.Determinism.
Local Open Scope string_scope.
Local Open Scope list_scope.

Lemma mem_str_mem x l : mem_str x l = mem x l.
Proof. induction l as [|y r IH]; [reflexivity|]. cbn. rewrite IH, (str_eqb_sym x y). reflexivity. Qed.

Lemma dedup_acc_fromkeys : forall l seen, dedup_acc seen l = fromkeys seen l.
Proof.
  induction l as [|x r IH]; intros seen; [reflexivity|]. cbn [dedup_acc fromkeys].
  rewrite mem_str_mem. destruct (mem x seen); rewrite IH; reflexivity.
Qed.

(* the function used by compile_clause is the one analysed in Determinism.v *)
Lemma filter_free_eq bound vars : filter_free bound vars = filter_free_variables bound vars.
Proof.
  unfold filter_free, filter_free_variables, dedup. rewrite dedup_acc_fromkeys. f_equal.
  apply filter_ext. intros v. rewrite mem_str_mem. reflexivity.
Qed.

(* res enumerates the variables of vars that are not in bound: once each, by first occurrence *)
Definition canonical (bound vars res : list str) : Prop :=
  NoDup res /\ (forall v, In v res <-> In v vars /\ ~ In v bound) /\ sorted_by_first vars res.

Lemma filter_free_canonical bound vars : canonical bound vars (filter_free bound vars).
Proof. rewrite filter_free_eq. exact (dedup_keeps_first_occurrence_order bound vars). Qed.

Theorem canonical_unique bound vars l1 l2 : canonical bound vars l1 -> canonical bound vars l2 -> l1 = l2.
Proof.
  intros [N1 [I1 S1]] [N2 [I2 S2]]. apply (first_occurrence_order_unique vars); try assumption.
  intros v. rewrite I1, I2. tauto.
Qed.

(* the body code and the unification loops contain no assignment at their top level: the
   declarations of a clause are the ones listed, nothing else declares *)
Definition not_assign (st : stmt) : Prop := match st with SAssign _ _ => False | _ => True end.

Lemma compiled_no_assign b cnt code k : compiled b cnt code k -> Forall not_assign code.
Proof.
  induction 1 as [b b' cnt code k _ _ IH|l K cnt c k _ IH|f args K cnt c k _ _|K cnt c k _ IH|K cnt
                 |c t e cnt c1 k1 c2 k2 _ _ _ _ _|c t e cnt code k _ _ _|x y cnt c1 k1 c2 k2 _ _ IH1 _ IH2|cnt|cnt].
  - exact IH.
  - apply Forall_app. split; [exact IH|repeat constructor].
  - repeat constructor.
  - apply Forall_app. split; [exact IH|repeat constructor].
  - constructor.
  - repeat constructor.
  - repeat constructor.
  - apply Forall_app. split; [exact IH1|exact IH2].
  - repeat constructor.
  - repeat constructor.
Qed.

Lemma comp_no_assign : forall n b cnt code k, comp n b cnt = Some (code, k) -> Forall not_assign code.
Proof. intros n b cnt code k H. exact (compiled_no_assign _ _ _ _ (comp_compiled n b cnt code k H)). Qed.

Lemma arg_unifications_no_assign code : Forall not_assign code ->
  forall pos args i, Forall not_assign (arg_unifications i pos args code).
Proof.
  intros Hc pos. induction pos as [|[v|] pr IH]; intros args i; destruct args as [|a ar]; cbn [arg_unifications]; try exact Hc.
  - apply IH.
  - repeat constructor.
Qed.

Theorem decl_order_canonical : forall c cnt code cnt', compile_clause c cnt = Some (code, cnt') ->
  let pos := head_args_by_pos (c_args c) in
  let aliased := some_list pos in
  exists fv_head fv_body loops,
    code = head_aliases 0 pos ++ map declare fv_head ++ map declare fv_body ++ loops
    /\ canonical aliased (flat_map sterm_vars (c_args c)) fv_head
    /\ canonical (aliased ++ fv_head) (body_vars (c_body c)) fv_body
    /\ Forall not_assign loops.
Proof.
  intros c cnt code cnt' H pos aliased. unfold compile_clause in H.
  destruct (comp (fuel_body (c_body c)) (c_body c) cnt) as [[bcode k]|] eqn:E; [|discriminate].
  injection H as <- _. do 3 eexists. split; [reflexivity|].
  split; [apply filter_free_canonical|]. split; [apply filter_free_canonical|].
  apply arg_unifications_no_assign. eapply comp_no_assign. exact E.
Qed.

Section Gen.
  Variable printable : N -> bool.
  (* what is done to a de-duplicated variable list before it is used; the real code: nothing *)
  Variable ord : list str -> list str.
  (* in which order the dictionary (name, arity) -> clauses built by visitProgram is iterated by
     compile_program; the real code: insertion order (Python dicts), i.e. nothing is done *)
  Variable gord : list (key * list clause) -> list (key * list clause).

  Definition compile_clause_g (c : clause) (cnt : nat) : option (list stmt * nat) :=
    let pos := head_args_by_pos (c_args c) in
    let bound1 := some_list pos in
    let fv_head := ord (filter_free bound1 (flat_map sterm_vars (c_args c))) in
    let bound2 := bound1 ++ fv_head in
    let fv_body := ord (filter_free bound2 (body_vars (c_body c))) in
    match comp (fuel_body (c_body c)) (c_body c) cnt with
    | None => None
    | Some (code, cnt') =>
        Some (head_aliases 0 pos ++ map declare fv_head ++ map declare fv_body
              ++ arg_unifications 0 pos (c_args c) code, cnt')
    end.

  Fixpoint compile_clauses_g (cs : list clause) (cnt : nat) : option (list stmt * nat) :=
    match cs with
    | [] => Some ([], cnt)
    | c :: r =>
        match compile_clause_g c cnt with
        | None => None
        | Some (code, cnt1) =>
            match compile_clauses_g r cnt1 with
            | None => None
            | Some (rest, cnt2) => Some (code ++ rest, cnt2)
            end
        end
    end.

  Fixpoint compile_groups_g (gs : list (key * list clause)) (cnt : nat) : option (list func * nat) :=
    match gs with
    | [] => Some ([], cnt)
    | (k, cs) :: r =>
        match compile_clauses_g cs cnt with
        | None => None
        | Some (code, cnt1) =>
            match compile_groups_g r cnt1 with
            | None => None
            | Some (fs, cnt2) => Some ({| fn_name := fst k; fn_arity := snd k; fn_body := code |} :: fs, cnt2)
            end
        end
    end.

  (* st = (anonymousVariableCounter, cut_if_counter) before the call; returned: their values after it *)
  Definition compile_text_g (st : nat * nat) (s : str) : cresult * (nat * nat) :=
    match (do 'ts <- lex s; do 'cst <- parse ts; v_program cst (fst st)) with
    | None => (CRejectFront, st)
    | Some (p, a') =>
        match compile_groups_g (gord (group_program p)) (snd st) with
        | None => (CRejectFront, (a', snd st))
        | Some (ir, k') => ((if ir_bad ir then CRejectFront else finish printable ir), (a', k'))
        end
    end.

  (* a process in which the counters are NOT re-created per call *)
  Fixpoint session_shared (st : nat * nat) (srcs : list str) : list cresult :=
    match srcs with
    | [] => []
    | s :: r => let (o, st') := compile_text_g st s in o :: session_shared st' r
    end.

  (* a process as the code is: _compile_prolog_from_stream creates YPPrologVisitor(ctx)
     (anonymousVariableCounter = 0) and YPPrologCompiler(ctx) (cut_if_counter = 0) in every call and
     nothing of them survives the call *)
  Fixpoint session (srcs : list str) : list cresult :=
    match srcs with
    | [] => []
    | s :: r => fst (compile_text_g (0, 0) s) :: session r
    end.
End Gen.

Definition keep : list str -> list str := fun l => l.
Definition gkeep : list (key * list clause) -> list (key * list clause) := fun l => l.

Lemma compile_clauses_g_id : forall cs cnt, compile_clauses_g keep cs cnt = compile_clauses cs cnt.
Proof.
  induction cs as [|c r IH]; intros cnt; [reflexivity|]. cbn [compile_clauses_g compile_clauses].
  change (compile_clause_g keep c cnt) with (compile_clause c cnt).
  destruct (compile_clause c cnt) as [[code k]|]; [|reflexivity].
  rewrite IH. reflexivity.
Qed.

Lemma compile_groups_g_id : forall gs cnt, compile_groups_g keep gs cnt = compile_groups gs cnt.
Proof.
  induction gs as [|[k cs] r IH]; intros cnt; [reflexivity|]. cbn [compile_groups_g compile_groups].
  rewrite compile_clauses_g_id. destruct (compile_clauses cs cnt) as [[code k1]|]; [|reflexivity].
  rewrite IH. reflexivity.
Qed.

(* with nothing done to the variable lists and both counters starting at 0 the generalised
   pipeline is compile_text: the theorems below are about the real model *)
Theorem compile_text_g_id printable s : fst (compile_text_g printable keep gkeep (0, 0) s) = compile_text printable s.
Proof.
  unfold compile_text_g, compile_text, front, compile_ast, compile_program, gkeep. cbn [fst snd].
  destruct (lex s) as [ts|]; [|reflexivity]. destruct (parse ts) as [cst|]; [|reflexivity].
  destruct (v_program cst 0) as [[p a']|]; [|reflexivity].
  rewrite compile_groups_g_id. destruct (compile_groups (group_program p) 0) as [[ir k']|]; reflexivity.
Qed.

Lemma session_map printable l : session printable keep gkeep l = map (compile_text printable) l.
Proof.
  induction l as [|s r IH]; [reflexivity|]. cbn [session map]. rewrite compile_text_g_id, IH. reflexivity.
Qed.

(* C18 "after any other compilations in the same process" *)
Theorem counters_per_call printable : forall before after src,
  session printable keep gkeep (before ++ src :: after)
  = map (compile_text printable) before ++ compile_text printable src :: map (compile_text printable) after.
Proof. intros before after src. rewrite session_map, map_app. reflexivity. Qed.

Corollary counters_per_call_nth printable before after src :
  nth_error (session printable keep gkeep (before ++ src :: after)) (length before) = Some (compile_text printable src).
Proof.
  rewrite session_map. apply map_nth_error.
  rewrite nth_error_app2, Nat.sub_diag by apply le_n. reflexivity.
Qed.

Definition no_unicode : N -> bool := fun _ => false.

(* a refutation evaluates this test once, through lexer, parser, visitor, compiler and emitter;
   neither text is written out *)
Definition differ (r1 r2 : cresult) : bool :=
  match r1, r2 with CText a, CText b => negb (str_eqb a b) | _, _ => false end.

Lemma differ_texts r1 r2 : differ r1 r2 = true ->
  exists t1 t2, r1 = CText t1 /\ r2 = CText t2 /\ t1 <> t2.
Proof.
  destruct r1 as [t1| | |]; try discriminate. destruct r2 as [t2| | |]; try discriminate.
  cbn [differ]. intros H. exists t1, t2. split; [reflexivity|]. split; [reflexivity|].
  apply str_eqb_neq, negb_true_iff. exact H.
Qed.

(* F is the compiler as a function of the order *)
Lemma refuted_by_rev {X} (F : (list X -> list X) -> str -> cresult) (s : str) :
  differ (F (fun l => l) s) (F (@rev X) s) = true ->
  exists (o1 o2 : list X -> list X) (s : str) (t1 t2 : str),
    (forall l, Permutation (o1 l) l) /\ (forall l, Permutation (o2 l) l)
    /\ F o1 s = CText t1 /\ F o2 s = CText t2 /\ t1 <> t2.
Proof.
  intros H. apply differ_texts in H. destruct H as [t1 [t2 [E1 [E2 Hne]]]].
  exists (fun l => l), (@rev X), s, t1, t2.
  split; [intros l; apply Permutation_refl|].
  split; [intros l; apply Permutation_sym, Permutation_rev|].
  split; [exact E1|]. split; [exact E2|exact Hne].
Qed.

(* the old code: list(set(...)).  Two iteration orders, one source, two different texts. *)
Theorem set_order_refuted :
  exists (ord1 ord2 : list str -> list str) (s : str) (t1 t2 : str),
    (forall l, Permutation (ord1 l) l) /\ (forall l, Permutation (ord2 l) l)
    /\ fst (compile_text_g no_unicode ord1 gkeep (0, 0) s) = CText t1
    /\ fst (compile_text_g no_unicode ord2 gkeep (0, 0) s) = CText t2
    /\ t1 <> t2.
Proof.
  apply (refuted_by_rev (fun ord s => fst (compile_text_g no_unicode ord gkeep (0, 0) s))
                        (d "p(X) :- q(Y, Z).")).
  vm_compute. reflexivity.
Qed.

(* the same for the predicate dictionary: if its iteration order were not the insertion order (a set
   of keys, a dict of a Python before 3.7) two orders would give two different texts *)
Theorem group_order_refuted :
  exists (g1 g2 : list (key * list clause) -> list (key * list clause)) (s : str) (t1 t2 : str),
    (forall l, Permutation (g1 l) l) /\ (forall l, Permutation (g2 l) l)
    /\ fst (compile_text_g no_unicode keep g1 (0, 0) s) = CText t1
    /\ fst (compile_text_g no_unicode keep g2 (0, 0) s) = CText t2
    /\ t1 <> t2.
Proof.
  apply (refuted_by_rev (fun gord s => fst (compile_text_g no_unicode keep gord (0, 0) s))
                        (d "p(a). q(b).")).
  vm_compute. reflexivity.
Qed.

(* compiling s twice in one process.  With counters that survive, the second call starts where the
   first one ended; with counters per call it starts as the first did.  So the test: does the second
   call, started from the first call's final counters, give another text? *)
Lemma compiled_twice printable ord gord s :
  (let first := compile_text_g printable ord gord (0, 0) s in
   differ (fst first) (fst (compile_text_g printable ord gord (snd first) s))) = true ->
  exists t1 t2, session_shared printable ord gord (0, 0) [s; s] = [CText t1; CText t2] /\ t1 <> t2
                /\ session printable ord gord [s; s] = [CText t1; CText t1].
Proof.
  cbv zeta. cbn [session_shared session].
  destruct (compile_text_g printable ord gord (0, 0) s) as [r1 st1]. cbn [fst snd].
  destruct (compile_text_g printable ord gord st1 s) as [r2 st2]. cbn [fst].
  intros H. apply differ_texts in H. destruct H as [t1 [t2 [-> [-> Hne]]]].
  exists t1, t2. split; [reflexivity|]. split; [exact Hne|reflexivity].
Qed.

(* counters that survive a call: the second compilation of the same text differs from the first,
   (a) through the anonymous-variable counter alone, (b) through the label counter alone *)
Theorem shared_counters_refuted :
  (exists s t1 t2, session_shared no_unicode keep gkeep (0, 0) [s; s] = [CText t1; CText t2] /\ t1 <> t2
                   /\ session no_unicode keep gkeep [s; s] = [CText t1; CText t1])
  /\ (exists s t1 t2, session_shared no_unicode keep gkeep (0, 0) [s; s] = [CText t1; CText t2] /\ t1 <> t2
                   /\ session no_unicode keep gkeep [s; s] = [CText t1; CText t1]).
Proof.
  split.
  - exists (d "p(_)."). apply compiled_twice. vm_compute. reflexivity.
  - exists (d "p :- ( a -> b ; c )."). apply compiled_twice. vm_compute. reflexivity.
Qed.
