(* comment_lines (yp_prolog_visitor.py) over code-point strings, Python's str.splitlines(),
   the physical lines of Python's tokenizer, and the removal of comment lines.

     def comment_lines(s):
         return "".join('# ' + l + '\n' for l in (s.replace('\0','\\0').splitlines() or ['']))

   (D23: a NUL character is written as backslash-zero - Python refuses source text that contains a
   NUL even inside a comment.)

   Every debug message of the compiler (YPPrologVisitor._debug, YPPrologCompiler._debug, the
   `# from <file>` line of YPPythonCodeGenerator.generate) goes through this function before it is
   written into the output. *)
From Coq Require Import String.
From Coq Require Import List NArith Bool Lia.
Import ListNotations.
From YP Require Import Base.Str.
Local Open Scope N_scope.

(* str.splitlines(): the line boundaries of CPython's unicode type
   (Objects/unicodeobject.c, _PyUnicode_IsLinebreak + the \r\n pair):
   \n \v \f \r \x1c \x1d \x1e \x85 U+2028 U+2029, and \r\n counts as one. *)
Definition is_break (c : N) : bool :=
  (c =? 10) || (c =? 11) || (c =? 12) || (c =? 13) || (c =? 28) || (c =? 29) || (c =? 30)
  || (c =? 133) || (c =? 8232) || (c =? 8233).

(* [sl skiplf s]: the lines of s without their terminators; no empty line after a final
   terminator; skiplf = the previous character was \r, so an immediately following \n belongs to
   the same boundary. *)
Fixpoint sl (skiplf : bool) (s : str) : list str :=
  match s with
  | [] => []
  | c :: r =>
      if skiplf && (c =? 10) then sl false r
      else if c =? 13 then [] :: sl true r
      else if is_break c then [] :: sl false r
      else match sl false r with
           | [] => [[c]]
           | l :: ls => (c :: l) :: ls
           end
  end.

Definition splitlines (s : str) : list str := sl false s.

(* `s.splitlines() or ['']` *)
Definition lines_or_empty (s : str) : list str :=
  match splitlines s with [] => [[]] | ls => ls end.

(* '# ' + l + '\n' *)
Definition comment_line (l : str) : str := 35 :: 32 :: l ++ [10].

(* s.replace('\0','\\0') *)
Fixpoint escape_nul (s : str) : str :=
  match s with
  | [] => []
  | c :: r => if c =? 0 then 92 :: 48 :: escape_nul r else c :: escape_nul r
  end.

Definition comment_lines (s : str) : str := concat (map comment_line (lines_or_empty (escape_nul s))).

(* Physical lines of a Python source text as the tokenizer sees them: a line ends after \n, after
   \r\n, or after a \r that is not followed by \n.  Each line keeps its terminator, the last line
   may have none, so that concat (plines t) = t. *)
Definition starts_lf (s : str) : bool := match s with c :: _ => c =? 10 | [] => false end.

Fixpoint plines (s : str) : list str :=
  match s with
  | [] => []
  | c :: r =>
      if c =? 10 then [c] :: plines r
      else if (c =? 13) && negb (starts_lf r) then [c] :: plines r
      else (* c continues the first line of the rest (for \r: that line is the \n that follows) *)
        match plines r with
        | [] => [[c]]
        | l :: ls => (c :: l) :: ls
        end
  end.

Definition starts_hash (l : str) : bool := match l with c :: _ => c =? 35 | [] => false end.

(* the text with its comment lines (lines whose first character is #) removed *)
Definition strip (t : str) : str := concat (filter (fun l => negb (starts_hash l)) (plines t)).

(* empty, or ends with \n: the next thing written starts a new line *)
Definition nl_term (a : str) : Prop := a = [] \/ exists a', a = a' ++ [10].

Definition nobreak (l : str) : Prop := Forall (fun c => is_break c = false) l.

Lemma is_break_false c : is_break c = false -> c <> 10 /\ c <> 13.
Proof.
  (* at 10 and at 13 is_break computes to true *)
  intros H. split; intros ->; discriminate H.
Qed.

Lemma sl_chars (P : N -> Prop) : forall s b, Forall P s ->
  Forall (Forall (fun c => P c /\ is_break c = false)) (sl b s).
Proof.
  induction s as [|c r IH]; intros b H; cbn [sl]; [constructor|].
  inversion H as [|? ? Hc Hr]; subst.
  destruct (b && (c =? 10)); [apply IH; exact Hr|].
  destruct (c =? 13); [constructor; [constructor|apply IH; exact Hr]|].
  destruct (is_break c) eqn:Eb; [constructor; [constructor|apply IH; exact Hr]|].
  specialize (IH false Hr). destruct (sl false r) as [|l ls].
  - repeat constructor; assumption.
  - inversion IH; subst. repeat constructor; assumption.
Qed.

Lemma lines_or_empty_chars (P : N -> Prop) s : Forall P s ->
  Forall (Forall (fun c => P c /\ is_break c = false)) (lines_or_empty s).
Proof.
  intros H. unfold lines_or_empty, splitlines. pose proof (sl_chars P s false H) as H1.
  destruct (sl false s); [repeat constructor|exact H1].
Qed.

Lemma lines_or_empty_nobreak s : Forall nobreak (lines_or_empty s).
Proof.
  assert (H : Forall (fun _ => True) s) by (apply Forall_forall; trivial).
  apply (lines_or_empty_chars _ s) in H. revert H. apply Forall_impl. intros l.
  apply Forall_impl. intros c [_ Hc]. exact Hc.
Qed.

Lemma lines_or_empty_nonempty s : lines_or_empty s <> [].
Proof. unfold lines_or_empty; destruct (splitlines s); discriminate. Qed.

(* splitlines loses nothing but the terminators: a text without any line-break character is its
   own single line *)
Lemma sl_nobreak_id : forall l, nobreak l -> l <> [] -> sl false l = [l].
Proof.
  induction l as [|c r IH]; intros Hnb Hne; [congruence|].
  inversion Hnb as [|? ? Hc Hr]; subst.
  cbn [sl andb]. destruct (is_break_false _ Hc) as [_ E13]. apply N.eqb_neq in E13. rewrite E13, Hc.
  destruct r as [|c2 r2]; [reflexivity|].
  rewrite (IH Hr) by discriminate. reflexivity.
Qed.

Lemma plines_nil_iff s : plines s = [] <-> s = [].
Proof.
  split; [|intros ->; reflexivity].
  destruct s as [|c r]; [reflexivity|]. cbn [plines].
  destruct (c =? 10); [discriminate|].
  destruct ((c =? 13) && negb (starts_lf r)); [discriminate|].
  destruct (plines r); discriminate.
Qed.

Lemma concat_plines : forall s, concat (plines s) = s.
Proof.
  induction s as [|c r IH]; [reflexivity|]. cbn [plines].
  destruct (c =? 10); [cbn; rewrite IH; reflexivity|].
  destruct ((c =? 13) && negb (starts_lf r)); [cbn; rewrite IH; reflexivity|].
  destruct (plines r) as [|l ls] eqn:E.
  - apply plines_nil_iff in E; subst; reflexivity.
  - cbn in *. rewrite IH. reflexivity.
Qed.

Lemma starts_lf_app a b : starts_lf ((a ++ [10]) ++ b) = starts_lf (a ++ [10]).
Proof. destruct a; reflexivity. Qed.

(* a text that ends with \n closes its last line: the lines of what follows are independent *)
Lemma plines_app_nl : forall a b, plines ((a ++ [10]) ++ b) = plines (a ++ [10]) ++ plines b.
Proof.
  induction a as [|c a IH]; intros b.
  - reflexivity.
  - change (((c :: a) ++ [10]) ++ b) with (c :: ((a ++ [10]) ++ b)).
    change ((c :: a) ++ [10]) with (c :: (a ++ [10])).
    cbn [plines]. rewrite starts_lf_app, IH.
    destruct (c =? 10); [reflexivity|].
    destruct ((c =? 13) && negb (starts_lf (a ++ [10]))); [reflexivity|].
    destruct (plines (a ++ [10])) as [|l ls] eqn:E.
    + apply plines_nil_iff in E. destruct a; discriminate.
    + reflexivity.
Qed.

Lemma plines_app a b : nl_term a -> plines (a ++ b) = plines a ++ plines b.
Proof.
  intros [->|[a' ->]]; [reflexivity|apply plines_app_nl].
Qed.

Lemma plines_line : forall l, Forall (fun c => c <> 10 /\ c <> 13) l -> plines (l ++ [10]) = [l ++ [10]].
Proof.
  induction l as [|c r IH]; intros H; [reflexivity|].
  inversion H as [|? ? [E10 E13] Hr]; subst. apply N.eqb_neq in E10, E13.
  change ((c :: r) ++ [10]) with (c :: (r ++ [10])).
  cbn [plines]. rewrite E10, E13, (IH Hr). reflexivity.
Qed.

Lemma nobreak_no_nl l : nobreak l -> Forall (fun c => c <> 10 /\ c <> 13) l.
Proof. apply Forall_impl. exact is_break_false. Qed.

Lemma plines_comment_line l : nobreak l -> plines (comment_line l) = [comment_line l].
Proof.
  intros H. unfold comment_line.
  change (35 :: 32 :: l ++ [10]) with ((35 :: 32 :: l) ++ [10]).
  apply plines_line. constructor; [split; discriminate|]. constructor; [split; discriminate|].
  apply nobreak_no_nl; exact H.
Qed.

Lemma comment_line_nl_term l : nl_term (comment_line l).
Proof. right. exists (35 :: 32 :: l). reflexivity. Qed.

Lemma nl_term_app a b : nl_term a -> nl_term b -> nl_term (a ++ b).
Proof.
  intros Ha [->|[b' ->]].
  - rewrite app_nil_r; exact Ha.
  - right. exists (a ++ b'). rewrite app_assoc. reflexivity.
Qed.

Lemma nl_term_concat ls : Forall nl_term ls -> nl_term (concat ls).
Proof.
  induction 1 as [|x r Hx Hr IH]; cbn; [left; reflexivity|].
  apply nl_term_app; assumption.
Qed.

Lemma plines_comment_block : forall ls, Forall nobreak ls ->
  plines (concat (map comment_line ls)) = map comment_line ls.
Proof.
  induction ls as [|l r IH]; intros H; [reflexivity|].
  inversion H as [|? ? Hl Hr]; subst. cbn [map concat].
  rewrite (plines_app _ _ (comment_line_nl_term l)), (plines_comment_line _ Hl), (IH Hr).
  reflexivity.
Qed.

Lemma plines_comment_lines msg :
  plines (comment_lines msg) = map comment_line (lines_or_empty (escape_nul msg)).
Proof. apply plines_comment_block, lines_or_empty_nobreak. Qed.

Lemma escape_nul_no_nul s : Forall (fun c => c <> 0) (escape_nul s).
Proof.
  induction s as [|c r IH]; cbn [escape_nul]; [constructor|].
  destruct (N.eqb_spec c 0) as [->|Hn]; repeat constructor; try discriminate; assumption.
Qed.

Lemma escape_nul_id s : Forall (fun c => c <> 0) s -> escape_nul s = s.
Proof.
  induction 1 as [|c r Hc Hr IH]; [reflexivity|]. cbn [escape_nul].
  destruct (N.eqb_spec c 0); [contradiction|rewrite IH; reflexivity].
Qed.

Lemma comment_lines_nl_term msg : nl_term (comment_lines msg).
Proof.
  unfold comment_lines. apply nl_term_concat, Forall_map, Forall_forall.
  intros l _. apply comment_line_nl_term.
Qed.

(* C19: every line of a commented debug message - for ANY message, whatever code points and
   line-break characters it contains - starts with #, there is at least one such line, and the
   text ends with a newline (so whatever is written next starts on a fresh line). *)
Theorem comment_every_line : forall msg,
  Forall (fun l => starts_hash l = true) (plines (comment_lines msg))
  /\ plines (comment_lines msg) <> []
  /\ exists t, comment_lines msg = t ++ [10].
Proof.
  intros msg.
  assert (Hne : plines (comment_lines msg) <> []).
  { rewrite plines_comment_lines. intros E. apply map_eq_nil in E.
    exact (lines_or_empty_nonempty _ E). }
  split; [|split; [exact Hne|]].
  - rewrite plines_comment_lines. apply Forall_map, Forall_forall. reflexivity.
  - destruct (comment_lines_nl_term msg) as [E|H]; [|exact H].
    rewrite E in Hne. contradiction Hne. reflexivity.
Qed.

(* what the comment says is the message (NUL written as \0): one comment line per line of the
   message, in order *)
Theorem comment_lines_content : forall msg,
  plines (comment_lines msg) = map (fun l => 35 :: 32 :: l ++ [10]) (lines_or_empty (escape_nul msg))
  /\ Forall nobreak (lines_or_empty (escape_nul msg)).
Proof. intros msg; split; [apply plines_comment_lines|apply lines_or_empty_nobreak]. Qed.

(* C19/D23: every line of a commented debug message is a comment line AS PYTHON READS LINES:
   `# `, then characters none of which is NUL, CR, LF (or any other str.splitlines boundary), then
   the line feed that ends it.  So nothing in the message can end the comment early, and the text
   contains no NUL (which Python 3.12 refuses anywhere in source text). *)
Definition comment_char (c : N) : Prop := c <> 0 /\ c <> 10 /\ c <> 13 /\ is_break c = false.

Theorem comment_lines_clean : forall msg,
  Forall (fun l => exists body, l = 35 :: 32 :: body ++ [10] /\ Forall comment_char body) (plines (comment_lines msg))
  /\ Forall (fun c => c <> 0) (comment_lines msg).
Proof.
  intros msg.
  assert (HL : Forall (Forall comment_char) (lines_or_empty (escape_nul msg))).
  { pose proof (lines_or_empty_chars _ _ (escape_nul_no_nul msg)) as H. revert H.
    apply Forall_impl. intros l. apply Forall_impl. intros c [H0 Hb].
    destruct (is_break_false _ Hb) as [E10 E13].
    unfold comment_char. auto. }
  split.
  - rewrite plines_comment_lines. apply Forall_map. revert HL. apply Forall_impl.
    intros l Hl. exists l. split; [reflexivity|exact Hl].
  - unfold comment_lines. apply Forall_concat, Forall_map. revert HL. apply Forall_impl.
    intros l Hl. unfold comment_line.
    constructor; [discriminate|]. constructor; [discriminate|].
    apply Forall_app. split; [|repeat constructor; discriminate].
    revert Hl. apply Forall_impl. intros c [H _]. exact H.
Qed.

Lemma strip_app a b : nl_term a -> strip (a ++ b) = strip a ++ strip b.
Proof.
  intros H. unfold strip. rewrite (plines_app _ _ H), filter_app, concat_app. reflexivity.
Qed.

Lemma strip_comment_block ls : Forall nobreak ls -> strip (concat (map comment_line ls)) = [].
Proof.
  intros H. unfold strip. rewrite (plines_comment_block _ H).
  induction ls as [|l r IH]; [reflexivity|].
  inversion H; subst. cbn. apply IH; assumption.
Qed.

Lemma strip_comment_lines msg : strip (comment_lines msg) = [].
Proof. apply strip_comment_block, lines_or_empty_nobreak. Qed.

Lemma strip_comment_msgs msgs : strip (concat (map comment_lines msgs)) = [].
Proof.
  induction msgs as [|m r IH]; [reflexivity|]. cbn [map concat].
  rewrite (strip_app _ _ (comment_lines_nl_term m)), strip_comment_lines, IH. reflexivity.
Qed.

Lemma comment_msgs_nl_term msgs : nl_term (concat (map comment_lines msgs)).
Proof.
  apply nl_term_concat, Forall_map, Forall_forall. intros m _. apply comment_lines_nl_term.
Qed.

Lemma strip_id t : Forall (fun l => starts_hash l = false) (plines t) -> strip t = t.
Proof.
  intros H. unfold strip.
  assert (E : filter (fun l => negb (starts_hash l)) (plines t) = plines t).
  { induction H as [|x r Hx Hr IH]; [reflexivity|]. cbn. rewrite Hx. cbn. rewrite IH. reflexivity. }
  rewrite E. apply concat_plines.
Qed.

(* examples (evaluated): the line boundaries of str.splitlines, no final empty line, the empty
   message, \r\n as one boundary *)
Local Open Scope string_scope.
Example splitlines_ex1 : splitlines (d "a\10;b\13;\10;c\13;d\12;e\8232;f\10;") = [d "a"; d "b"; d "c"; d "d"; d "e"; d "f"].
Proof. reflexivity. Qed.
Example splitlines_ex2 : splitlines (d "\10;\10;") = [[]; []] /\ splitlines [] = [] /\ splitlines (d "\13;\13;\10;x") = [[]; []; d "x"].
Proof. repeat split. Qed.
Example comment_lines_ex1 : comment_lines [] = d "# \10;".
Proof. reflexivity. Qed.
Example comment_lines_ex3 : comment_lines (d "a\0;b\0;") = d "# a\92;0b\92;0\10;".
Proof. reflexivity. Qed.
Example comment_lines_ex2 : comment_lines (d "x\10;import os\13;y") = d "# x\10;# import os\10;# y\10;".
Proof. reflexivity. Qed.
Example plines_ex : plines (d "a\13;\10;b\13;c\10;\10;d") = [d "a\13;\10;"; d "b\13;"; d "c\10;"; d "\10;"; d "d"].
Proof. reflexivity. Qed.
Example strip_ex : strip (d "#\10;# x\10;def f():\10;  # kept: not at line start\10;#gone\10;  pass\10;") = d "def f():\10;  # kept: not at line start\10;  pass\10;".
Proof. reflexivity. Qed.
