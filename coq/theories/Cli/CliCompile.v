(* C19 with the library compiler no longer arbitrary: the command line model of Cli/Cli.v
   instantiated with the end-to-end model of compile_prolog_from_string, Comp/CompileText.v
   compile_text (front end + compile_program + limits + emitter with repr).

   1. compile_text_clean: every text that compile_text returns is
          header ++ "\n" ++ body
      where no physical line of body (line of Python's tokenizer: ended by \n, \r\n or \r) starts
      with # and body is empty or ends with \n.  This is the hypothesis `compile_clean` of
      Cli.debug_only_comments, PROVED here for the real emitter (it needs: the front end only
      lets names over [A-Za-z0-9_] through, repr() never returns \n or \r, every emitted line is
      a def line / an indented line / empty).
   2. lib_compile: the `compile` parameter of Cli.v made of compile_text.  Not modelled and
      therefore still arbitrary (a Section variable): which exception a rejected source raises
      (CompilerError with line, column and message -> "Error: file:line:col:msg", or another
      exception -> traceback) - compile_text only says THAT the source is rejected.
   3. the C19 theorems for this instance, without any hypothesis on the compiler. *)
From Coq Require Import String.
From Coq Require Import List NArith Bool Arith Lia.
Import ListNotations.
From YP Require Import Base.Str Lang.Ast Lang.Front Comp.IR Comp.CompileBody Comp.CompileClause Comp.Emit
  Comp.PyRepr Comp.Limits Comp.CompileText Comp.EmitShape Comp.EmitPieces Comp.EmitLines Comp.FrontLex
  Comp.CompileTextSound Cli.Comment Cli.Cli.
Local Open Scope string_scope.
Local Open Scope list_scope.

Definition no_nl_cr (l : str) : Prop := Forall (fun c => c <> 10%N /\ c <> 13%N) l.

Definition close_line (l : str) : str := l ++ [10%N].

Lemma join_closed : forall ls, join [10%N] (ls ++ [[]]) = concat (map close_line ls).
Proof.
  induction ls as [|l r IH]; [reflexivity|].
  change ((l :: r) ++ [[]]) with (l :: (r ++ [[]])).
  assert (E : join [10%N] (l :: (r ++ [[]])) = l ++ [10%N] ++ join [10%N] (r ++ [[]])).
  { destruct r; reflexivity. }
  rewrite E, IH. cbn [map concat]. unfold close_line at 2. rewrite <- app_assoc. reflexivity.
Qed.

Lemma close_line_nl_term l : nl_term (close_line l).
Proof. right. exists l. reflexivity. Qed.

Lemma plines_closed : forall ls, Forall no_nl_cr ls -> plines (concat (map close_line ls)) = map close_line ls.
Proof.
  induction ls as [|l r IH]; intros H; [reflexivity|]. inversion H as [|? ? Hl Hr]; subst.
  cbn [map concat]. rewrite (plines_app _ _ (close_line_nl_term l)), (IH Hr).
  unfold close_line at 1. rewrite (plines_line l Hl). reflexivity.
Qed.

Lemma closed_nl_term ls : nl_term (concat (map close_line ls)).
Proof.
  apply nl_term_concat, Forall_map, Forall_forall. intros l _. apply close_line_nl_term.
Qed.

Lemma starts_hash_close l : starts_hash l = false -> starts_hash (close_line l) = false.
Proof. destruct l; [reflexivity|intros H; exact H]. Qed.

Lemma closed_clean ls : Forall no_nl_cr ls -> Forall (fun l => starts_hash l = false) ls ->
  clean_body (concat (map close_line ls)).
Proof.
  intros H1 H2. split; [|apply closed_nl_term].
  apply strip_id. rewrite (plines_closed ls H1). apply Forall_map.
  revert H2. apply Forall_impl. intros l. apply starts_hash_close.
Qed.

Lemma starts_hash_ind_S i s : starts_hash (ind (S i) s) = false.
Proof. reflexivity. Qed.

Lemma starts_hash_at_least l : at_least 1 l -> starts_hash l = false.
Proof. intros [i [s [Hi ->]]]. destruct i; [lia|reflexivity]. Qed.

Lemma starts_hash_def_line k : starts_hash (def_line k) = false.
Proof. reflexivity. Qed.

Section EmitClean.
  Variable repr : str -> str.

  Lemma function_lines_no_hash f : Forall (fun l => starts_hash l = false) (emit_function repr f ++ [[]]).
  Proof.
    destruct (function_frame repr f) as [body [-> [_ Hb]]].
    apply Forall_app. split; [|repeat constructor].
    constructor; [apply starts_hash_def_line|]. constructor; [reflexivity|]. constructor; [reflexivity|].
    apply Forall_app. split; [|repeat constructor].
    eapply Forall_impl; [|exact Hb]. intros l Hl. apply starts_hash_at_least.
    eapply at_least_mono; [|exact Hl]. lia.
  Qed.

  Definition fun_lines (ir : ir_program) : list str := flat_map (fun f => emit_function repr f ++ [[]]) ir.

  Lemma fun_lines_no_hash ir : Forall (fun l => starts_hash l = false) (fun_lines ir).
  Proof.
    induction ir as [|f r IH]; [constructor|]. unfold fun_lines. cbn [flat_map].
    apply Forall_app. split; [apply function_lines_no_hash|exact IH].
  Qed.

  Lemma fun_lines_last ir : ir <> [] -> exists ls, fun_lines ir = ls ++ [[]].
  Proof.
    induction ir as [|f r IH]; [congruence|]. intros _. unfold fun_lines. cbn [flat_map].
    destruct r as [|f2 r2].
    - exists (emit_function repr f). cbn [flat_map]. rewrite app_nil_r. reflexivity.
    - destruct (IH ltac:(discriminate)) as [ls Hls]. unfold fun_lines in Hls. rewrite Hls.
      exists ((emit_function repr f ++ [[]]) ++ ls). rewrite app_assoc. reflexivity.
  Qed.

  Lemma emit_program_split ir :
    emit_program repr ir = Cli.header ++ [10%N] ++ join [10%N] (match ir with [] => [[]] | _ => fun_lines ir end).
  Proof.
    unfold emit_program.
    set (rest := match ir with [] => [[]] | _ :: _ => flat_map (fun f => emit_function repr f ++ [[]]) ir end).
    assert (Hne : rest <> []).
    { unfold rest. destruct ir as [|f r]; [discriminate|]. cbn [flat_map].
      destruct (function_frame repr f) as [body [-> _]]. discriminate. }
    assert (E : join [10%N] (Emit.header ++ [[]] ++ rest) = Cli.header ++ [10%N] ++ join [10%N] rest).
    { destruct rest as [|x r]; [congruence|]. reflexivity. }
    rewrite E. unfold rest, fun_lines. destruct ir; reflexivity.
  Qed.
End EmitClean.

Lemma fun_lines_one_line printable p ir : lexical_ok p = true -> compile_program p = Some ir -> ir <> [] ->
  Forall no_nl_cr (fun_lines (py_repr printable) ir).
Proof.
  intros Hl Hc Hne. pose proof (lines_one_line printable p Hl ir Hc) as H.
  unfold emit_lines in H. apply Forall_app in H. destruct H as [_ H]. apply Forall_app in H. destruct H as [_ H].
  destruct ir; [congruence|exact H].
Qed.

Theorem compile_text_clean printable s text : compile_text printable s = CText text ->
  exists body, text = Cli.header ++ [10%N] ++ body /\ clean_body body.
Proof.
  intros H. apply compile_text_accepts in H. destruct H as [p [ir [Hf [Hc [_ [_ ->]]]]]].
  rewrite emit_program_split. eexists. split; [reflexivity|].
  destruct ir as [|f0 fr].
  - (* no clause at all: the body is empty *)
    split; [reflexivity|left; reflexivity].
  - destruct (fun_lines_last (py_repr printable) (f0 :: fr) ltac:(discriminate)) as [ls Hls].
    rewrite Hls, join_closed.
    pose proof (fun_lines_one_line printable p (f0 :: fr) (front_lexical s p Hf) Hc ltac:(discriminate)) as H1.
    pose proof (fun_lines_no_hash (py_repr printable) (f0 :: fr)) as H2.
    rewrite Hls in H1, H2. apply Forall_app in H1, H2. destruct H1 as [H1 _]. destruct H2 as [H2 _].
    apply closed_clean; assumption.
Qed.

Definition body_of (text : str) : str := skipn (length Cli.header + 1) text.

Lemma body_of_split body : body_of (Cli.header ++ [10%N] ++ body) = body.
Proof. reflexivity. Qed.

Section Library.
  Variable printable : N -> bool.
  (* how a source that compile_text rejects / finds too large fails in the implementation:
     CErr line col msg for a CompilerError, CCrash for any other exception.  Arbitrary.
     KNOWN SIMPLIFICATION: one message per text.  The real message of "program too large for Python"
     quotes CPython's SyntaxError, which names the file handed to compile() and a line number of the
     generated text; that number is 2 higher when --debug-filename adds its `# from <file>` lines.  So
     the equality of the error MESSAGE across debug options that debug_only_comments_lib states (as
     part of r_end) holds for the implementation only up to that parenthesis; the check compares
     messages after dropping it.  Everything the property speaks about (output, exit status,
     file:line:column of syntax errors) is unaffected. *)
  Variable failure : str -> cres.

  Definition as_failure (r : cres) : cres := match r with COk _ => CCrash | r => r end.

  Definition lib_compile (t : str) : cres :=
    match compile_text printable t with
    | CText text => COk (body_of text)
    | CRejectNumeral => CCrash                       (* ValueError of int(): not a CompilerError *)
    | CRejectFront | CTooLarge => as_failure (failure t)
    end.

  Lemma lib_compile_ok t body : lib_compile t = COk body <->
    exists text, compile_text printable t = CText text /\ body = body_of text.
  Proof.
    unfold lib_compile. destruct (compile_text printable t) as [text| | |] eqn:E.
    - split; [intros H; inversion H; eauto|intros [text' [H ->]]; inversion H; reflexivity].
    - split; [destruct (failure t); discriminate|intros [text' [H _]]; discriminate].
    - split; [discriminate|intros [text' [H _]]; discriminate].
    - split; [destruct (failure t); discriminate|intros [text' [H _]]; discriminate].
  Qed.

  Lemma lib_compile_clean t body : lib_compile t = COk body -> clean_body body.
  Proof.
    intros H. apply lib_compile_ok in H. destruct H as [text [Hc ->]].
    destruct (compile_text_clean _ _ _ Hc) as [body [-> Hb]]. rewrite body_of_split. exact Hb.
  Qed.

  (* the text that compile_prolog_from_string returns IS what Cli.v calls the library text *)
  Lemma lib_text_compile_text t o : lib_text lib_compile t = Some o <-> compile_text printable t = CText o.
  Proof.
    unfold lib_text, lib_text_of. split.
    - destruct (lib_compile t) as [body| |] eqn:E; try discriminate. intros H. inversion H; subst o.
      apply lib_compile_ok in E. destruct E as [text [Hc ->]].
      destruct (compile_text_clean _ _ _ Hc) as [body [-> _]]. rewrite body_of_split. exact Hc.
    - intros Hc. assert (E : lib_compile t = COk (body_of o)) by (apply lib_compile_ok; eauto).
      rewrite E. destruct (compile_text_clean _ _ _ Hc) as [body [-> _]]. rewrite body_of_split. reflexivity.
  Qed.

  Variable trace : bool -> str -> str -> list (chan * str).

  Definition yldpc_lib := yldpc lib_compile trace.

  (* C19, second sentence, for the real compiler: no hypothesis left *)
  Theorem debug_only_comments_lib : forall f outfile srcs fs stdin,
    strip_result (yldpc_lib f outfile srcs fs stdin) = strip_result (yldpc_lib no_flags outfile srcs fs stdin).
  Proof. exact (debug_only_comments lib_compile trace lib_compile_clean). Qed.

  (* C19, first sentence, for the real compiler *)
  Theorem cli_equals_compile_text : forall outfile srcs fs stdin texts outs,
    all_exist fs srcs ->
    contents (fs_seen fs outfile) stdin srcs = map RText texts ->
    Forall2 (fun t o => compile_text printable t = CText o) texts outs ->
    yldpc_lib no_flags outfile srcs fs stdin = placed outfile (concat outs) EOk.
  Proof.
    intros outfile srcs fs stdin texts outs Hex Hc HF.
    apply (cli_equals_library lib_compile trace outfile srcs fs stdin texts outs Hex Hc).
    eapply Forall2_imp; [|exact HF]. intros t o. apply lib_text_compile_text.
  Qed.

  Corollary cli_equals_compile_text_debug : forall f outfile srcs fs stdin texts outs,
    all_exist fs srcs ->
    contents (fs_seen fs outfile) stdin srcs = map RText texts ->
    Forall2 (fun t o => compile_text printable t = CText o) texts outs ->
    strip_result (yldpc_lib f outfile srcs fs stdin) = strip_result (placed outfile (concat outs) EOk).
  Proof.
    intros f outfile srcs fs stdin texts outs Hex Hc HF.
    rewrite debug_only_comments_lib.
    rewrite (cli_equals_compile_text outfile srcs fs stdin texts outs Hex Hc HF). reflexivity.
  Qed.

  (* exit status 0 iff every source exists, is readable and is accepted by compile_text *)
  Theorem exit_status_lib : forall f outfile srcs fs stdin,
    status (r_end (yldpc_lib f outfile srcs fs stdin)) = 0%N <->
    (all_exist fs srcs /\
     Forall (fun r => exists t text, r = RText t /\ compile_text printable t = CText text)
            (contents (fs_seen fs outfile) stdin srcs)).
  Proof.
    intros f outfile srcs fs stdin. unfold yldpc_lib. rewrite exit_status.
    split; intros [H1 H2]; (split; [exact H1|]); eapply Forall_impl; try exact H2; cbv beta.
    - intros r [t [body [-> Hb]]]. apply lib_compile_ok in Hb. destruct Hb as [text [Hc _]]. eauto.
    - intros r [t [text [-> Hc]]]. exists t, (body_of text). split; [reflexivity|]. apply lib_compile_ok. eauto.
  Qed.

  Lemma lib_compile_refused t : (forall o, compile_text printable t <> CText o) ->
    (exists l c m, lib_compile t = CErr l c m) \/ lib_compile t = CCrash.
  Proof.
    intros H. unfold lib_compile. destruct (compile_text printable t) as [text| | |] eqn:E.
    - exfalso. exact (H text eq_refl).
    - destruct (failure t); cbn; eauto.
    - right. reflexivity.
    - destruct (failure t); cbn; eauto.
  Qed.

  (* C19 "exits non-zero when a file does not compile", for the real compiler: the sources before
     the first one that is unreadable or refused by compile_text contribute their compile_text
     texts, nothing else is written, the exit status is 1; a CompilerError is reported as
     "<file>:<line>:<column>:<message>" *)
  Theorem cli_first_failure_lib : forall outfile srcs fs stdin pre it post outs,
    all_exist fs srcs ->
    combine srcs (contents (fs_seen fs outfile) stdin srcs) = pre ++ it :: post ->
    Forall2 (fun it o => exists t, snd it = RText t /\ compile_text printable t = CText o) pre outs ->
    (snd it = RBad \/ exists t, snd it = RText t /\ forall o, compile_text printable t <> CText o) ->
    exists e, yldpc_lib no_flags outfile srcs fs stdin = placed outfile (concat outs) e /\ status e = 1%N
      /\ (e = ECrash \/ exists l c m, e = EError (err_msg (fst it) l c m)).
  Proof.
    intros outfile srcs fs stdin pre it post outs Hex Hc HF Hbad.
    assert (HF' : Forall2 (fun it o => exists t, snd it = RText t /\ lib_text lib_compile t = Some o) pre outs).
    { eapply Forall2_imp; [|exact HF]. intros i o [t [H1 H2]]. exists t. split; [exact H1|]. apply lib_text_compile_text. exact H2. }
    assert (He : exists e, fails lib_compile it e /\ (e = ECrash \/ exists l c m, e = EError (err_msg (fst it) l c m))).
    { unfold fails. destruct Hbad as [Hb|[t [Ht Hn]]].
      - rewrite Hb. exists ECrash. split; [reflexivity|left; reflexivity].
      - rewrite Ht. destruct (lib_compile_refused t Hn) as [[l [c [m E]]]|E]; rewrite E.
        + exists (EError (err_msg (fst it) l c m)). split; [reflexivity|right; eauto].
        + exists ECrash. split; [reflexivity|left; reflexivity]. }
    destruct He as [e [Hf Hshape]]. exists e.
    destruct (cli_first_failure lib_compile trace outfile srcs fs stdin pre it post outs e Hex Hc HF' Hf) as [H1 H2].
    split; [exact H1|]. split; [exact H2|exact Hshape].
  Qed.
End Library.
