(* Terms, triangular binding stores (newest binding first) and their fuel-free
   denotation.  [den s t] is what the engine's deep get_value returns for t when the
   active bindings are s (engine.py: get_value / Variable.get_value / Functor.get_value). *)
From Coq Require Import List Arith Bool ZArith.
Import ListNotations.
From YP Require Import Base.Str.
Set Implicit Arguments.

(* TAtom: engine Atom; TInt / TStr: raw Python constants (int, str); TVar: a Variable cell;
   TFun: engine Functor (lists are TFun "." [h;t] ending in TAtom "[]") *)
Inductive term := TAtom (a:str) | TInt (z:Z) | TStr (s:str) | TVar (v:nat) | TFun (f:str) (args:list term).

Section TermInd.
  Variable P : term -> Prop.
  Hypothesis Ha : forall a, P (TAtom a).
  Hypothesis Hi : forall z, P (TInt z).
  Hypothesis Hs : forall s, P (TStr s).
  Hypothesis Hv : forall v, P (TVar v).
  Hypothesis Hf : forall f args, Forall P args -> P (TFun f args).
  Fixpoint term_ind' (t:term) : P t :=
    match t with
    | TAtom a => Ha a | TInt z => Hi z | TStr s => Hs s | TVar v => Hv v
    | TFun f args => Hf f ((fix go (l:list term) : Forall P l :=
         match l with [] => Forall_nil P | x::r => Forall_cons x (term_ind' x) (go r) end) args)
    end.
End TermInd.

Lemma existsb_map_Forall A B (g:A -> B) (f:B -> bool) (h:A -> bool) l :
  Forall (fun x => f (g x) = h x) l -> existsb f (map g l) = existsb h l.
Proof. induction 1 as [|x l Hx _ IH]; simpl; [reflexivity|]. rewrite Hx, IH. reflexivity. Qed.

Fixpoint subst1 (v:nat) (r:term) (t:term) : term :=
  match t with
  | TVar w => if Nat.eqb w v then r else t
  | TFun f args => TFun f (map (subst1 v r) args)
  | _ => t end.

Fixpoint occurs (v:nat) (t:term) : bool :=
  match t with
  | TVar w => Nat.eqb w v
  | TFun _ args => existsb (occurs v) args
  | _ => false end.

Definition store := list (nat * term).
Fixpoint lookup (v:nat) (s:store) : option term :=
  match s with [] => None | (w,t)::r => if Nat.eqb v w then Some t else lookup v r end.

(* denotation of a store built by successive bindings (newest first) *)
Fixpoint den (s:store) (u:term) : term :=
  match s with
  | [] => u
  | (v,t)::s' => subst1 v (den s' t) (den s' u)
  end.

Inductive wf : store -> Prop :=
| wf_nil : wf []
| wf_cons v t s : wf s -> lookup v s = None -> occurs v (den s t) = false -> wf ((v,t)::s).

Lemma wf_app_r nw s : wf (nw ++ s) -> wf s.
Proof.
  induction nw as [|[v t] r IH]; simpl; intros W; [exact W|]. inversion W; subst. auto.
Qed.

(* all variables of t are unbound in s *)
Definition free_in (s:store) (t:term) : Prop := forall w, occurs w t = true -> lookup w s = None.

Lemma subst1_noocc v r t : occurs v t = false -> subst1 v r t = t.
Proof.
  induction t as [a|z|q|w|f args IHa] using term_ind'; simpl; intros Ho; auto.
  - rewrite Ho. reflexivity.
  - f_equal. induction args as [|x l IH]; simpl in *; auto.
    apply orb_false_iff in Ho as [H1 H2]. inversion IHa; subst. rewrite H3, IH; auto.
Qed.

Lemma occurs_subst1 w v r t : occurs w (subst1 v r t) = true ->
  (occurs w t = true /\ w <> v) \/ occurs w r = true.
Proof.
  induction t as [a|z|q|u|f args IHa] using term_ind'; simpl; intros Ho; try discriminate.
  - destruct (Nat.eqb u v) eqn:E; [right; exact Ho|]. simpl in Ho. left. split; auto.
    apply Nat.eqb_eq in Ho. subst. apply Nat.eqb_neq in E. exact E.
  - induction args as [|x l IH]; simpl in *; try discriminate.
    inversion IHa; subst. apply orb_true_iff in Ho as [Ho|Ho].
    + destruct (H1 Ho) as [[A B]|A]; [left; split; auto; rewrite A; reflexivity|right; exact A].
    + destruct (IH H2 Ho) as [[A B]|A]; [left; split; auto; rewrite A; apply orb_true_r|right; exact A].
Qed.

Lemma den_free s : wf s -> forall t, free_in s (den s t).
Proof.
  induction 1 as [|v t0 s W IH L O]; intros t w Hw; simpl in *; auto.
  destruct (occurs_subst1 _ _ _ _ Hw) as [[A B]|A].
  - apply Nat.eqb_neq in B. rewrite B. apply (IH t); exact A.
  - destruct (Nat.eqb w v) eqn:E.
    + apply Nat.eqb_eq in E; subst. congruence.
    + apply (IH t0); exact A.
Qed.

Lemma den_id s : forall t, free_in s t -> den s t = t.
Proof.
  induction s as [|[v t0] s IH]; intros t F; simpl; auto.
  assert (F': free_in s t).
  { intros w Hw. specialize (F w Hw). simpl in F. destruct (Nat.eqb w v); [discriminate|exact F]. }
  rewrite (IH t F'). apply subst1_noocc.
  destruct (occurs v t) eqn:E; auto. specialize (F v E). simpl in F. rewrite Nat.eqb_refl in F. discriminate.
Qed.

Lemma den_var_unbound s v : lookup v s = None -> den s (TVar v) = TVar v.
Proof.
  intros L. apply den_id. intros w Hw. simpl in Hw. apply Nat.eqb_eq in Hw. subst w. exact L.
Qed.
Arguments den_var_unbound : clear implicits.

Lemma occurs_fun v f args : occurs v (TFun f args) = true <-> exists x, In x args /\ occurs v x = true.
Proof. simpl. apply existsb_exists. Qed.

Lemma lookup_app v a b :
  lookup v (a ++ b) = match lookup v a with Some t => Some t | None => lookup v b end.
Proof.
  induction a as [|[w t] r IH]; simpl; [reflexivity|]. destruct (Nat.eqb v w); [reflexivity|exact IH].
Qed.

Lemma lookup_in v s t : lookup v s = Some t -> In (v, t) s.
Proof.
  induction s as [|[w u] s IH]; simpl; [discriminate|].
  destruct (Nat.eqb_spec v w) as [->|_]; intros H.
  - inversion H. left. reflexivity.
  - right. exact (IH H).
Qed.

Lemma free_subst1 s v r x : free_in s x -> free_in s r -> free_in s (subst1 v r x).
Proof. intros Fx Fr w Hw. destruct (occurs_subst1 _ _ _ _ Hw) as [[A _]|A]; auto. Qed.

Lemma den_idem s : wf s -> forall t, den s (den s t) = den s t.
Proof. intros W t. apply den_id. apply den_free; exact W. Qed.

Lemma den_app_cong nw s a b : den s a = den s b -> den (nw ++ s) a = den (nw ++ s) b.
Proof. intros H. induction nw as [|[v t] r IH]; simpl; [exact H|]. rewrite IH. reflexivity. Qed.

Lemma den_ext_den nw s t : wf s -> den (nw++s) (den s t) = den (nw++s) t.
Proof. intros W. apply den_app_cong. apply den_idem. exact W. Qed.

Lemma den_fun s f args : den s (TFun f args) = TFun f (map (den s) args).
Proof.
  induction s as [|[v t] s IH]; simpl.
  - rewrite map_id. reflexivity.
  - rewrite IH. simpl. rewrite map_map. reflexivity.
Qed.
Lemma den_atom s a : den s (TAtom a) = TAtom a.
Proof. induction s as [|[v t] s IH]; simpl; auto. rewrite IH. reflexivity. Qed.
Lemma den_int s z : den s (TInt z) = TInt z.
Proof. induction s as [|[v t] s IH]; simpl; auto. rewrite IH. reflexivity. Qed.
Lemma den_str s z : den s (TStr z) = TStr z.
Proof. induction s as [|[v t] s IH]; simpl; auto. rewrite IH. reflexivity. Qed.
