(* Non-vacuity of the C04 theorems: concrete worlds / engines that satisfy the hypotheses and in which the
   isolation statements say something (same predicate names, different contents, generators of both
   engines suspended on an answer at the same time with their bindings in the one shared heap). *)
From Coq Require Import String.
From Coq Require Import List Arith Bool Lia ZArith Cantor.
Import ListNotations.
From YP Require Import Base.Str Term.Term Term.Show Unify.Unify Engine.Deref Engine.Frame Engine.World Engine.CursorFrame
  Engine.Isolation Engine.Slots Engine.SlotsReach.
Local Open Scope string_scope.

Definition xA (s : string) := TAtom (of_string s).
Definition xp := of_string "p".
Definition xr := of_string "r".
(* r(X) :- p(X).   loaded into both engines *)
Definition xscript : list (str * nat * list clause) := [ (xr, 1, [ ([TVar 0], [(xp, [TVar 0])]) ]) ].
Definition xsched : list (nat * op) :=
  [ (0, OAssert true xp [xA "a"]); (1, OAssert true xp [xA "c"]); (0, OAssert true xp [xA "b"]);
    (0, OLoad true xscript); (1, OLoad true xscript);
    (0, OStart 0 xr [TVar 0]); (1, OStart 0 xr [TVar 0]);
    (0, ONext 0); (1, ONext 0); (0, ONext 0); (1, ONext 0); (0, ONext 0); (1, OAtom xp); (0, OAtom xp) ].

Definition xans (s : string) : obs := otag "ans" [term_obs (xA s)].

(* two engines, one schedule: engine 0 sees a, b, done; engine 1 sees c, done; after 10 steps both generators
   are suspended and the heap holds the bindings of both, interleaved *)
Lemma ex_world :
  proj 0 (snd (wrun 100 (init_world 2) xsched))
  = [otag "ok" []; otag "ok" []; otag "ok" []; otag "started" []; xans "a"; xans "b"; otag "done" []; otag "atom" [OL [onat 1]]]
  /\ proj 1 (snd (wrun 100 (init_world 2) xsched))
  = [otag "ok" []; otag "ok" []; otag "started" []; xans "c"; otag "done" []; otag "atom" [OL [onat 1]]]
  /\ heap (fst (wrun 100 (init_world 2) (firstn 10 xsched)))
  = [(2, xA "b"); (0, TVar 2); (3, xA "c"); (1, TVar 3)].
Proof. vm_compute. repeat split; reflexivity. Qed.

(* the user-variable number of a cell *)
Definition uidx (n v : nat) : nat := snd (Cantor.of_nat (v / n)).
Lemma uidx_ucell n e u : e < n -> uidx n (ucell n e u) = u.
Proof.
  intros H. unfold uidx, ucell. rewrite (cell_div _ _ _ H), Cantor.cancel_of_to. reflexivity.
Qed.

(* slot q holds the q-th query the engine started, over the user variable number q *)
Definition xPQ (q v : nat) : bool :=
  Nat.eqb (owner 1 v) (S q) || (Nat.eqb (owner 1 v) 0 && Nat.eqb (uidx 1 v) q).

Lemma xPQ_disj q q' v : q <> q' -> xPQ q v = true -> xPQ q' v = false.
Proof.
  unfold xPQ. intros N H. apply orb_false_iff. apply orb_true_iff in H as [H|H].
  - apply Nat.eqb_eq in H. rewrite H. split; [apply Nat.eqb_neq; lia|reflexivity].
  - apply andb_true_iff in H as [H1 H2]. apply Nat.eqb_eq in H1, H2. rewrite H1, H2.
    split; [reflexivity|]. apply Nat.eqb_neq. exact N.
Qed.

Definition xprep : list op :=
  [ OAssert true xp [xA "a"]; OAssert true xp [xA "b"]; OStart 0 xp [TVar 0]; OStart 1 xp [TVar 1] ].
Definition xe : engine := fst (fst (erun 1 0 50 xprep init_engine [])).

Lemma xe_cursors : cursors xe = [(0, cstart 0 xp [TVar (ucell 1 0 0)]); (1, cstart 1 xp [TVar (ucell 1 0 1)])].
Proof. vm_compute. reflexivity. Qed.

Lemma ex_sinv : sinv 1 0 xPQ xe [].
Proof.
  split; [intros q v t []|].
  intros q c H. rewrite xe_cursors in H.
  assert (T : forall u, tin (xPQ u) (TVar (ucell 1 0 u))).
  { intros u. apply tin_var. unfold xPQ. rewrite owner_ucell, uidx_ucell by lia. rewrite !Nat.eqb_refl. apply orb_true_r. }
  assert (S : forall u, cgood (xPQ u) (cstart u xp [TVar (ucell 1 0 u)])
                        /\ forall k, xPQ u (ccell 1 0 (cown (cstart u xp [TVar (ucell 1 0 u)])) k) = true).
  { intros u. split; [apply cstart_good; constructor; [apply T|constructor]|].
    intros k. unfold xPQ. cbn [cown cstart]. rewrite owner_ccell by lia. rewrite Nat.eqb_refl. reflexivity. }
  destruct q as [|[|q]]; cbn [aget Nat.eqb] in H; inversion H; subst; apply S.
Qed.

Definition xops : list op := [ONext 0; ONext 1; ONext 1; ONext 0; OClose 1; ONext 0; ONext 1].

(* both generators enumerate p/1 of the same engine; each sees a, b in order although the other one is
   advanced in between and its binding sits in the same heap *)
Lemma ex_slots :
  Forall qop xops /\ sinv 1 0 xPQ xe []
  /\ pick 0 xops (snd (erun 1 0 50 xops xe [])) = [xans "a"; xans "b"; otag "done" []]
  /\ pick 1 xops (snd (erun 1 0 50 xops xe [])) = [xans "a"; xans "b"; otag "closed" []; otag "done" []]
  /\ snd (fst (erun 1 0 50 (firstn 2 xops) xe [])) <> [].
Proof.
  split; [repeat constructor; discriminate|]. split; [exact ex_sinv|].
  vm_compute. repeat split; try reflexivity. discriminate.
Qed.

(* the history xprep (assert, assert, start over X0, start over X1) satisfies the condition of
   SlotsReach.disjoint_queries_alone: the second query is started over a variable that does not occur in the first *)
Lemma ex_hist_ok : hist_ok 1 0 50 xprep init_engine [].
Proof. apply hist_okb_ok. vm_compute. reflexivity. Qed.

Lemma ex_reach :
  hist_ok 1 0 50 xprep init_engine [] /\ fst (fst (erun 1 0 50 xprep init_engine [])) = xe
  /\ snd (fst (erun 1 0 50 xprep init_engine [])) = [] /\ Forall qop xops
  /\ pick 0 xops (snd (erun 1 0 50 xops xe [])) = [xans "a"; xans "b"; otag "done" []]
  /\ pick 1 xops (snd (erun 1 0 50 xops xe [])) = [xans "a"; xans "b"; otag "closed" []; otag "done" []].
Proof.
  split; [exact ex_hist_ok|]. split; [reflexivity|]. split; [vm_compute; reflexivity|].
  destruct ex_slots as [A [_ [B [C _]]]]. auto.
Qed.
