(* C14: "a suspended retract skips facts that have meanwhile been removed": whatever happens between its
   next() calls, the Answers a retract cursor removes and returns are facts of ITS SNAPSHOT that match its
   pattern, taken in snapshot order, each at most once (a subsequence of the matching facts of the
   snapshot); and each of them was in the current list when it was returned (DbCursorThms.step_out). *)
From Coq Require Import List Arith Bool Lia.
Import ListNotations.
From YP Require Import Base.Str Term.Term Engine.Db Engine.DbCursor Engine.DbCursorThms.
Set Implicit Arguments.

Inductive subseq {A : Type} : list A -> list A -> Prop :=
| ss_nil l : subseq [] l
| ss_skip x s l : subseq s l -> subseq s (x :: l)
| ss_take x s l : subseq s l -> subseq (x :: s) (x :: l).

Lemma subseq_app_l {A} (pre : list A) s l : subseq s l -> subseq s (pre ++ l).
Proof. intros H. induction pre as [|x pre IH]; simpl; auto. apply ss_skip. exact IH. Qed.

Lemma subseq_nil_any {A} (s : list A) : subseq s [] -> forall l, subseq s l.
Proof. intros H l. inversion H; subst. constructor. Qed.

Definition ret_id (o : out) : list nat := match o with ORet _ i _ => [i] | _ => [] end.
Definition ret_ids (os : list out) : list nat := flat_map ret_id os.

Section Order.
  Variable mt : list term -> list term -> mres.

  Definition match_ids (pat : list term) (l : list fact) : list nat := map (fun fa => fid (fst fa)) (matches mt pat l).

  Definition rcur_ids (cu : cursor) : option (list nat) :=
    match cu with
    | CRRun _ pat rest => Some (match_ids pat rest)
    | CDone => Some []
    | _ => None
    end.

  Lemma rnext_ids s c k pat l s1 o : rnext mt s c k pat l = Some (s1, o) ->
    exists L, rcur_ids (scur s1 c) = Some L /\ forall x, subseq x L -> subseq (ret_id o ++ x) (match_ids pat l).
  Proof.
    unfold rnext. intros H.
    destruct (rscan mt pat (sdb s k) l) as [[[[f a] r]|]|] eqn:Q; [| |discriminate]; injection H as <- <-; rewrite set_cur_same.
    - destruct (rscan_some _ _ _ _ Q) as [_ [Y [pre [-> _]]]].
      exists (match_ids pat r). split; [reflexivity|]. intros x Hx.
      unfold match_ids. rewrite matches_app. simpl. rewrite Y. rewrite map_app. simpl.
      apply subseq_app_l. apply ss_take. exact Hx.
    - exists []. split; [reflexivity|]. intros x Hx. simpl. apply subseq_nil_any. exact Hx.
  Qed.

  Theorem retract_cursor_in_snapshot_order : forall evs s s' outs c L,
    rcur_ids (scur s c) = Some L -> no_ctl c evs -> run mt s evs = Some (s', outs) ->
    subseq (ret_ids (outs_of c evs outs)) L.
  Proof.
    intros evs s s' outs c L HL NC H. revert L HL.
    apply (@cursor_outs_ind mt c (fun e => ctl c e = false)
             (fun cu os => forall L, rcur_ids cu = Some L -> subseq (ret_ids os) L)) with (4 := NC) (5 := H).
    - intros cu L _. constructor.
    - intros s0 s1 o os ES IH L HL. simpl in ES. change (ret_ids (o :: os)) with (ret_id o ++ ret_ids os).
      destruct (scur s0 c) as [|k pat|pat rest|t|k pat rest|] eqn:EC; simpl in HL; try discriminate; injection HL as <-.
      + destruct (@rnext_ids s0 c k pat rest s1 o ES) as [L' [HL' S]]. apply S. apply IH. exact HL'.
      + injection ES as <- <-. apply IH. rewrite EC. reflexivity.
    - intros s0 e s1 o os OK C. congruence.
  Qed.
End Order.
