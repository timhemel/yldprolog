(* C03: close() must REACH the open iterator of a delegating frame.

   YP.query delegates with `yield from` on the result of the predicate function: closing the query generator closes the iterator it delegates to
   (the machine: `unwind h (KLoop it body k)` closes `it`, then unwinds k).  A `for` loop in the same place only DROPS its
   reference; when the iterator object is still referenced from elsewhere (an iterator object of a user predicate that the
   application keeps) nothing closes it: the heap is then `unwind h k`.  For the engine instance the two heaps differ in
   exactly the bound cells that `it` owns: each of them stays bound without the forwarded close and is unbound with it. *)
From Coq Require Import String.
From Coq Require Import List Arith Bool Lia.
Import ListNotations.
From YP Require Import Base.Str Term.Term Unify.UnifyGen Engine.GenMachine Engine.Restore Engine.IRMachine Engine.DelayedClose.

Lemma in_keys_rm n l (h : heap) : In n (keys (rm l h)) <-> In n (keys h) /\ ~ In n l.
Proof.
  unfold rm, keys. rewrite !in_map_iff. split.
  - intros [p [E P]]. apply filter_In in P. destruct P as [P Q]. split; [exists p; split; assumption|].
    intros I. apply negb_true_iff in Q.
    assert (X : existsb (Nat.eqb (fst p)) l = true) by (apply existsb_exists; exists n; split; [exact I|rewrite E; apply Nat.eqb_refl]).
    congruence.
  - intros [[p [E P]] N]. exists p. split; [exact E|]. apply filter_In. split; [exact P|].
    apply negb_true_iff. destruct (existsb (Nat.eqb (fst p)) l) eqn:X; [|reflexivity].
    apply existsb_exists in X. destruct X as [m [I Q]]. apply Nat.eqb_eq in Q. subst. contradiction.
Qed.

Theorem close_must_be_forwarded (it : miter) body (k : mkont) (h : heap) n :
  In n (icells it) -> ~ In n (kcells k) -> In n (keys h) ->
  In n (keys (unwind lclose h k)) /\ ~ In n (keys (unwind lclose h (KLoop it body k))).
Proof.
  intros I K H. rewrite !unwind_rm. cbn [kcells]. split.
  - apply in_keys_rm. split; assumption.
  - intros X. apply in_keys_rm in X. destruct X as [_ X]. apply X. apply in_or_app. left. exact I.
Qed.

(* and with the close forwarded nothing that the frame's iterators own survives *)
Theorem forwarded_close_releases (it : miter) body (k : mkont) (h : heap) n :
  In n (icells it ++ kcells k) -> ~ In n (keys (unwind lclose h (KLoop it body k))).
Proof.
  intros I X. rewrite unwind_rm in X. cbn [kcells] in X. apply in_keys_rm in X. destruct X as [_ X]. exact (X I).
Qed.

(* non-vacuity: the open iterator of the delegating frame is a unification generator that has bound cell 3 (X = a at the answer
   at which the query is abandoned), cell 7 belongs to the caller.  Torn down WITHOUT closing the iterator: X stays bound.
   With the close forwarded: the caller's heap. *)
Definition fw_it : miter := ILeaf (LGen (GVarBound 3)).
Definition fw_k : mkont := KNil.
Definition fw_heap : heap := [(3, TAtom (d "a"%string)); (7, TAtom (d "keep"%string))].

Lemma forwarded_example :
  In 3 (icells fw_it) /\ ~ In 3 (kcells fw_k) /\ In 3 (keys fw_heap) /\
  unwind lclose fw_heap fw_k = fw_heap /\
  unwind lclose fw_heap (KLoop fw_it CSkip fw_k) = [(7, TAtom (d "keep"%string))].
Proof.
  split; [left; reflexivity|]. split; [intros []|]. split; [left; reflexivity|].
  rewrite !unwind_rm. split; reflexivity.
Qed.
