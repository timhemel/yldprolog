(* The frame machine of GenMachine.v instantiated for the engine as it runs COMPILED programs:

   * leaves: the generator objects of engine.unify / unify_arrays (Unify/UnifyGen.v), the list
     iterator of `for _ in [1]:`, and an iterator expression whose evaluation raises;
   * tr_stmt / tr_list / fun_code: the CPython reading of the text that yp_generator.py emits for
     the intermediate code (Comp/IR.v; Comp/Emit.v is the model of the text itself):

        for lN in <it>:  body            CSeq (CFor <it> body) (CIf doBreak CBreak)
        if doBreak: break
        cutIfN = False                    CSeq (CAssign cutIfN:=False)
        for _ in [1]: body                 (CSeq (CFor [1] body)          (no loop when body = [])
        if cutIfN: doBreak = False          (CSeq (CIf cutIfN (CAssign doBreak:=False))
        if doBreak: break                     (CIf doBreak CBreak)))
        cutIfN = True; doBreak = True; break     CSeq (CAssign ..) CBreak
        return / yield False / yield True / x = e
        def f(arg1..): doBreak = False; for _ in [1]: <body>; if False: yield False

   * YP.query(name, args) as ONE frame: the dynamic facts of name/arity first
     (`yield from match_dynamic`: for every stored fact, in order, `for _ in unify_arrays(args,
     copy of the fact with new variables): yield`), then the generator function `name_arity` of
     the loaded program, else a registered Python predicate (`user`: ARBITRARY machine code, it
     may raise anywhere), else the builtin (=, \=, call/N, once/1, findall/3 of engine.py:266-351);
   * the frame-local state: Python locals (env), the doBreak / cutIfN flags, the cell counter,
     and an accumulator (findall's result list, the renamed copy of a fact).

   Deviations from the text of engine.py, all in the NUMBER OF PYTHON FRAMES only (they matter
   only for the exact point at which the recursion limit strikes, which Sem/Machine.v - and
   property C17 - do not fix either): query + match_dynamic/_match_all_clauses + the generator
   function are one frame; once/1 and findall/3 iterate the goal's query directly instead of going
   through the `call` frame; builtin_neq iterates unify(X,Y) instead of query('=',[X,Y]). *)
From Coq Require Import String.
From Coq Require Import List Arith Bool Lia ZArith NArith.
Import ListNotations.
From YP Require Import Base.Str Term.Term Term.Fast Term.Dfast Unify.Unify Unify.Fast Unify.UnifyGen Unify.UnifyGenFast Comp.IR Comp.CompileBody
  Sem.IRSem Sem.Machine Engine.GenMachine Engine.Restore.
Local Open Scope string_scope.
Local Open Scope list_scope.
Set Implicit Arguments.

Inductive lx :=
| XUnify (a b : term)               (* unify(a, b) *)
| XArrays (xs ys : list term)       (* unify_arrays(xs, ys) *)
| XOne                              (* [1] *)
| XRaise.                           (* an expression that raises when evaluated *)

Inductive leaf := LGen (g : gen) | LRaise.

(* (unify_x, mk_unify_x, next_x, dfast are the evaluation-friendly twins of unify, mk_unify, next, den:
   Unify/UnifyGenFast.v, Term/Dfast.v - equal to them, without side conditions.)
   unify(a,b) on terms that are too deep for the interpreter or whose unification needs a cyclic
   term raises RecursionError in the engine (unspecified by the properties); Sem/Machine.v makes
   exactly these cases an error, so does the leaf *)
Definition mkleaf (x : lx) (h : heap) : leaf :=
  match x with
  | XUnify a b => match unify_x ufuel h a b with
                  | UOof | UCyc => LRaise
                  | _ => LGen (mk_unify_x h a b) end
  | XArrays xs ys => match unify_arrays_x ufuel h xs ys with
                     | UOof | UCyc => LRaise
                     | _ => LGen (GArrFresh xs ys) end
  | XOne => LGen (GSucc false)
  | XRaise => LRaise
  end.

Definition lnext (n : nat) (h : heap) (l : leaf) : option (heap * leaf * GenMachine.res) :=
  match l with
  | LGen g => match next_x n h g with
              | None => None
              | Some (h', g', y) => Some (h', LGen g', if y then RYield else RStop) end
  | LRaise => Some (h, LRaise, RRaise)
  end.

Definition lclose (h : heap) (l : leaf) : heap :=
  match l with LGen g => fst (close h g) | LRaise => h end.

Definition linv (h0 : heap) (l : leaf) (hc : heap) : Prop :=
  match l with LGen g => inv h0 g hc | LRaise => hc = h0 end.

Lemma L_new x h : linv h (mkleaf x h) h.
Proof.
  destruct x as [a b|xs ys| |]; cbn [mkleaf].
  - rewrite mk_unify_x_eq. destruct (unify_x ufuel h a b); cbn [linv]; auto; left; split; auto; apply mk_unify_fresh.
  - destruct (unify_arrays_x ufuel h xs ys); cbn [linv]; auto; left; split; auto; exact I.
  - left. split; [exact I|reflexivity].
  - reflexivity.
Qed.

Lemma L_next n h0 l hc h' l' r : linv h0 l hc -> lnext n hc l = Some (h', l', r) ->
  linv h0 l' h' /\ (r = RStop -> h' = h0).
Proof.
  destruct l as [g|]; cbn [lnext linv]; intros J H.
  - rewrite next_x_eq in H. destruct (next n hc g) as [[[h1 g1] y]|] eqn:N; [|discriminate]. injection H as -> <- <-.
    assert (U: ulnext n hc g = Some (h', g1, if y then RYield else RStop)) by (unfold ulnext; rewrite N; reflexivity).
    exact (U_next _ J U).
  - injection H as <- <- <-. split; [exact J|discriminate].
Qed.

Lemma L_close h0 l hc : linv h0 l hc -> lclose hc l = h0.
Proof. destruct l as [g|]; cbn [lclose linv]; intros J; [exact (U_close J)|exact J]. Qed.

Lemma L_ext h0 l hc : linv h0 l hc -> exists nw, hc = nw ++ h0.
Proof. destruct l as [g|]; cbn [linv]; intros J; [exact (U_ext J)|exists []; exact J]. Qed.

Record fr := { f_env : env; f_nxt : nat; f_fl : flags; f_acc : list term; f_aux : nat }.
Definition fr0 (r : env) (nx : nat) : fr := {| f_env := r; f_nxt := nx; f_fl := flags0; f_acc := []; f_aux := 0 |}.
Definition set_fl (g : flags -> flags) (e : fr) : fr :=
  {| f_env := f_env e; f_nxt := f_nxt e; f_fl := g (f_fl e); f_acc := f_acc e; f_aux := f_aux e |}.
Definition setfl (e : fr) (f : flags) : fr := set_fl (fun _ => f) e.

Definition mkst (h : heap) (g : nat) : st := {| sto := h; nxt := g |}.

(* a call: predicate name, actual arguments, the caller's current cell counter *)
Definition callp := (str * list term * nat)%type.
Notation mcode := (code lx fr callp).
Notation miexpr := (iexpr lx callp).

(* x = e  (Sem/Machine.assign: `variable()` takes the next cell) *)
Definition do_assign (x : str) (ex : expr) (g : nat) (e : fr) (h : heap) : fr :=
  let '(r', s') := assign x ex (f_env e, mkst h g) in
  {| f_env := r'; f_nxt := nxt s'; f_fl := f_fl e; f_acc := f_acc e; f_aux := f_aux e |}.

(* iterator expressions of the generated code (Sem/Machine.iter) *)
Definition it_expr (it : expr) (g : nat) (e : fr) (h : heap) : miexpr :=
  match it with
  | IR.ECall f [a; b] =>
      if str_eqb f (s_ "unify") then ELeaf (XUnify (eval_expr (f_env e) a) (eval_expr (f_env e) b))
      else if str_eqb f (s_ "query") then
        match a, b with
        | EStr name, EList args => GenMachine.ECall (name, map (eval_expr (f_env e)) args, g)
        | _, _ => ELeaf XRaise
        end
      else ELeaf XRaise
  | _ => ELeaf XRaise
  end.

Definition one_expr : nat -> fr -> heap -> miexpr := fun _ _ _ => ELeaf XOne.
Definition brk_code : mcode := CIf (fun e => doBreak (f_fl e)) CBreak.

Fixpoint tr_stmt (s : stmt) : mcode :=
  let tr_list := fix tr_list (c : list stmt) : mcode :=
      match c with [] => CSkip | s :: r => CSeq (tr_stmt s) (tr_list r) end in
  match s with
  | SAssign x ex => CAssign (do_assign x ex)
  | SForeach it body => CSeq (CFor (it_expr it) (tr_list body)) brk_code
  | SYieldFalse | SYieldTrue => CYield
  | SReturn => CReturn
  | SBlock l body =>
      CSeq (CAssign (fun _ e _ => set_fl (setlab l false) e))
        (CSeq (match body with [] => CSkip | _ => CFor one_expr (tr_list body) end)
           (CSeq (CIf (fun e => lab (f_fl e) l) (CAssign (fun _ e _ => set_fl (setbrk false) e)))
              brk_code))
  | SBreakBlock l => CSeq (CAssign (fun _ e _ => set_fl (fun f => setbrk true (setlab l true f)) e)) CBreak
  end.
Fixpoint tr_list (c : list stmt) : mcode :=
  match c with [] => CSkip | s :: r => CSeq (tr_stmt s) (tr_list r) end.

Lemma tr_stmt_eq s : tr_stmt s =
  match s with
  | SAssign x ex => CAssign (do_assign x ex)
  | SForeach it body => CSeq (CFor (it_expr it) (tr_list body)) brk_code
  | SYieldFalse | SYieldTrue => CYield
  | SReturn => CReturn
  | SBlock l body =>
      CSeq (CAssign (fun _ e _ => set_fl (setlab l false) e))
        (CSeq (match body with [] => CSkip | _ => CFor one_expr (tr_list body) end)
           (CSeq (CIf (fun e => lab (f_fl e) l) (CAssign (fun _ e _ => set_fl (setbrk false) e)))
              brk_code))
  | SBreakBlock l => CSeq (CAssign (fun _ e _ => set_fl (fun f => setbrk true (setlab l true f)) e)) CBreak
  end.
Proof. destruct s; reflexivity. Qed.

(* def name_arity(arg1, ..): doBreak = False; for _ in [1]: body; if False: yield False *)
Definition fun_code (body : list stmt) : mcode :=
  CSeq (CAssign (fun _ e _ => set_fl (setbrk false) e)) (CFor one_expr (tr_list body)).

(* engine.py builtin_neq, which is written in the shape of emitted code:
     doBreak = False
     for _ in [1]:
       X = arg1; Y = arg2; cutIf1 = False
       for _ in [1]:
         for l1 in <X = Y>: cutIf1 = True; doBreak = True; break
         if doBreak: break
         yield False
       if cutIf1: doBreak = False
       if doBreak: break *)
Definition neq_ir : list stmt :=
  [SBlock 1 [SForeach (IR.ECall (s_ "unify") [EVar (s_ "X"); EVar (s_ "Y")]) [SBreakBlock 1]; SYieldFalse]].

(* YP.call: the goal is dereferenced; an atom or a compound term, extra arguments appended;
   anything else: the code runs into an UnboundLocalError *)
Definition call_expr (goal : term) (extra : list term) : nat -> fr -> heap -> miexpr :=
  fun g _ h =>
    match dfast h goal with
    | TAtom a => GenMachine.ECall (a, extra, g)
    | TFun f gargs => GenMachine.ECall (f, gargs ++ extra, g)
    | _ => ELeaf XRaise
    end.

(* findall: results = makelist([copy_term(template, {}) for r in q])  (engine.py:329).  Each collected
   instance is a copy with new variables: the instance of answer j gets every cell moved up by
   f_nxt + off_j (f_nxt = the counter at the call), off_1 = 0, off_(j+1) = off_j + counter at answer j
   [Sem/Machine.collect with lo = 0];  f_aux holds off_j *)
Definition fcollect (template : term) : nat -> fr -> heap -> fr :=
  fun g e h => {| f_env := f_env e; f_nxt := f_nxt e; f_fl := f_fl e;
                  f_acc := f_acc e ++ [Machine.shift_term 0 (f_nxt e + f_aux e) (dfast h template)];
                  f_aux := f_aux e + g |}.
(* the result list may contain those cells: the counter moves past them *)
Definition fcollected : nat -> fr -> heap -> fr :=
  fun _ e _ => {| f_env := f_env e; f_nxt := f_nxt e + f_aux e; f_fl := f_fl e;
                  f_acc := f_acc e; f_aux := f_aux e |}.

Definition builtin_code (name : str) (args : list term) : mcode * env :=
  if str_eqb name (s_ "=") then
    match args with
    | [a; b] => (CFor (fun _ _ _ => ELeaf (XUnify a b)) CYield, [])        (* for l in unify(a,b): yield False *)
    | _ => (CSkip, []) end
  else if str_eqb name (s_ "\=") then
    match args with
    | [a; b] => (fun_code neq_ir, [(s_ "Y", b); (s_ "X", a)])
    | _ => (CSkip, []) end
  else if str_eqb name (s_ "call") then
    match args with
    | g :: extra => (CFor (call_expr g extra) CYield, [])                   (* yield from self.query(..) *)
    | [] => (CRaise, []) end
  else if str_eqb name (s_ "once") then
    match args with
    | [g] => (CFor (call_expr g []) (CSeq CYield CBreak), [])               (* for x in ..: yield x; break *)
    | _ => (CSkip, []) end
  else if str_eqb name (s_ "findall") then
    match args with
    | [t; g; l] =>
        (CSeq (CFor (call_expr g []) (CAssign (fcollect t)))
           (CSeq (CAssign fcollected)
              (CFor (fun _ e _ => ELeaf (XUnify l (mk_list (f_acc e)))) CYield)), [])
    | _ => (CSkip, []) end
  else (CSkip, []).

(* renaming of a stored fact's own variables 0..m-1 to new cells g..g+m-1 (Answer.match:
   copy_term with a new mapping at every match) *)
Fixpoint fact_shift (g : nat) (t : term) : term :=
  match t with
  | TVar v => TVar (g + v)
  | TFun f xs => TFun f (map (fact_shift g) xs)
  | _ => t
  end.
Definition fact := (nat * list term)%type.          (* number of variables, argument values *)

Definition clear_acc : nat -> fr -> heap -> fr :=
  fun _ e _ => {| f_env := f_env e; f_nxt := f_nxt e; f_fl := f_fl e; f_acc := []; f_aux := f_aux e |}.
Fixpoint facts_code (fs : list fact) (args : list term) : mcode :=
  match fs with
  | [] => CAssign clear_acc
  | (m, vals) :: r =>
      CSeq (CAssign (fun g e _ => {| f_env := f_env e; f_nxt := g + m; f_fl := f_fl e;
                                     f_acc := map (fact_shift g) vals; f_aux := f_aux e |}))
        (CSeq (CFor (fun _ e _ => ELeaf (XArrays args (f_acc e))) CYield)
           (facts_code r args))
  end.

Section Prog.
  Variable ir : ir_program.
  Variable facts : str -> nat -> list fact.                              (* the fact database *)
  Variable user : str -> list term -> option (mcode * fr).               (* registered Python predicates *)

  Definition prog (p : callp) : mcode * fr :=
    let '(name, args, nx) := p in
    let '(c, e) :=
      match find_func ir name (length args) with
      | Some f => (fun_code (fn_body f), fr0 (bind_args 0 args) nx)
      | None =>
          match user name args with
          | Some (c, e) => (c, {| f_env := f_env e; f_nxt := nx; f_fl := f_fl e; f_acc := f_acc e; f_aux := f_aux e |})
          | None => let '(c, r) := builtin_code name args in (c, fr0 r nx)
          end
      end in
    match facts name (length args) with
    | [] => (c, e)
    | fs => (CSeq (facts_code fs args) c, e)
    end.

  Definition m_inext := inext mkleaf lnext lclose prog f_nxt.
  Definition m_nexts := nexts mkleaf lnext lclose prog f_nxt.
  Definition m_iclose := iclose (L:=leaf) (X:=lx) (E:=fr) (P:=callp) lclose.
  Definition m_query (name : str) (args : list term) (nx : nat) : GenMachine.iter leaf lx fr callp :=
    IFresh (fst (prog (name, args, nx))) (snd (prog (name, args, nx))).

  (* RESTORATION for every compiled program with every fact database and every set of registered
     Python predicates (arbitrary code, raising wherever it likes), every query, heap, fuel n,
     recursion limit d and abandonment point k: *)
  Theorem compiled_query_restores n d k h name args nx hf itf ys r :
    m_nexts n d k h (m_query name args nx) = Some (hf, itf, ys, r) ->
    m_iclose hf itf = h                                         (* close() / del / drop after k answers *)
    /\ ithrow lclose hf itf = (h, IDone, RRaise)                (* the consumer throws into it *)
    /\ (r <> RYield -> hf = h)                                  (* exhausted, or an exception came out *)
    /\ Forall (fun y => exists nw, y = nw ++ h) ys.             (* at every answer: h untouched underneath *)
  Proof.
    apply (query_restores_throw mkleaf lnext lclose prog f_nxt linv L_new L_next L_close L_ext).
  Qed.

  (* YP.evaluate_bounded as a consumer (engine.py:567-596):
       try:     for x in query: result.append(projection_function(x))
       except RuntimeError / StopIteration: pass
       finally: ...; query.close()
     k = the number of answers after which the loop is left early because the projection function
     raises (anything, StopIteration included); the loop also ends when the query is exhausted or
     an exception (RecursionError under the lowered limit d) comes out of it.  In every case the
     finally closes the query: *)
  Definition bounded_m (n d k : nat) (h : heap) (name : str) (args : list term) (nx : nat) : option (heap * list heap) :=
    match m_nexts n d k h (m_query name args nx) with
    | None => None
    | Some (hf, itf, ys, _) => Some (m_iclose hf itf, ys)
    end.
  Theorem bounded_restores n d k h name args nx hf ys :
    bounded_m n d k h name args nx = Some (hf, ys) -> hf = h.
  Proof.
    unfold bounded_m. destruct (m_nexts n d k h (m_query name args nx)) as [[[[h1 it1] ys1] r1]|] eqn:E; [|discriminate].
    intros [= <- <-]. apply (compiled_query_restores _ _ _ _ _ _ _ E).
  Qed.
End Prog.
