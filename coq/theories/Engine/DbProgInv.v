(* C13 for database operations issued FROM COMPILED CODE (DbProg.v): the cells of stored facts are never
   bound, over all runs of all programs - goals on dynamic facts and on compiled predicates, =, asserta /
   assertz / retract / retractall, goals suspended inside each other to any depth.

   As in DbHeapThms.v the cells are partitioned by a ghost set F ("allocated by Answer.__init__").
   Invariant of a configuration (goals still to run, bindings, global state, suspended goals):
   every binding binds an existing cell outside F to a value over such cells; the goals still to run and
   the arguments held by suspended goals mention only such cells; every stored fact, and every fact of a
   snapshot held by a suspended goal (it may have been retracted meanwhile), is a term over F; F lies
   below the allocation counter.  F only grows, by cells that are new when they are added.

   This file: what the goal in front of a body does to the invariant (the cinv_ lemmas), what one use of a fact and one clause
   do to the context of a loop (ctx_match, ctx_clause), and the big step: a complete run of a body from a
   configuration that satisfies the invariant ends in a global state that satisfies it for a larger F (solve_inv).
   DbProgVisits.v: the configurations that a run goes through all satisfy it. *)
From Coq Require Import List Arith Bool Lia ZArith.
Import ListNotations.
From YP Require Import Base.Str Term.Term Term.Fast Unify.Unify Unify.Fast Engine.Frame Engine.Db Engine.DbCursor
  Engine.DbFacts Engine.DbFactsThms Engine.DbHeap Engine.DbHeapThms Engine.DbProg.
Set Implicit Arguments.

Definition conj_all (A : Type) (Q : A -> Prop) (l : list A) : Prop := fold_right (fun x acc => Q x /\ acc) True l.
Lemma conj_all_Forall (A : Type) (Q : A -> Prop) l : conj_all Q l <-> Forall Q l.
Proof.
  induction l as [|x r IH]; simpl; split; intros H; auto.
  - destruct H as [H1 H2]. constructor; tauto.
  - inversion H; subst. split; tauto.
Qed.

(* the terms of a goal, of the goals of its branches too, are over cells that satisfy P *)
Fixpoint goal_in (P : nat -> bool) (gl : goal) : Prop :=
  match gl with
  | GUnify a b => tin P a /\ tin P b
  | GCall _ args => lin P args
  | GAssert _ t | GRetract t | GRetractAll t => tin P t
  | GOr a b => conj_all (goal_in P) a /\ conj_all (goal_in P) b
  | GIf c t e => conj_all (goal_in P) c /\ conj_all (goal_in P) t /\ conj_all (goal_in P) e
  | GFail | GCut | GPop | GCommit => True
  end.

Lemma goal_in_or P a b : goal_in P (GOr a b) <-> Forall (goal_in P) a /\ Forall (goal_in P) b.
Proof. cbn [goal_in]. rewrite !conj_all_Forall. tauto. Qed.
Lemma goal_in_if P c t e : goal_in P (GIf c t e) <-> Forall (goal_in P) c /\ Forall (goal_in P) t /\ Forall (goal_in P) e.
Proof. cbn [goal_in]. rewrite !conj_all_Forall. tauto. Qed.

Record ginv (F : nat -> bool) (g : glob) : Prop := mkginv {
  gi_facts : facts_in F (gdb g);
  gi_range : forall w, F w = true -> w < gn g }.

Record cinv (F : nat -> bool) (gs : list goal) (s : store) (g : glob) : Prop := mkcinv {
  ci_g : ginv F g;
  ci_wf : wf s;
  ci_store : good (Pc (gn g) F) s;
  ci_goals : Forall (goal_in (Pc (gn g) F)) gs }.

(* F grows to F' while the allocation counter goes from n to n': only by cells that did not exist *)
Definition grow (F : nat -> bool) (n : nat) (F' : nat -> bool) (n' : nat) : Prop :=
  n <= n' /\ (forall w, F w = true -> F' w = true) /\ (forall w, F' w = true -> F w = true \/ n <= w).

Lemma grow_refl F n : grow F n F n.
Proof. repeat split; auto. Qed.
Lemma grow_n F n n' : n <= n' -> grow F n F n'.
Proof. repeat split; auto. Qed.
Lemma grow_trans F n F1 n1 F2 n2 : grow F n F1 n1 -> grow F1 n1 F2 n2 -> grow F n F2 n2.
Proof.
  intros [A [B C]] [A' [B' C']]. repeat split; [lia|auto|].
  intros w Hw. destruct (C' w Hw) as [X|X]; [destruct (C w X); auto|right; lia].
Qed.

Lemma grow_Pc F n F' n' v : grow F n F' n' -> Pc n F v = true -> Pc n' F' v = true.
Proof.
  intros [A [B C]] H. unfold Pc in *. apply andb_true_iff in H as [X Y]. apply Nat.ltb_lt in X.
  apply negb_true_iff in Y. apply andb_true_iff. split; [apply Nat.ltb_lt; lia|].
  apply negb_true_iff. destruct (F' v) eqn:E; auto. destruct (C v E) as [Z|Z]; [congruence|lia].
Qed.

Lemma Forall_impl_in (A : Type) (Q R : A -> Prop) l : Forall (fun x => Q x -> R x) l -> Forall Q l -> Forall R l.
Proof. induction 1 as [|x r H _ IH]; intros X; inversion X; subst; constructor; auto. Qed.

Lemma goal_in_mono (P Q : nat -> bool) gl : (forall v, P v = true -> Q v = true) -> goal_in P gl -> goal_in Q gl.
Proof.
  intros H. induction gl as [a b|nm args|fr t|t|t| | |a b IHa IHb|c t e IHc IHt IHe| | ] using goal_ind'; try (simpl; tauto).
  - simpl. intros [A B]. split; eapply tin_mono; eauto.
  - simpl. apply lin_mono. exact H.
  - simpl. apply tin_mono. exact H.
  - simpl. apply tin_mono. exact H.
  - simpl. apply tin_mono. exact H.
  - rewrite !goal_in_or. intros [A B]. split; eapply Forall_impl_in; eauto.
  - rewrite !goal_in_if. intros [A [B C]]. repeat split; eapply Forall_impl_in; eauto.
Qed.

Lemma fact_cells_mono (F F' : nat -> bool) f : (forall w, F w = true -> F' w = true) -> fact_cells F f -> fact_cells F' f.
Proof. intros H. apply lin_mono. exact H. Qed.

(* what a suspended goal keeps: its arguments, the rest of its snapshot *)
Definition sframe := (list term * list fact)%type.
Definition sframe_ok (n : nat) (F : nat -> bool) (fr : sframe) : Prop :=
  lin (Pc n F) (fst fr) /\ Forall (fact_cells F) (snd fr).

Lemma sframe_ok_mono F n F' n' fr : grow F n F' n' -> sframe_ok n F fr -> sframe_ok n' F' fr.
Proof.
  intros G [A B]. split.
  - eapply lin_mono; [|exact A]. intros v. apply grow_Pc. exact G.
  - eapply Forall_impl; [|exact B]. intros f. apply fact_cells_mono. apply G.
Qed.

(* the context of a loop: bindings of the caller, arguments of the goal, rest of the body, rest of the snapshot *)
Record ctx (F : nat -> bool) (n : nat) (s : store) (args : list term) (r : list goal) (l : list fact) : Prop := mkctx {
  cx_wf : wf s;
  cx_store : good (Pc n F) s;
  cx_args : lin (Pc n F) args;
  cx_rest : Forall (goal_in (Pc n F)) r;
  cx_snap : Forall (fact_cells F) l }.

Lemma ctx_mono F n F' n' s args r l : grow F n F' n' -> ctx F n s args r l -> ctx F' n' s args r l.
Proof.
  intros G [A B C D E]. pose proof (fun v => @grow_Pc F n F' n' v G) as M. constructor; auto.
  - eapply good_mono; eauto.
  - eapply lin_mono; eauto.
  - eapply Forall_impl; [|exact D]. intros gl. apply goal_in_mono. exact M.
  - eapply Forall_impl; [|exact E]. intros f. apply fact_cells_mono. apply G.
Qed.

Lemma ginv_set_n F g n1 : ginv F g -> gn g <= n1 -> ginv F (set_n g n1).
Proof. intros [A B] L. constructor; simpl; auto. intros w Hw. apply B in Hw. lia. Qed.

Definition below (k : nat) : nat -> bool := fun v => v <? k.
Definition clause_ok (c : clause) : Prop :=
  lin (below (cnv c)) (chead c) /\ Forall (goal_in (below (cnv c))) (cbody c).
Definition prog_ok (p : program) : Prop := Forall clause_ok p.

(* for the clauses of a concrete program: auto with tin_db checks that a term is over the cells below m *)
Lemma tin_below_var m v : v <? m = true -> tin (below m) (TVar v).
Proof. intros H w Hw. simpl in Hw. apply Nat.eqb_eq in Hw. subst w. exact H. Qed.
Lemma tin_args (P : nat -> bool) f args : Forall (tin P) args -> tin P (TFun f args).
Proof. apply tin_fun. Qed.
Create HintDb tin_db.
#[export] Hint Resolve tin_below_var tin_args tin_atom tin_int tin_str Forall_nil Forall_cons : tin_db.

Lemma occurs_shift k t w : occurs w (shift k t) = true -> exists v, w = k + v /\ occurs v t = true.
Proof.
  induction t as [a|z|q|v|f args IH] using term_ind'; simpl; intros H; try discriminate.
  - apply Nat.eqb_eq in H. exists v. split; [lia|apply Nat.eqb_refl].
  - apply existsb_exists in H as [y [Hy Oy]]. apply in_map_iff in Hy as [x [<- Hx]].
    rewrite Forall_forall in IH. destruct (IH x Hx Oy) as [v [E O]]. exists v. split; auto.
    apply existsb_exists. exists x. auto.
Qed.

Lemma tin_shift (P : nat -> bool) m k t : (forall v, v < m -> P (k + v) = true) -> tin (below m) t -> tin P (shift k t).
Proof.
  intros H T w Hw. destruct (occurs_shift _ _ _ Hw) as [v [-> O]]. apply H. apply T in O.
  unfold below in O. apply Nat.ltb_lt in O. exact O.
Qed.

Lemma lin_shift (P : nat -> bool) m k l : (forall v, v < m -> P (k + v) = true) -> lin (below m) l -> lin P (map (shift k) l).
Proof.
  intros H L. apply Forall_forall. intros t Ht. apply in_map_iff in Ht as [x [<- Hx]].
  unfold lin in L. rewrite Forall_forall in L. eapply tin_shift; eauto.
Qed.

Lemma goal_in_shift (P : nat -> bool) m k gl : (forall v, v < m -> P (k + v) = true) -> goal_in (below m) gl -> goal_in P (shift_goal k gl).
Proof.
  intros H. induction gl as [a b|nm args|fr t|t|t| | |a b IHa IHb|c t e IHc IHt IHe| | ] using goal_ind'; try (simpl; tauto).
  - simpl. intros [A B]. split; eapply tin_shift; eauto.
  - simpl. apply lin_shift. exact H.
  - simpl. apply tin_shift. exact H.
  - simpl. apply tin_shift. exact H.
  - simpl. apply tin_shift. exact H.
  - cbn [shift_goal]. rewrite !goal_in_or. intros [A B]. split; apply Forall_map; eapply Forall_impl_in; eauto.
  - cbn [shift_goal]. rewrite !goal_in_if. intros [A [B C]]. repeat split; apply Forall_map; eapply Forall_impl_in; eauto.
Qed.

Lemma new_cells_Pc F n m : (forall w, F w = true -> w < n) -> forall v, v < m -> Pc (n + m) F (n + v) = true.
Proof.
  intros R v L. unfold Pc. apply andb_true_iff. split; [apply Nat.ltb_lt; lia|].
  apply negb_true_iff. destruct (F (n + v)) eqn:E; auto. apply R in E. lia.
Qed.

Lemma clauses_of_ok p name ar : prog_ok p -> Forall clause_ok (clauses_of p name ar).
Proof.
  intros H. apply Forall_forall. intros c Hc. unfold clauses_of in Hc. apply filter_In in Hc as [Hc _].
  unfold prog_ok in H. rewrite Forall_forall in H. auto.
Qed.

(* inside a loop: the context of the loop goes on with the rest of the snapshot, and a match starts the rest of the body
   from any global state that keeps the invariant at the new allocation counter *)
Lemma ctx_match uf F n s args r f l u n1 : (forall w, F w = true -> w < n) -> ctx F n s args r (f :: l) ->
  answer_match_fast uf s n args (fargs f) = (u, n1) ->
  n <= n1 /\ ctx F n1 s args r l /\
  match u with UOk s' => forall g0, ginv F g0 -> gn g0 = n1 -> cinv F r s' g0 | _ => True end.
Proof.
  intros R C M. pose proof C as [W G La Lr Fl]. inversion Fl as [|? ? Ff Fl']; subst.
  rewrite answer_match_fast_eq in M.
  destruct (@match_inv uf F s n args f u n1 G R La Ff M) as [L [_ Po]].
  assert (C1: ctx F n1 s args r l) by (apply (ctx_mono (grow_n F L)); constructor; assumption).
  split; [exact L|]. split; [exact C1|].
  destruct u as [s'| | |]; auto. destruct Po as [nw [-> Gn]]. intros g0 I0 <-. constructor; auto; try apply C1.
  - unfold answer_match in M. destruct (copy_args s (fargs f) n) as [cs n']. injection M as M _.
    destruct (unify_arrays_sound _ _ _ W M) as [W' _]. exact W'.
  - apply good_app; [exact Gn|apply C1].
Qed.

Lemma ctx_nil F n s args r l : ctx F n s args r l -> ctx F n s args r [].
Proof. intros [A B C D _]. constructor; auto. Qed.

Lemma callable_lin (P : nat -> bool) s t name args : closed P s -> tin P t ->
  callable (den_fast s t) = Some (name, args) -> lin P args.
Proof.
  intros C T H. rewrite den_fast_eq in H. pose proof (den_tin C T) as D.
  destruct (den s t) as [a|z|q|v|f xs]; simpl in H; inversion H; subst.
  - constructor.
  - apply tin_fun in D. exact D.
Qed.

Definition bpost (F : nat -> bool) (g g' : glob) : Prop := exists F', grow F (gn g) F' (gn g') /\ ginv F' g'.

Lemma bpost_refl F g g' : ginv F g' -> gn g <= gn g' -> bpost F g g'.
Proof. intros I L. exists F. split; auto. apply grow_n. exact L. Qed.

Lemma bpost_step F g F1 g1 g' : grow F (gn g) F1 (gn g1) -> bpost F1 g1 g' -> bpost F g g'.
Proof. intros G [F2 [G2 I2]]. exists F2. split; auto. eapply grow_trans; eauto. Qed.

Definition inv_rec (rec : list goal -> store -> glob -> res) : Prop :=
  forall gs s g g' a tr c F, cinv F gs s g -> rec gs s g = Some (g', a, tr, c) -> bpost F g g'.

(* x, then possibly f from the state x left: the second part starts from an invariant for a larger F *)
Lemma alt_inv lv (x : res) (f : glob -> res) F g g' a tr c :
  (forall g1 a1 t1 c1, x = Some (g1, a1, t1, c1) -> bpost F g g1) ->
  (forall F1 g1 g2 a2 t2 c2, grow F (gn g) F1 (gn g1) -> ginv F1 g1 -> f g1 = Some (g2, a2, t2, c2) -> bpost F1 g1 g2) ->
  alt_case lv x f g' a tr c -> bpost F g g'.
Proof.
  intros Hx Hf [g1 a1 t1 c1 c' Ex _|g1 a1 t1 c1 g2 a2 t2 c2 Ex _ Ef].
  - eapply Hx. exact Ex.
  - destruct (Hx _ _ _ _ Ex) as [F1 [G1 I1]]. eapply bpost_step; [exact G1|]. eapply Hf; eauto.
Qed.

Lemma rallh_inv uf F s args r : forall l n keep gone n',
  (forall w, F w = true -> w < n) -> ctx F n s args r l ->
  rallh uf s args l n = Some (keep, gone, n') -> n <= n' /\ forall x, In x keep -> In x l.
Proof.
  induction l as [|f l IH]; intros n keep gone n' R C H.
  - injection H as <- <- <-. split; auto.
  - destruct (rallh_cons _ _ _ _ _ _ H) as [s1 n1 k' g' n2 M E|n1 k' g' n2 M E];
      destruct (ctx_match R C M) as [L [C1 _]];
      destruct (IH _ _ _ _ (fun w Hw => Nat.lt_le_trans _ _ _ (R w Hw) L) C1 E) as [L2 Sub]; (split; [lia|]).
    + intros x Hx. right. auto.
    + intros x [<-|Hx]; [left; reflexivity|right; auto].
Qed.

Lemma ginv_del F g k i n1 : ginv F g -> gn g <= n1 ->
  ginv F (mkg (upd k (del_id i (gdb g k)) (gdb g)) (gid g) n1 (gw g)).
Proof.
  intros [A B] L. constructor; simpl.
  - intros k0 f0 Hf. unfold upd in Hf. destruct (key_eqb_spec k0 k) as [->|N]; [|eapply A; eauto].
    apply del_id_in in Hf as [Hf _]. eapply A; eauto.
  - intros w Hw. apply B in Hw. lia.
Qed.

Section Loops.
  Variable uf : nat.
  Variable rec : list goal -> store -> glob -> res.
  Hypothesis Hrec : inv_rec rec.

  Lemma scanq_inv args r s : forall l g g' a tr c F, ginv F g -> ctx F (gn g) s args r l ->
    scanq uf rec args r s l g = Some (g', a, tr, c) -> bpost F g g'.
  Proof.
    induction l as [|f l IH]; intros g g' a tr c F I C H; cbn [scanq] in H.
    - injection H as <- <- <- <-. apply bpost_refl; auto.
    - destruct (answer_match_fast uf s (gn g) args (fargs f)) as [u n1] eqn:M.
      destruct (ctx_match (gi_range I) C M) as [L [C1 Po]]. pose proof (ginv_set_n I L) as I1.
      apply (@bpost_step F g F (set_n g n1) g'); [apply grow_n; exact L|].
      destruct u as [s'| | |]; try discriminate.
      + eapply alt_inv; [| |apply alt_some; exact H].
        * intros g1 a1 t1 c1 E. apply tag_some in E as [t0 [_ ER]]. exact (Hrec (Po _ I1 eq_refl) ER).
        * intros F1 g1 g2 a2 t2 c2 G1 I1' ES. eapply IH; [exact I1'| |exact ES]. exact (ctx_mono G1 C1).
      + eapply IH; [exact I1|exact C1|exact H].
  Qed.

  Lemma scanr_inv k args r s : forall l g g' a tr c F, ginv F g -> ctx F (gn g) s args r l ->
    scanr uf rec k args r s l g = Some (g', a, tr, c) -> bpost F g g'.
  Proof.
    induction l as [|f l IH]; intros g g' a tr c F I C H; cbn [scanr] in H.
    - injection H as <- <- <- <-. apply bpost_refl; auto.
    - destruct (answer_match_fast uf s (gn g) args (fargs f)) as [u n1] eqn:M.
      destruct (ctx_match (gi_range I) C M) as [L [C1 Po]]. pose proof (ginv_set_n I L) as I1.
      assert (Skip: scanr uf rec k args r s l (set_n g n1) = Some (g', a, tr, c) -> bpost F g g').
      { intros E. apply (@bpost_step F g F (set_n g n1) g'); [apply grow_n; exact L|].
        eapply IH; [exact I1|exact C1|exact E]. }
      destruct u as [s'| | |]; try discriminate; auto.
      destruct (has_id (fid f) (gdb g k)); auto.
      set (g0 := mkg (upd k (del_id (fid f) (gdb g k)) (gdb g)) (gid g) n1 (gw g)) in *.
      apply (@bpost_step F g F g0 g'); [apply grow_n; exact L|].
      eapply alt_inv; [| |apply alt_some; exact H].
      + intros g1 a1 t1 c1 E. apply tag_some in E as [t0 [_ ER]]. exact (Hrec (Po g0 (ginv_del k (fid f) I L) eq_refl) ER).
      + intros F1 g1 g2 a2 t2 c2 G1 I1' ES. eapply IH; [exact I1'| |exact ES]. exact (ctx_mono G1 C1).
  Qed.

  Lemma ctx_clause F g s args r c : ginv F g -> ctx F (gn g) s args r [] -> clause_ok c ->
    ginv F (set_n g (gn g + cnv c)) /\ ctx F (gn g + cnv c) s args r [] /\
    forall s', unify_arrays_fast uf s args (map (shift (gn g)) (chead c)) = UOk s' ->
      cinv F (map (shift_goal (gn g)) (cbody c) ++ GPop :: r) s' (set_n g (gn g + cnv c)).
  Proof.
    intros I C [Ch Cb]. assert (L: gn g <= gn g + cnv c) by lia.
    pose proof (ginv_set_n I L) as I1. pose proof (ctx_mono (grow_n F L) C) as C1.
    split; [exact I1|]. split; [exact C1|]. intros s' U. rewrite unify_arrays_fast_eq in U.
    pose proof (@new_cells_Pc F (gn g) (cnv c) (gi_range I)) as New. destruct C1 as [W G1 L1 Lr _].
    assert (L2: lin (Pc (gn g + cnv c) F) (map (shift (gn g)) (chead c))) by (eapply lin_shift; eauto).
    destruct (@unify_arrays_frame (Pc (gn g + cnv c) F) uf s args _ (good_closed G1) L1 L2) as [_ Po].
    rewrite U in Po. destruct Po as [nw [-> Gn]]. destruct (unify_arrays_sound _ _ _ W U) as [W' _].
    constructor; simpl; auto; [apply good_app; auto|]. apply Forall_app. split; [|constructor; [exact Logic.I|exact Lr]].
    apply Forall_forall. intros gl Hgl. apply in_map_iff in Hgl as [x [<- Hx]].
    rewrite Forall_forall in Cb. eapply goal_in_shift; eauto.
  Qed.

  Lemma tryclauses_inv args r s : forall cls g g' a tr fl F, Forall clause_ok cls -> ginv F g -> ctx F (gn g) s args r [] ->
    tryclauses uf rec args r s cls g = Some (g', a, tr, fl) -> bpost F g g'.
  Proof.
    induction cls as [|c cs IH]; intros g g' a tr fl F OK I C H; cbn [tryclauses] in H.
    - injection H as <- <- <- <-. apply bpost_refl; auto.
    - inversion OK as [|? ? Oc Ocs]; subst.
      destruct (ctx_clause I C Oc) as [I1 [C1 Po]].
      apply (@bpost_step F g F (set_n g (gn g + cnv c)) g'); [apply grow_n; simpl; lia|].
      destruct (unify_arrays_fast uf s args (map (shift (gn g)) (chead c))) as [s'| | |]; try discriminate.
      + eapply alt_inv; [| |apply alt_some; exact H].
        * intros g1 a1 t1 c1 ER. exact (Hrec (Po _ eq_refl) ER).
        * intros F1 g1 g2 a2 t2 c2 G1 I1' ES. eapply IH; [exact Ocs|exact I1'| |exact ES]. exact (ctx_mono G1 C1).
      + eapply IH; [exact Ocs|exact I1|exact C1|exact H].
  Qed.
End Loops.

(* asserta/assertz: the new fact is a term over the cells it allocates, which join F *)
Definition addF (F : nat -> bool) (lo hi : nat) : nat -> bool := fun w => F w || ((lo <=? w) && (w <? hi)).

Lemma assert_inv F g s args stored n1 k front w :
  ginv F g -> answer_init_fast s args (gn g) = (stored, n1) ->
  let g0 := mkg (upd k (ins front (mkfact (gid g) stored) (gdb g k)) (gdb g)) (S (gid g)) n1 w in
  grow F (gn g) (addF F (gn g) n1) n1 /\ ginv (addF F (gn g) n1) g0.
Proof.
  intros [A B] H g0. rewrite answer_init_fast_eq in H.
  destruct (@stored_value_at_assert_time s (gn g) args stored n1 H) as [m [_ [_ [_ [L [_ Rg]]]]]].
  split; [|constructor].
  - split; [exact L|split].
    + intros v Hv. unfold addF. rewrite Hv. reflexivity.
    + intros v Hv. unfold addF in Hv. apply orb_true_iff in Hv as [Hv|Hv]; auto.
      apply andb_true_iff in Hv as [X _]. apply Nat.leb_le in X. auto.
  - intros k0 f Hf. simpl in Hf. unfold upd in Hf.
    assert (Old: forall x, In x (gdb g k0) -> fact_cells (addF F (gn g) n1) x).
    { intros x Hx. eapply fact_cells_mono; [|exact (A k0 x Hx)]. intros v Hv. unfold addF. rewrite Hv. reflexivity. }
    destruct (key_eqb_spec k0 k) as [->|NK]; [|auto].
    assert (New: fact_cells (addF F (gn g) n1) (mkfact (gid g) stored)).
    { apply Forall_forall. intros t0 Ht0 v Hv. simpl in Ht0.
      assert (X: gn g <= v < n1) by (apply Rg; unfold occurs_l; apply existsb_exists; exists t0; auto).
      unfold addF. apply orb_true_iff. right. apply andb_true_iff. split; [apply Nat.leb_le|apply Nat.ltb_lt]; lia. }
    unfold ins in Hf. destruct front; simpl in Hf.
    + destruct Hf as [<-|Hf]; auto.
    + apply in_app_iff in Hf as [Hf|[<-|[]]]; auto.
  - intros v Hv. simpl. unfold addF in Hv. apply orb_true_iff in Hv as [Hv|Hv].
    + apply B in Hv. lia.
    + apply andb_true_iff in Hv as [_ Y]. apply Nat.ltb_lt in Y. exact Y.
Qed.

Lemma cinv_tick F gs s g w : cinv F gs s g -> cinv F gs s (mkg (gdb g) (gid g) (gn g) w).
Proof. intros [[A B] C D E]. constructor; simpl; auto. constructor; simpl; auto. Qed.

Lemma cinv_mono F n F' gs s g g' : grow F n F' (gn g') -> n = gn g -> ginv F' g' -> cinv F gs s g -> cinv F' gs s g'.
Proof.
  intros G -> I [_ W Gs Gg]. pose proof (fun v => @grow_Pc F (gn g) F' (gn g') v G) as M. constructor; auto.
  - eapply good_mono; eauto.
  - eapply Forall_impl; [|exact Gg]. intros gl. apply goal_in_mono. exact M.
Qed.

Lemma cinv_init nv work gs : Forall (goal_in (below nv)) gs -> cinv (fun _ => false) gs [] (ginit nv work).
Proof.
  intros H. constructor; simpl.
  - constructor; simpl; [intros k f []|intros w Hw; discriminate].
  - constructor.
  - apply good_nil.
  - eapply Forall_impl; [|exact H]. intros gl. apply goal_in_mono. intros v Hv. unfold below in Hv. unfold Pc.
    rewrite Hv. reflexivity.
Qed.

Lemma cinv_goals F gs gs' s g : cinv F gs s g -> Forall (goal_in (Pc (gn g) F)) gs' -> cinv F gs' s g.
Proof. intros [I W G _] L. constructor; auto. Qed.

Lemma cinv_tail F x r s g : cinv F (x :: r) s g -> cinv F r s g.
Proof. intros CI. apply (cinv_goals CI). pose proof (ci_goals CI) as L. inversion L; assumption. Qed.

Lemma cinv_unify uf F a b r s g s' : cinv F (GUnify a b :: r) s g -> unify_fast uf s a b = UOk s' -> cinv F r s' g.
Proof.
  intros [I W G Lg] U. inversion Lg as [|? ? Tg Lr]; subst. destruct Tg as [Ta Tb]. rewrite unify_fast_eq in U.
  destruct (@unify_frame (Pc (gn g) F) uf s a b (good_closed G) Ta Tb) as [_ Po]. rewrite U in Po.
  destruct Po as [nw [-> Gn]]. destruct (unify_sound _ _ _ W U) as [W' _].
  constructor; auto. apply good_app; auto.
Qed.

Lemma cinv_or F a b r s g : cinv F (GOr a b :: r) s g -> cinv F (a ++ r) s g /\ cinv F (b ++ r) s g.
Proof.
  intros CI. pose proof (ci_goals CI) as L. inversion L as [|? ? Tg Lr]; subst. apply goal_in_or in Tg as [Ta Tb].
  split; apply (cinv_goals CI); apply Forall_app; auto.
Qed.

Lemma cinv_if F c t e r s g : cinv F (GIf c t e :: r) s g ->
  cinv F (c ++ GCommit :: t ++ r) s g /\ cinv F (e ++ r) s g.
Proof.
  intros CI. pose proof (ci_goals CI) as L. inversion L as [|? ? Tg Lr]; subst. apply goal_in_if in Tg as [Tc [Tt Te]].
  split; apply (cinv_goals CI); apply Forall_app; auto.
  split; [exact Tc|]. constructor; [exact Logic.I|]. apply Forall_app. auto.
Qed.

Lemma cinv_call F name args r s g : cinv F (GCall name args :: r) s g -> ctx F (gn g) s args r (gdb g (name, length args)).
Proof.
  intros [I W G Lg]. inversion Lg as [|? ? La Lr]; subst. constructor; auto.
  apply Forall_forall. intros f Hf. eapply (gi_facts I); eauto.
Qed.

(* x is a goal on the one term t (retract, retractall), which dereferences to name(args) *)
Lemma cinv_term F x t r s g name args : cinv F (x :: r) s g -> (forall P, goal_in P x -> tin P t) ->
  callable (den_fast s t) = Some (name, args) -> ctx F (gn g) s args r (gdb g (name, length args)).
Proof.
  intros [I W G Lg] Ex CA. inversion Lg as [|? ? Tt Lr]; subst. apply Ex in Tt. constructor; auto.
  - eapply callable_lin; [apply good_closed; exact G|exact Tt|exact CA].
  - apply Forall_forall. intros f Hf. eapply (gi_facts I); eauto.
Qed.

Lemma cinv_assert F front t r s g k args stored n1 : cinv F (GAssert front t :: r) s g ->
  answer_init_fast s args (gn g) = (stored, n1) ->
  grow F (gn g) (addF F (gn g) n1) n1 /\
  cinv (addF F (gn g) n1) r s (mkg (upd k (ins front (mkfact (gid g) stored) (gdb g k)) (gdb g)) (S (gid g)) n1 (gw g)).
Proof.
  intros CI AI. destruct (@assert_inv F g s args stored n1 k front (gw g) (ci_g CI) AI) as [G1 I1].
  split; [exact G1|]. refine (@cinv_mono F (gn g) _ r s g _ _ eq_refl I1 (cinv_tail CI)). exact G1.
Qed.

Lemma cinv_retractall uf F t r s g name args keep gone n1 : cinv F (GRetractAll t :: r) s g ->
  callable (den_fast s t) = Some (name, args) -> rallh uf s args (gdb g (name, length args)) (gn g) = Some (keep, gone, n1) ->
  gn g <= n1 /\ cinv F r s (mkg (upd (name, length args) keep (gdb g)) (gid g) n1 (gw g)).
Proof.
  intros CI CA RA. pose proof (ci_g CI) as I. set (k := (name, length args)) in *.
  destruct (rallh_inv _ (gi_range I) (cinv_term CI (fun _ T => T) CA) RA) as [L Sub].
  split; [exact L|]. apply (@cinv_mono F (gn g)) with (g := g); [apply grow_n; exact L|reflexivity| |exact (cinv_tail CI)].
  constructor; simpl.
  - intros k0 f Hf. unfold upd in Hf. destruct (key_eqb_spec k0 k) as [->|N]; [|eapply (gi_facts I); eauto].
    eapply (gi_facts I). apply Sub. exact Hf.
  - intros v Hv. apply (gi_range I) in Hv. lia.
Qed.

Section Solve.
  Variable uf : nat.
  Variable prog : program.
  Hypothesis Hprog : prog_ok prog.

  Lemma solve_inv : forall n, inv_rec (solve uf prog n).
  Proof.
    induction n as [|n IH]; intros gs s g g' a tr fl F CI H; [discriminate|].
    destruct (solve_S_cases _ _ _ _ _ _ H) as [w [_ C]]. apply (cinv_tick w) in CI.
    change (bpost F (mkg (gdb g) (gid g) (gn g) w) g'). revert CI C. generalize (mkg (gdb g) (gid g) (gn g) w).
    clear g H. intros g CI C.
    destruct C as [s g|x y r s g s' g' ans tr c U E|x y r s g U|name args r s g g' ans tr c A
                  |front t r s g g' ans tr c CA E|front t r s g name args stored n1 g' ans tr c CA AI E
                  |t r s g CA|t r s g name args g' ans tr c CA E|t r s g CA|t r s g name args keep gone n1 g' ans tr c CA RA E
                  |r s g|r s g g' ans tr c E|ga gb r s g g' ans tr c A|gc gt ge r s g g' ans tr c A
                  |r s g g' ans tr c E|r s g g' ans tr c E];
      try (apply bpost_refl; [exact (ci_g CI)|apply le_n]);
      try (eapply IH; [exact (cinv_tail CI)|exact E]).
    - eapply IH; [exact (cinv_unify _ CI U)|exact E].
    - pose proof (cinv_call CI) as C. eapply alt_inv; [| |exact A].
      + intros g1 a1 t1 c1 ES. eapply scanq_inv; [exact IH|exact (ci_g CI)|exact C|exact ES].
      + intros F1 g1 g2 a2 t2 c2 G1 I1 ET.
        eapply tryclauses_inv; [exact IH|apply clauses_of_ok; exact Hprog|exact I1| |exact ET].
        exact (ctx_mono G1 (ctx_nil C)).
    - destruct (cinv_assert (name, length args) CI AI) as [G1 CI1].
      eapply bpost_step; [|exact (IH _ _ _ _ _ _ _ _ CI1 E)]. exact G1.
    - eapply scanr_inv; [exact IH|exact (ci_g CI)|exact (cinv_term CI (fun _ T => T) CA)|exact E].
    - destruct (cinv_retractall _ CI CA RA) as [L CI1].
      eapply bpost_step; [|exact (IH _ _ _ _ _ _ _ _ CI1 E)]. apply grow_n. exact L.
    - destruct (cinv_or CI) as [Ca Cb]. eapply alt_inv; [| |exact A].
      + intros g1 a1 t1 c1 E. exact (IH _ _ _ _ _ _ _ _ Ca E).
      + intros F1 g1 g2 a2 t2 c2 G1 I1 E. exact (IH _ _ _ _ _ _ _ _ (cinv_mono G1 eq_refl I1 Cb) E).
    - destruct (cinv_if CI) as [Cc Ce]. eapply alt_inv; [| |exact A].
      + intros g1 a1 t1 c1 E. exact (IH _ _ _ _ _ _ _ _ Cc E).
      + intros F1 g1 g2 a2 t2 c2 G1 I1 E. exact (IH _ _ _ _ _ _ _ _ (cinv_mono G1 eq_refl I1 Ce) E).
  Qed.
End Solve.
