(* Histories over the fact database with suspended cursors (engine.py: YP.query ->
   match_dynamic -> _match_all_clauses; YP.retract; YP.asserta/assertz/assert_fact;
   YP.retractall; YP.clear), in any interleaving.

   A cursor is a Python generator object.  YP.query and YP.retract are generator functions:
   creating the generator (EStart) runs nothing; the FIRST next() dereferences the goal, reads the
   list that is stored under the key at that moment and keeps that list object (the snapshot);
   every later next() continues in the snapshot.  A retract cursor tests, for each candidate of
   its snapshot that matches, whether that very Answer object is in the list that is current NOW,
   publishes the current list without it, and yields.  asserta/assertz/retractall are plain
   functions that do their work when they are called and return a one-shot iterator.
   Bindings of a cursor's pattern live only between two next() of that cursor; every cursor uses
   its own variables (see the harness), so a match is a function of (pattern, fact). *)
From Coq Require Import List Arith Bool Lia.
Import ListNotations.
From YP Require Import Base.Str Term.Term Engine.Db.
Set Implicit Arguments.

Inductive qry :=
| QQuery (name : str) (args : list term)    (* yp.query(name, args) / a goal name(args) in compiled code *)
| QRetract (t : term).                      (* retract(t) *)

Inductive ev :=
| EAssert (front : bool) (t : term)                        (* asserta(t) / assertz(t), t dereferenced *)
| EAssertFact (name : str) (args : list term) (append : bool)   (* YP.assert_fact *)
| EStart (c : nat) (q : qry)
| ENext (c : nat)
| EClose (c : nat)
| ERetractAll (t : term)
| EQueryAll (name : str) (args : list term)                (* a query run to exhaustion at once *)
| EClear.

Inductive cursor :=
| CNone                                                    (* no such generator *)
| CQNew (k : key) (pat : list term)                        (* created, not started *)
| CQRun (pat : list term) (rest : list fact)               (* suspended in its snapshot *)
| CRNew (t : term)
| CRRun (k : key) (pat : list term) (rest : list fact)
| CDone.                                                   (* exhausted or closed *)

(* what an event returns; fact ids and keys are ghost information for the theorems, the harness
   sees only out_obs (RunDb.v) *)
Inductive out :=
| OIns (k : key) (front : bool) (f : fact)   (* an assert stored f; the builtin succeeded once *)
| ONop                                       (* asserta/assertz of a non-callable term: succeeds, stores nothing *)
| ORAll (k : key) (gone : list nat)          (* retractall succeeded once *)
| OFailed                                    (* retractall of a non-callable term fails *)
| OClr
| OStart
| OClosed
| OEnd                                       (* StopIteration *)
| OBad                                       (* next/close of a generator that was never created (harness error) *)
| OAns (id : nat) (a : list term)            (* a query cursor yields: dereferenced pattern *)
| ORet (k : key) (id : nat) (a : list term)  (* a retract cursor yields, having removed fact id *)
| OAll (l : list (list term)).

Record st := mkst { sdb : db; snext : nat; scur : nat -> cursor }.

Definition init : st := mkst empty_db 0 (fun _ => CNone).

Definition set_cur (s : st) (c : nat) (x : cursor) : st :=
  mkst (sdb s) (snext s) (fun c' => if Nat.eqb c' c then x else scur s c').
Definition set_db (s : st) (d : db) : st := mkst d (snext s) (scur s).

Section Machine.
  Variable mt : list term -> list term -> mres.

  Definition do_assert (s : st) (name : str) (args : list term) (front : bool) : st * out :=
    let k := (name, length args) in
    let f := mkfact (snext s) args in
    (mkst (upd k (ins front f (sdb s k)) (sdb s)) (S (snext s)) (scur s), OIns k front f).

  Definition qnext (s : st) (c : nat) (pat : list term) (l : list fact) : option (st * out) :=
    match qscan mt pat l with
    | None => None
    | Some None => Some (set_cur s c CDone, OEnd)
    | Some (Some (f, a, r)) => Some (set_cur s c (CQRun pat r), OAns (fid f) a)
    end.

  Definition rnext (s : st) (c : nat) (k : key) (pat : list term) (l : list fact) : option (st * out) :=
    match rscan mt pat (sdb s k) l with
    | None => None
    | Some None => Some (set_cur s c CDone, OEnd)
    | Some (Some (f, a, r)) =>
        Some (set_cur (set_db s (upd k (del_id (fid f) (sdb s k)) (sdb s))) c (CRRun k pat r), ORet k (fid f) a)
    end.

  Definition step (s : st) (e : ev) : option (st * out) :=
    match e with
    | EAssertFact name args append => Some (do_assert s name args (negb append))
    | EAssert front t =>
        match callable t with
        | Some (n, args) => Some (do_assert s n args front)
        | None => Some (s, ONop)
        end
    | EStart c q =>
        Some (set_cur s c (match q with
                           | QQuery n args => CQNew (n, length args) args
                           | QRetract t => CRNew t
                           end), OStart)
    | ENext c =>
        match scur s c with
        | CNone => Some (s, OBad)
        | CDone => Some (s, OEnd)
        | CQNew k pat => qnext s c pat (sdb s k)
        | CQRun pat rest => qnext s c pat rest
        | CRNew t =>
            match callable t with
            | None => Some (set_cur s c CDone, OEnd)
            | Some (n, args) => rnext s c (n, length args) args (sdb s (n, length args))
            end
        | CRRun k pat rest => rnext s c k pat rest
        end
    | EClose c =>
        match scur s c with
        | CNone => Some (s, OBad)
        | _ => Some (set_cur s c CDone, OClosed)
        end
    | ERetractAll t =>
        match callable t with
        | None => Some (s, OFailed)
        | Some (n, args) =>
            let k := (n, length args) in
            match rall mt args (sdb s k) with
            | None => None
            | Some (keep, gone) => Some (set_db s (upd k keep (sdb s)), ORAll k gone)
            end
        end
    | EQueryAll n args =>
        match qall mt args (sdb s (n, length args)) with
        | None => None
        | Some l => Some (s, OAll l)
        end
    | EClear => Some (set_db s empty_db, OClr)
    end.

  Fixpoint run (s : st) (evs : list ev) : option (st * list out) :=
    match evs with
    | [] => Some (s, [])
    | e :: r =>
        match step s e with
        | None => None
        | Some (s1, o) =>
            match run s1 r with
            | None => None
            | Some (s2, os) => Some (s2, o :: os)
            end
        end
    end.

  Lemma run_app s a b : run s (a ++ b) =
    match run s a with
    | None => None
    | Some (s1, o1) => match run s1 b with None => None | Some (s2, o2) => Some (s2, o1 ++ o2) end
    end.
  Proof.
    revert s. induction a as [|e a IH]; intros s; simpl.
    - destruct (run s b) as [[s2 o2]|]; reflexivity.
    - destruct (step s e) as [[s1 o]|]; [|reflexivity]. rewrite IH.
      destruct (run s1 a) as [[s2 o2]|]; [|reflexivity].
      destruct (run s2 b) as [[s3 o3]|]; reflexivity.
  Qed.

  Lemma run_length s evs s' outs : run s evs = Some (s', outs) -> length outs = length evs.
  Proof.
    revert s s' outs. induction evs as [|e r IH]; intros s s' outs H; simpl in H.
    - injection H as _ <-. reflexivity.
    - destruct (step s e) as [[s1 o]|]; [|discriminate].
      destruct (run s1 r) as [[s2 os]|] eqn:E; [|discriminate]. injection H as _ <-. simpl. f_equal. eauto.
  Qed.

  (* the effect of an event on the database is the atomic update named by its output,
     applied to the database that is current when the event happens *)
  Definition apply_out (o : out) (d : db) : db :=
    match o with
    | OIns k front f => upd k (ins front f (d k)) d
    | ORet k id _ => upd k (del_id id (d k)) d
    | ORAll k gone => upd k (del_ids gone (d k)) d
    | OClr => empty_db
    | _ => d
    end.

  (* invariants on identities: ids are allocated from a counter, so the facts that are stored
     have pairwise different ids (within a key and across keys) *)
  Definition ids_ok (d : db) (n : nat) : Prop :=
    (forall k, NoDup (map fid (d k))) /\
    (forall k f, In f (d k) -> fid f < n) /\
    (forall k k' i, In i (map fid (d k)) -> In i (map fid (d k')) -> k = k').

  Lemma ids_ok_empty n : ids_ok empty_db n.
  Proof. repeat split; intros; try constructor; try contradiction. Qed.

  Lemma ids_ok_ext (d1 d2 : db) n : (forall k, d1 k = d2 k) -> ids_ok d1 n -> ids_ok d2 n.
  Proof.
    intros E [A [B C]]. repeat split.
    - intros k. rewrite <- E. apply A.
    - intros k f. rewrite <- E. apply B.
    - intros k k' i. rewrite <- !E. apply C.
  Qed.

  Lemma ids_ok_sub d n k l : ids_ok d n -> (forall f, In f l -> In f (d k)) -> NoDup (map fid l) ->
    ids_ok (upd k l d) n.
  Proof.
    intros [A [B C]] Hs Hn. repeat split.
    - intros k0. unfold upd. destruct (key_eqb k0 k); auto.
    - intros k0 f. unfold upd. destruct (key_eqb k0 k); intros H; eauto.
    - intros k1 k2 i. unfold upd.
      assert (Hin: forall i, In i (map fid l) -> In i (map fid (d k))).
      { intros j Hj. apply in_map_iff in Hj as [f [E Hf]]. apply in_map_iff. exists f. auto. }
      destruct (key_eqb_spec k1 k) as [->|N1]; destruct (key_eqb_spec k2 k) as [->|N2]; intros H1 H2; auto.
      + apply (C k k2 i); auto.
      + apply (C k1 k i); auto.
      + apply (C k1 k2 i); auto.
  Qed.

  Lemma ids_ok_ins d n k front args : ids_ok d n -> ids_ok (upd k (ins front (mkfact n args) (d k)) d) (S n).
  Proof.
    intros [A [B C]].
    assert (Fresh: forall k0, ~ In n (map fid (d k0))).
    { intros k0 H. apply in_map_iff in H as [f [E H]]. apply B in H. lia. }
    assert (InIns: forall i, In i (map fid (ins front (mkfact n args) (d k))) -> i = n \/ In i (map fid (d k))).
    { intros i. unfold ins. destruct front; simpl.
      - intros [H|H]; auto.
      - rewrite map_app, in_app_iff. simpl. intros [H|[H|[]]]; auto. }
    repeat split.
    - intros k0. unfold upd. destruct (key_eqb k0 k); auto.
      unfold ins. destruct front; simpl.
      + constructor; auto.
      + rewrite map_app. simpl. apply nodup_app; auto; [repeat constructor; intros []|].
        intros i Hi [<-|[]]. apply (Fresh k Hi).
    - intros k0 f. unfold upd. destruct (key_eqb k0 k).
      + unfold ins. destruct front; simpl.
        * intros [H|H]; [subst; simpl; lia|]. apply B in H. lia.
        * rewrite in_app_iff. simpl. intros [H|[H|[]]]; [apply B in H; lia|subst; simpl; lia].
      + intros H. apply B in H. lia.
    - intros k1 k2 i. unfold upd.
      destruct (key_eqb_spec k1 k) as [->|N1]; destruct (key_eqb_spec k2 k) as [->|N2]; intros H1 H2; auto.
      + apply InIns in H1 as [->|H1]; [exfalso; eapply Fresh; eauto|]. apply (C k k2 i); auto.
      + apply InIns in H2 as [->|H2]; [exfalso; eapply Fresh; eauto|]. apply (C k1 k i); auto.
      + apply (C k1 k2 i); auto.
  Qed.
End Machine.
