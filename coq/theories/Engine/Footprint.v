(* C04, same engine, clause bodies that write the fact store: footprints.

   Every access of a resumed generator to the fact store is in the log of the step (World.ev: key, written or only
   read).  K is a set of keys (name, arity).  For one step of the machine, a run to the next answer, next and drain of
   a generator:
     - on two fact stores that agree on the keys in K (dbK), a step all of whose accesses are to keys in K gives the same
       answer, the same generator, the same heap and the same log on both, and the new stores agree on K again;
     - a step all of whose WRITES are to keys outside K leaves the store as it was on K (dbK old new).
   Together (Engine/Slots.v): a generator that only touches K is not influenced by generators that only write outside K. *)
From Coq Require Import String.
From Coq Require Import List Arith Bool Lia ZArith.
Import ListNotations.
From YP Require Import Base.Str Term.Term Unify.Unify Engine.Deref Engine.Db Engine.World.

Lemma fkey_eqb_spec (a b : fkey) : reflect (a = b) (fkey_eqb a b).
Proof. exact (key_eqb_spec a b). Qed.

Lemma find_facts_set k l d nm ar :
  find_facts (set_facts k l d) nm ar = if fkey_eqb (nm, ar) k then l else find_facts d nm ar.
Proof.
  unfold find_facts, set_facts. cbn [facts]. rewrite (aget_aset _ fkey_eqb_spec).
  destruct (fkey_eqb (nm, ar) k); reflexivity.
Qed.

Section FP.
Variable K : fkey -> bool.

Definition inK (e : ev) : Prop := K (ekey e) = true.
Definition wrOut (e : ev) : Prop := ewr e = true -> K (ekey e) = false.

(* the two stores have the same definitions and the same facts under every key of K *)
Definition dbK (d1 d2 : db) : Prop :=
  ctx d1 = ctx d2 /\ reserved d1 = reserved d2 /\
  forall nm ar, K (nm, ar) = true -> find_facts d1 nm ar = find_facts d2 nm ar.

Lemma dbK_refl d : dbK d d.
Proof. repeat split; auto. Qed.
Lemma dbK_sym d1 d2 : dbK d1 d2 -> dbK d2 d1.
Proof. intros [A [B C]]. repeat split; auto. intros nm ar H. symmetry. auto. Qed.
Lemma dbK_trans d1 d2 d3 : dbK d1 d2 -> dbK d2 d3 -> dbK d1 d3.
Proof.
  intros [A [B C]] [A' [B' C']]. repeat split; try congruence.
  intros nm ar H. rewrite (C nm ar H). auto.
Qed.
Lemma dbK_set k l d1 d2 : dbK d1 d2 -> dbK (set_facts k l d1) (set_facts k l d2).
Proof.
  intros [A [B C]]. repeat split; auto. intros nm ar H. rewrite !find_facts_set.
  destruct (fkey_eqb (nm, ar) k); auto.
Qed.
Lemma dbK_set_out k l d : K k = false -> dbK d (set_facts k l d).
Proof.
  intros H. repeat split; auto. intros nm ar H'. rewrite find_facts_set.
  destruct (fkey_eqb_spec (nm, ar) k) as [E|N]; [congruence|reflexivity].
Qed.
Lemma find_function_dbK d1 d2 nm ar : dbK d1 d2 -> find_function d1 nm ar = find_function d2 nm ar.
Proof. intros [A [B _]]. unfold find_function. rewrite A, B. reflexivity. Qed.

Definition agreeK (m1 m2 : mstate) : Prop :=
  mnf m1 = mnf m2 /\ mfr m1 = mfr m2 /\ mlog m1 = mlog m2 /\ dbK (mdb m1) (mdb m2).
Lemma agreeK_mk d1 d2 nf fr lg : dbK d1 d2 -> agreeK (mkms d1 nf fr lg) (mkms d2 nf fr lg).
Proof. intros H. repeat split; auto; apply H. Qed.

Definition klog (m : mstate) (r : kres) : list ev :=
  match r with KGo m' | KAns _ m' | KErr _ m' => mlog m' | KDone => mlog m end.
Definition kdb (m : mstate) (r : kres) : db :=
  match r with KGo m' | KAns _ m' => mdb m' | _ => mdb m end.
Definition kagree (r1 r2 : kres) : Prop :=
  match r1, r2 with
  | KGo a, KGo b => agreeK a b
  | KAns t a, KAns t' b => t = t' /\ agreeK a b
  | KDone, KDone => True
  | KErr a x, KErr b y => a = b /\ agreeK x y
  | _, _ => False
  end.

Definition kfoot (d : db) (nf : nat) (fr : list frame) (lg : list ev) (r : kres) (G : db -> kres) : Prop :=
  exists pre, klog (mkms d nf fr lg) r = pre ++ lg
    /\ (Forall wrOut pre -> dbK d (kdb (mkms d nf fr lg) r))
    /\ (Forall inK pre -> forall d2, dbK d d2 -> kagree r (G d2)).

Definition put (d : db) (r : kres) : kres :=
  match r with
  | KGo m => KGo (mkms d (mnf m) (mfr m) (mlog m))
  | KAns tr m => KAns tr (mkms d (mnf m) (mfr m) (mlog m))
  | KErr k m => KErr k (mkms d (mnf m) (mfr m) (mlog m))
  | KDone => KDone
  end.
Lemma foot_silent d nf fr lg (G : db -> kres) :
  (forall d', G d' = put d' (G d)) -> klog (mkms d nf fr lg) (G d) = lg -> kfoot d nf fr lg (G d) G.
Proof.
  intros E El. exists []. split; [exact El|]. split.
  - intros _. rewrite (E d). destruct (G d); apply dbK_refl.
  - intros _ d2 HK. rewrite (E d2), (E d).
    destruct (G d); cbn [put kagree]; try split; try reflexivity; apply agreeK_mk; exact HK.
Qed.

(* [apply] does not find G; [refine] does *)
Ltac silent := refine (foot_silent _ _ _ _ _ _ _); reflexivity.

Lemma lift_m_silent m x : klog m (lift_m m x) = mlog m /\ kdb m (lift_m m x) = mdb m.
Proof. destruct x; split; reflexivity. Qed.
Lemma foot_lift d nf fr lg x :
  kfoot d nf fr lg (lift_m (mkms d nf fr lg) x) (fun d2 => lift_m (mkms d2 nf fr lg) x).
Proof. apply (foot_silent d nf fr lg (fun d2 => lift_m (mkms d2 nf fr lg) x)); destruct x; reflexivity. Qed.

Lemma dbstep_foot h0 fresh newid d nf fr lg b tr cnt t gs r :
  kfoot d nf fr lg (dbstep h0 fresh newid (mkms d nf fr lg) b tr cnt t gs r)
        (fun d2 => dbstep h0 fresh newid (mkms d2 nf fr lg) b tr cnt t gs r).
Proof.
  unfold dbstep. cbn [mdb mnf mlog mfr].
  destruct b as [app| |]; destruct (callable (den2 (tr ++ h0) t)) as [[nm fa]|]; try silent.
  - eexists [_]. split; [reflexivity|]. split.
    + intros HL. apply dbK_set_out. exact (Forall_inv HL eq_refl).
    + intros HL d2 HK. cbn beta. rewrite <- (proj2 (proj2 HK) nm (length fa) (Forall_inv HL)).
      apply agreeK_mk. apply dbK_set. exact HK.
  - eexists [_]. split; [reflexivity|]. split; [intros _; apply dbK_refl|].
    intros HL d2 HK. cbn beta. rewrite <- (proj2 (proj2 HK) nm (length fa) (Forall_inv HL)). apply agreeK_mk. exact HK.
  - destruct (retract_list (tr ++ h0) (fun i => fresh (cnt + i)) fa (find_facts d nm (length fa))) as [keep|] eqn:ER.
    + eexists [_]. split; [reflexivity|]. split.
      * intros HL. apply dbK_set_out. exact (Forall_inv HL eq_refl).
      * intros HL d2 HK. cbn beta. rewrite <- (proj2 (proj2 HK) nm (length fa) (Forall_inv HL)), ER.
        apply agreeK_mk. apply dbK_set. exact HK.
    + eexists [_]. split; [reflexivity|]. split; [intros _; apply dbK_refl|].
      intros HL d2 HK. cbn beta. rewrite <- (proj2 (proj2 HK) nm (length fa) (Forall_inv HL)), ER.
      split; [reflexivity|]. apply agreeK_mk. exact HK.
Qed.

Lemma sstep_foot h0 fresh newid d nf fr lg :
  kfoot d nf fr lg (sstep h0 fresh newid (mkms d nf fr lg)) (fun d2 => sstep h0 fresh newid (mkms d2 nf fr lg)).
Proof.
  unfold sstep. cbn [mfr mdb mnf mlog].
  destruct fr as [|f r]; [silent|].
  destruct f as [tr cnt gs|tr cnt args f gs|tr cnt fn args gs|tr cnt args cl gs|tr cnt nm args f gs| |tr cnt gs
                 |tr cnt bag acc nc gs]; try apply foot_lift.
  - destruct gs as [|[nm args] gs]; [silent|].
    destruct (ctl_goal h0 fresh tr cnt nm args gs r) as [x|]; [apply foot_lift|].
    eexists [_]. split; [reflexivity|]. split; [intros _; apply dbK_refl|].
    intros HL d2 HK. cbn beta.
    rewrite <- (proj2 (proj2 HK) nm (length args) (Forall_inv HL)), <- (find_function_dbK _ _ nm (length args) HK).
    apply agreeK_mk. exact HK.
  - destruct (unify_arrays2 UF (tr ++ h0) args (map (rn (fun i => fresh (cnt + i))) f)); silent.
  - destruct fn as [ds|]; [|silent].
    destruct (meta_builtin ds) as [mb|]; [apply foot_lift|].
    destruct (db_builtin ds) as [b|].
    + destruct args as [|t [|t2 args]]; [silent|apply dbstep_foot|silent].
    + destruct (clauses_of ds); silent.
  - destruct (unify_arrays2 UF (tr ++ h0) args (fst (rn_clause (fun i => fresh (cnt + i)) cl)));
      silent.
  - destruct (unify_arrays2 UF (tr ++ h0) args (map (rn (fun i => fresh (cnt + i))) (fargs f)));
      try silent.
    destruct (has_id (fid f) (find_facts d nm (length args))) eqn:EH.
    + eexists [_]. split; [reflexivity|]. split.
      * intros HL. apply dbK_set_out. exact (Forall_inv HL eq_refl).
      * intros HL d2 HK. cbn beta. rewrite <- (proj2 (proj2 HK) nm (length args) (Forall_inv HL)), EH.
        apply agreeK_mk. apply dbK_set. exact HK.
    + eexists [_]. split; [reflexivity|]. split; [intros _; apply dbK_refl|].
      intros HL d2 HK. cbn beta. rewrite <- (proj2 (proj2 HK) nm (length args) (Forall_inv HL)), EH. apply agreeK_mk. exact HK.
Qed.

Definition slog (r : sres) : list ev := match r with SAns _ m | SDone m | SErr _ m => mlog m end.
Definition sdb (r : sres) : db := match r with SAns _ m | SDone m | SErr _ m => mdb m end.

Definition sagree (r1 r2 : sres) : Prop :=
  match r1, r2 with
  | SAns t a, SAns t' b => t = t' /\ agreeK a b
  | SDone a, SDone b => agreeK a b
  | SErr k a, SErr k' b => k = k' /\ agreeK a b
  | _, _ => False
  end.

(* for an error the store of the last state reached is reported; cnext discards it *)
Definition sfoot (d : db) (lg : list ev) (r : sres) (G : db -> sres) : Prop :=
  exists pre, slog r = pre ++ lg
    /\ (Forall wrOut pre -> match r with SAns _ m' | SDone m' => dbK d (mdb m') | SErr _ _ => True end)
    /\ (Forall inK pre -> forall d2, dbK d d2 -> sagree r (G d2)).

Lemma search_foot h0 fresh newid : forall fuel d nf fr lg,
  sfoot d lg (search fuel h0 fresh newid (mkms d nf fr lg)) (fun d2 => search fuel h0 fresh newid (mkms d2 nf fr lg)).
Proof.
  induction fuel as [|fuel IH]; intros d nf fr lg; cbn [search].
  { exists []. split; [reflexivity|]. split; [intros _; exact I|].
    intros _ d2 HK. split; [reflexivity|]. apply agreeK_mk. exact HK. }
  destruct (sstep_foot h0 fresh newid d nf fr lg) as [p1 [E1 [W1 A1]]].
  destruct (sstep h0 fresh newid (mkms d nf fr lg)) as [[d1 nf1 fr1 lg1]|tr m1| |k m1]; cbn [klog kdb mlog mdb] in *.
  - destruct (IH d1 nf1 fr1 lg1) as [p2 [E2 [W2 A2]]]. subst lg1.
    exists (p2 ++ p1). split; [rewrite E2; apply app_assoc|]. split.
    + intros HL. apply Forall_app in HL as [H2 H1]. specialize (W1 H1). specialize (W2 H2).
      destruct (search fuel h0 fresh newid (mkms d1 nf1 fr1 (p1 ++ lg))); auto; eapply dbK_trans; eauto.
    + intros HL d2 HK. apply Forall_app in HL as [H2 H1]. specialize (A1 H1 d2 HK).
      destruct (sstep h0 fresh newid (mkms d2 nf fr lg)) as [[d1' nf1' fr1' lg1']| | |]; try contradiction.
      unfold kagree, agreeK in A1. cbn [mnf mfr mlog mdb] in A1. destruct A1 as [<- [<- [<- HK1]]]. apply A2; assumption.
  - exists p1. split; [exact E1|]. split; [exact W1|]. intros HL d2 HK. specialize (A1 HL d2 HK).
    destruct (sstep h0 fresh newid (mkms d2 nf fr lg)); try contradiction. exact A1.
  - exists p1. split; [exact E1|]. split; [intros _; apply dbK_refl|]. intros HL d2 HK. specialize (A1 HL d2 HK).
    destruct (sstep h0 fresh newid (mkms d2 nf fr lg)); try contradiction. apply agreeK_mk. exact HK.
  - exists p1. split; [exact E1|]. split; [intros _; exact I|]. intros HL d2 HK. specialize (A1 HL d2 HK).
    destruct (sstep h0 fresh newid (mkms d2 nf fr lg)); try contradiction. exact A1.
Qed.

Lemma cnext_foot fuel d1 fresh h c c' h' r lg d1' : cnext fuel d1 fresh h c = (c', h', r, lg, d1') ->
  (Forall wrOut lg -> dbK d1 d1')
  /\ (Forall inK lg -> forall d2, dbK d1 d2 -> exists d2', cnext fuel d2 fresh h c = (c', h', r, lg, d2') /\ dbK d1' d2').
Proof.
  unfold cnext. intros E.
  destruct (search_foot (unbind (ctrail c) h) fresh (qfid (cown c)) fuel d1 (cnf c) (cfr c) []) as [pre [Ep [W A]]].
  rewrite app_nil_r in Ep.
  destruct (search fuel (unbind (ctrail c) h) fresh (qfid (cown c)) (mkms d1 (cnf c) (cfr c) [])) as [tr m|m|k m];
    injection E; intros <- <- <- <- <-; cbn [slog] in Ep; subst pre.
  - split; [exact W|]. intros HL d2 HK. specialize (A HL d2 HK).
    destruct (search fuel (unbind (ctrail c) h) fresh (qfid (cown c)) (mkms d2 (cnf c) (cfr c) [])) as [tr2 m2|m2|k2 m2];
      try contradiction.
    destruct A as [<- [A1 [A2 [A3 A4]]]]. exists (mdb m2). rewrite <- A1, <- A2, <- A3. split; [reflexivity|exact A4].
  - split; [exact W|]. intros HL d2 HK. specialize (A HL d2 HK).
    destruct (search fuel (unbind (ctrail c) h) fresh (qfid (cown c)) (mkms d2 (cnf c) (cfr c) [])) as [tr2 m2|m2|k2 m2];
      try contradiction.
    destruct A as [A1 [A2 [A3 A4]]]. exists (mdb m2). rewrite <- A1, <- A3. split; [reflexivity|exact A4].
  - split; [intros _; apply dbK_refl|]. intros HL d2 HK. specialize (A HL d2 HK).
    destruct (search fuel (unbind (ctrail c) h) fresh (qfid (cown c)) (mkms d2 (cnf c) (cfr c) [])) as [tr2 m2|m2|k2 m2];
      try contradiction.
    destruct A as [<- [A1 [A2 [A3 A4]]]]. exists d2. rewrite <- A3. split; [reflexivity|exact HK].
Qed.

Corollary cnext_agree fuel d1 d2 fresh h c c' h' r lg d1' : dbK d1 d2 ->
  cnext fuel d1 fresh h c = (c', h', r, lg, d1') -> Forall inK lg ->
  exists d2', cnext fuel d2 fresh h c = (c', h', r, lg, d2') /\ dbK d1' d2'.
Proof. intros HK E HL. exact (proj2 (cnext_foot _ _ _ _ _ _ _ _ _ _ E) HL d2 HK). Qed.

Corollary cnext_writes fuel d fresh h c c' h' r lg d' :
  cnext fuel d fresh h c = (c', h', r, lg, d') -> Forall wrOut lg -> dbK d d'.
Proof. intros E. exact (proj1 (cnext_foot _ _ _ _ _ _ _ _ _ _ E)). Qed.

Lemma cdrain_foot fresh : forall n fuel d1 h c acc lg c' h' answers err lg' d1',
  cdrain n fuel d1 fresh h c acc lg = (c', h', answers, err, lg', d1') ->
  exists l, lg' = l ++ lg
    /\ (Forall wrOut l -> dbK d1 d1')
    /\ (Forall inK l -> forall d2, dbK d1 d2 ->
        exists d2', cdrain n fuel d2 fresh h c acc lg = (c', h', answers, err, lg', d2') /\ dbK d1' d2').
Proof.
  induction n as [|n IH]; intros fuel d1 h c acc lg c' h' answers err lg' d1' E; cbn [cdrain] in *.
  { injection E as <- <- <- <- <- <-. exists []. split; [reflexivity|]. split; [intros _; apply dbK_refl|].
    intros _ d2 HK. exists d2. split; [reflexivity|exact HK]. }
  destruct (cnext fuel d1 fresh h c) as [[[[c1 h1] r] l1] dm] eqn:E1.
  destruct (cnext_foot _ _ _ _ _ _ _ _ _ _ E1) as [W1 A1].
  destruct r as [vals| |k].
  - destruct (IH _ _ _ _ _ _ _ _ _ _ _ _ E) as [l [-> [W2 A2]]].
    exists (l ++ l1). split; [apply app_assoc|]. split.
    + intros HL. apply Forall_app in HL as [H2 H1]. eapply dbK_trans; [exact (W1 H1)|exact (W2 H2)].
    + intros HL d2 HK. apply Forall_app in HL as [H2 H1].
      destruct (A1 H1 d2 HK) as [dm2 [E2 HK2]]. rewrite E2. exact (A2 H2 dm2 HK2).
  - injection E as <- <- <- <- <- <-. exists l1. split; [reflexivity|]. split; [exact W1|].
    intros HL d2 HK. destruct (A1 HL d2 HK) as [dm2 [E2 HK2]]. rewrite E2. exists dm2. split; [reflexivity|exact HK2].
  - injection E as <- <- <- <- <- <-. exists l1. split; [reflexivity|]. split; [exact W1|].
    intros HL d2 HK. destruct (A1 HL d2 HK) as [dm2 [E2 HK2]]. rewrite E2. exists dm2. split; [reflexivity|exact HK2].
Qed.

End FP.
