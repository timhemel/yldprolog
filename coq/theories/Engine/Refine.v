(* machine_refines_irsem: the small-step frame machine (GenMachine / IRMachine: generator objects,
   suspension at `yield`, resumption, an explicit stack of open iterators, destructive bindings
   undone by `finally`) and the big-step semantics of the intermediate code (Sem/IRSem.v,
   Sem/Machine.v: answer LISTS of persistent stores) are the same object:

     for every IR program whose function bodies declare their variables at the top level (every
     compiled program does), every query, every well-formed heap h and cell counter nx, every
     recursion limit d:  resuming the query's generator object until it ends yields, in order,
     exactly the stores of  QueryFacts.queryF ir DB d name args {sto := h; nxt := nx},  and it ends
     by StopIteration / by an exception exactly as the big-step semantics says.

   The proof uses the restoration theorems of Restore.v: when control comes back to a suspended
   iterator, the heap is again the one at which it was suspended. *)
From Coq Require Import String.
From Coq Require Import List Arith Bool Lia ZArith NArith.
Import ListNotations.
From YP Require Import Base.Str Term.Term Term.Fast Term.Dfast Unify.Unify Unify.Fast Unify.UnifyGen Unify.UnifyGenFast Comp.IR Comp.CompileBody
  Sem.IRSem Sem.ExecMono Sem.Machine Engine.GenMachine Engine.Restore Engine.MachineMono Engine.IRMachine Engine.QueryFacts.
Local Open Scope string_scope.
Local Open Scope list_scope.

Definition nofacts : str -> nat -> list fact := fun _ _ => [].
Definition nouser : str -> list term -> option (code lx fr callp * fr) := fun _ _ => None.

(* function bodies as the compiler produces them: assignments (head aliases, variable
   declarations) only at the top level of the body, never inside a loop or block *)
Fixpoint noassign (s : stmt) : bool :=
  let nl := fix nl (c : list stmt) : bool := match c with [] => true | s :: r => noassign s && nl r end in
  match s with
  | SAssign _ _ => false
  | SForeach _ body => nl body
  | SBlock _ body => nl body
  | _ => true
  end.
Fixpoint noassign_list (c : list stmt) : bool := match c with [] => true | s :: r => noassign s && noassign_list r end.
Definition top_stmt (s : stmt) : bool := match s with SAssign _ _ => true | _ => noassign s end.
Definition top_ok (c : list stmt) : bool := forallb top_stmt c.
Definition ir_ok (ir : ir_program) : Prop := forall f, In f ir -> top_ok (fn_body f) = true.

Lemma find_func_in p name ar f : find_func p name ar = Some f -> In f p.
Proof.
  induction p as [|g r IH]; simpl; [discriminate|].
  destruct (str_eqb (fn_name g) name && Nat.eqb (fn_arity g) ar).
  - intros [= <-]. auto.
  - intros H. auto.
Qed.

Definition callT := str -> list term -> st -> list st * bool.

(* Any machine program `prog` (what a call `query(name, args)` runs) and any big-step call semantics
   `BQ d` (d = remaining depth).  Everything up to FSpec_nexts / gen_refines depends on the two only
   through CallOK: "the generator object of a call yields the answers of BQ d". *)
Section Gen.
  Variable prog : callp -> code lx fr callp * fr.
  Variable BQ : nat -> callT.
  Definition mq (name : str) (args : list term) (nx : nat) : GenMachine.iter leaf lx fr callp :=
    IFresh (fst (prog (name, args, nx))) (snd (prog (name, args, nx))).
  Notation mexec := (exec mkleaf lnext lclose prog f_nxt).
  Notation mcont := (cont mkleaf lnext lclose prog f_nxt).
  Notation mloop := (loop mkleaf lnext lclose prog f_nxt).
  Notation minext := (inext mkleaf lnext lclose prog f_nxt).
  Notation miter := (GenMachine.iter leaf lx fr callp).
  Notation mkont := (kont leaf lx fr callp).
  Notation mcode := (code lx fr callp).
  Notation MInv := (@Inv leaf lx fr callp linv).
  Notation mclose := (iclose (L:=leaf) (X:=lx) (E:=fr) (P:=callp) lclose).
  Notation munwind := (unwind (L:=leaf) (X:=lx) (E:=fr) (P:=callp) lclose).
  Notation mres := (option (heap * miter * GenMachine.res)).
  Notation kn := (knxt (L:=leaf) (X:=lx) (P:=callp) f_nxt).

  Definition it_nxt (g0 : nat) (it : miter) : nat := match it with ISusp kk ee => kn kk ee | _ => g0 end.
  Lemma kn_loop it b k e : kn (KLoop it b k) e = it_nxt (kn k e) it.
  Proof. destruct it; reflexivity. Qed.
  Lemma kn_nxt k : forall e e', f_nxt e = f_nxt e' -> kn k e = kn k e'.
  Proof.
    induction k as [|c k IH|it b k IH]; intros e e' H; cbn [knxt]; auto.
    destruct it; auto.
  Qed.
  Lemma kn_setfl k e f : kn k (setfl e f) = kn k e.
  Proof. apply kn_nxt. reflexivity. Qed.
  Lemma kn_set_fl k e g : kn k (set_fl g e) = kn k e.
  Proof. apply kn_nxt. reflexivity. Qed.
  Lemma setfl_same e : setfl e (f_fl e) = e.
  Proof. destruct e; reflexivity. Qed.
  Lemma mkst_eta x : mkst (sto x) (nxt x) = x.
  Proof. destruct x; reflexivity. Qed.

  (* "F, given enough fuel, yields the states xs one after the other and then ends with rf".  After an
     answer the suspended iterator is resumed under the recursion limit D (the body of a frame runs at d,
     its consumer resumes it at D = S d).  The cell counter of an answer is that of the suspended frame;
     an iterator that is not a frame has none of its own: g0, the counter current where it is consumed. *)
  Fixpoint FSpec (D g0 : nat) (xs : list st) (rf : GenMachine.res) (F : nat -> mres) : Prop :=
    match xs with
    | [] => exists N hf it', forall n, N <= n -> F n = Some (hf, it', rf)
    | x :: r => exists N it', (forall n, N <= n -> F n = Some (sto x, it', RYield)) /\
                  it_nxt g0 it' = nxt x /\ wf (sto x) /\
                  FSpec D g0 r rf (fun n => minext n D (sto x) it')
    end.

  Lemma FSpec_ev D g0 xs rf (F G : nat -> mres) :
    (exists N0 a b, forall n, N0 <= n -> F (a + n) = G (b + n)) -> FSpec D g0 xs rf G -> FSpec D g0 xs rf F.
  Proof.
    intros [N0 [a [b E]]] H. destruct xs as [|x r]; cbn [FSpec] in *.
    - destruct H as [N [hf [it' H]]]. exists (a + N0 + N), hf, it'. intros n L.
      replace n with (a + (n - a)) by lia. rewrite E by lia. apply H. lia.
    - destruct H as [N [it' [H R]]]. exists (a + N0 + N), it'. split; auto. intros n L.
      replace n with (a + (n - a)) by lia. rewrite E by lia. apply H. lia.
  Qed.
  Lemma FSpec_S D g0 xs rf (F G : nat -> mres) :
    (forall n, F (S n) = G n) -> FSpec D g0 xs rf G -> FSpec D g0 xs rf F.
  Proof. intros E. apply FSpec_ev. exists 0, 1, 0. intros n _. apply E. Qed.

  Lemma FSpec_skip D g0 xs rf d h k e :
    FSpec D g0 xs rf (fun n => mcont n d h k e) -> FSpec D g0 xs rf (fun n => mexec n d h CSkip k e).
  Proof. apply FSpec_S. reflexivity. Qed.
  Lemma FSpec_seq D g0 xs rf d h a b k e :
    FSpec D g0 xs rf (fun n => mexec n d h a (KSeq b k) e) -> FSpec D g0 xs rf (fun n => mexec n d h (CSeq a b) k e).
  Proof. apply FSpec_S. reflexivity. Qed.
  Lemma FSpec_for D g0 xs rf d h ex B k e :
    FSpec D g0 xs rf (fun n => mloop n d h (mkiter mkleaf prog (ex (kn k e) e h) h) B k e) ->
    FSpec D g0 xs rf (fun n => mexec n d h (CFor ex B) k e).
  Proof. apply FSpec_S. reflexivity. Qed.
  Lemma FSpec_assign D g0 xs rf d h f k e :
    FSpec D g0 xs rf (fun n => mcont n d h k (f (kn k e) e h)) -> FSpec D g0 xs rf (fun n => mexec n d h (CAssign f) k e).
  Proof. apply FSpec_S. reflexivity. Qed.
  Lemma FSpec_if D g0 xs rf d h (c : fr -> bool) a k e :
    FSpec D g0 xs rf (fun n => if c e then mexec n d h a k e else mcont n d h k e) ->
    FSpec D g0 xs rf (fun n => mexec n d h (CIf c a) k e).
  Proof. apply FSpec_S. reflexivity. Qed.
  Lemma FSpec_break_seq D g0 xs rf d h c k e :
    FSpec D g0 xs rf (fun n => mexec n d h CBreak k e) -> FSpec D g0 xs rf (fun n => mexec n d h CBreak (KSeq c k) e).
  Proof. apply FSpec_ev. exists 0, 1, 1. reflexivity. Qed.
  Lemma FSpec_break_loop D g0 xs rf d h it B k e :
    FSpec D g0 xs rf (fun n => mcont n d (mclose h it) k e) -> FSpec D g0 xs rf (fun n => mexec n d h CBreak (KLoop it B k) e).
  Proof. apply FSpec_S. reflexivity. Qed.
  Lemma FSpec_cont_seq D g0 xs rf d h c k e :
    FSpec D g0 xs rf (fun n => mexec n d h c k e) -> FSpec D g0 xs rf (fun n => mcont n d h (KSeq c k) e).
  Proof. apply FSpec_S. reflexivity. Qed.
  Lemma FSpec_cont_loop D g0 xs rf d h it B k e :
    FSpec D g0 xs rf (fun n => mloop n d h it B k e) -> FSpec D g0 xs rf (fun n => mcont n d h (KLoop it B k) e).
  Proof. apply FSpec_S. reflexivity. Qed.
  Lemma FSpec_end D g0 rf (F : nat -> mres) hf it :
    (forall n, F (S n) = Some (hf, it, rf)) -> FSpec D g0 [] rf F.
  Proof. intros E. exists 1, hf, it. intros [|n] L; [lia|apply E]. Qed.
  Arguments FSpec_end {D g0 rf F hf it} _.

  Definition ISpec (D : nat) (h0 : heap) (g0 : nat) (r : list st * bool) (h : heap) (it : miter) : Prop :=
    FSpec D g0 (fst r) (if snd r then RRaise else RStop) (fun n => minext n D h it) /\ MInv h0 it h.

  (* The simulation, statement by statement.  J d, XL d, XS d: the big-step semantics of iterator
     expressions, statement lists and statements, calls answered by BQ d.
     Kont g0 d kc h k e ys rf: what comes after a piece of code that completed with kc - in the frame with
     continuation k and local state e, under the heap h - yields ys and ends with rf.  After normal
     completion k runs; after a break the `break` is executed in front of k (it finds its loop there); a
     return or an exception ends the frame at once.
     SimQ Q d B run k: the code B in front of k does what `run` says.  If run, started in the configuration
     the frame is in, gives the answers xs, the completion kc and the flags f', and what comes after yields
     ys, then the machine yields xs, then ys.  The local state in which "what comes after" starts is known
     up to Q.  Qs: it is the old one with the flags f' (a statement below the top level of a function body
     changes nothing else).  Qt: only its flags are known (the top-level assignments of a function body
     change environment and cell counter too). *)
  Definition J (d : nat) := Machine.iter (BQ d).
  Definition XL (d : nat) := IRSem.exec_list (J d) assign.
  Definition XS (d : nat) := IRSem.exec_stmt (J d) assign.

  Definition Kont (g0 d : nat) (kc : compl) (h : heap) (k : mkont) (e : fr) (ys : list st) (rf : GenMachine.res) : Prop :=
    match kc with
    | CNorm => FSpec (S d) g0 ys rf (fun n => mcont n d h k e)
    | CBrk => FSpec (S d) g0 ys rf (fun n => mexec n d h CBreak k e)
    | CRet => ys = [] /\ rf = RStop
    | CErr => ys = [] /\ rf = RRaise
    end.

  Definition Qs (e : fr) (f' : flags) (e2 : fr) : Prop := e2 = setfl e f'.
  Definition Qt (e : fr) (f' : flags) (e2 : fr) : Prop := f_fl e2 = f'.
  Lemma Qs_elim (P : fr -> Prop) e f : P (setfl e f) -> forall e2, Qs e f e2 -> P e2.
  Proof. intros H e2 E. unfold Qs in E. subst e2. exact H. Qed.

  Definition SimQ (Q : fr -> flags -> fr -> Prop) (d : nat) (B : mcode)
      (run : cfg -> flags -> list cfg * compl * flags) (k : mkont) : Prop :=
    forall g0 e h xs kc f' ys rf, wf h ->
      run (f_env e, mkst h (kn k e)) (f_fl e) = (xs, kc, f') ->
      (forall e2, Q e f' e2 -> Kont g0 d kc h k e2 ys rf) ->
      FSpec (S d) g0 (map snd xs ++ ys) rf (fun n => mexec n d h B k e).
  Notation Sim := (SimQ Qs).

  Lemma restore_next n d h0 it h h' it' r :
    MInv h0 it h -> minext n d h it = Some (h', it', r) ->
    MInv h0 it' h' /\ (r = RStop -> h' = h0) /\ mclose h' it' = h0.
  Proof. apply (frame_next_restores mkleaf lnext lclose prog f_nxt L_new L_next L_close). Qed.
  Lemma restore_close h0 it h : MInv h0 it h -> mclose h it = h0.
  Proof. apply (iclose_restores lclose L_close). Qed.
  Arguments restore_next {n d h0 it h h' it' r}.
  Arguments restore_close {h0 it h}.

  Lemma loop_end d h0 g err hcur itcur (B : mcode) k e g0 ys rf :
    ISpec d h0 g ([], err) hcur itcur ->
    Kont g0 d (if err then CErr else CNorm) h0 k e ys rf ->
    FSpec (S d) g0 ys rf (fun n => mloop n d hcur itcur B k e).
  Proof.
    intros [HF HI] HK. cbn [fst snd FSpec] in HF. destruct HF as [N [hf [it' HF]]].
    destruct (restore_next HI (HF N (le_n N))) as [_ [S' _]].
    destruct err; cbn [Kont] in HK.
    - destruct HK as [-> ->]. exists (S N), (munwind (mclose hf it') k), IDone. intros [|n] L; [lia|].
      rewrite loop_S, (HF n) by lia. reflexivity.
    - rewrite (S' eq_refl) in HF. eapply FSpec_ev; [|exact HK]. exists N, 1, 0. intros n L.
      cbn [Nat.add]. rewrite loop_S, (HF n) by lia. reflexivity.
  Qed.
  Arguments loop_end {d h0 g err hcur itcur B k e g0 ys rf} _ _.

  Lemma loop_next d h0 g x r err hcur itcur (B : mcode) k e g0 ys rf :
    ISpec d h0 g (x :: r, err) hcur itcur ->
    (forall it', it_nxt g it' = nxt x -> wf (sto x) -> ISpec d h0 g (r, err) (sto x) it' ->
       FSpec (S d) g0 ys rf (fun n => mexec n d (sto x) B (KLoop it' B k) e)) ->
    FSpec (S d) g0 ys rf (fun n => mloop n d hcur itcur B k e).
  Proof.
    intros [HF HI] HB. cbn [fst snd FSpec] in HF. destruct HF as [N [it' [HF [Gn [Wx HR]]]]].
    destruct (restore_next HI (HF N (le_n N))) as [I' _].
    eapply FSpec_ev; [|exact (HB it' Gn Wx (conj HR I'))].
    exists N, 1, 0. intros n L. cbn [Nat.add]. rewrite loop_S, (HF n) by lia. reflexivity.
  Qed.
  Arguments loop_next {d h0 g x r err hcur itcur B k e g0 ys rf} _ _.

  Lemma break_loop D g0 xs rf d h0 h it (B : mcode) k e :
    MInv h0 it h ->
    FSpec D g0 xs rf (fun n => mcont n d h0 k e) -> FSpec D g0 xs rf (fun n => mexec n d h CBreak (KLoop it B k) e).
  Proof. intros I H. apply FSpec_break_loop. rewrite (restore_close I). exact H. Qed.
  Arguments break_loop {D g0 xs rf d h0 h it B k e} _ _.

  Lemma loop_sim d (B : mcode) (k : mkont) (body : cfg -> flags -> list cfg * compl * flags) :
    (forall it', Sim d B body (KLoop it' B k)) ->
    forall g0 xs_it err h0 r_env e hcur itcur res_xs kc f' ys rf, f_env e = r_env ->
      ISpec d h0 (kn k e) (xs_it, err) hcur itcur ->
      IRSem.loop body err (map (fun x => (r_env, x)) xs_it) (f_fl e) = (res_xs, kc, f') ->
      Kont g0 d kc h0 k (setfl e f') ys rf ->
      FSpec (S d) g0 (map snd res_xs ++ ys) rf (fun n => mloop n d hcur itcur B k e).
  Proof.
    intros HB g0 xs_it err h0 r_env.
    induction xs_it as [|x r IH]; intros e hcur itcur res_xs kc f' ys rf Er HI HL HK; cbn [map IRSem.loop] in HL.
    - injection HL as <- <- <-. rewrite setfl_same in HK. exact (loop_end HI HK).
    - apply (loop_next HI). intros it' Gn Wx HR.
      assert (Est: (r_env, x) = (f_env e, mkst (sto x) (kn (KLoop it' B k) e))).
      { rewrite kn_loop, Gn, mkst_eta, Er. reflexivity. }
      rewrite Est in HL.
      destruct (body (f_env e, mkst (sto x) (kn (KLoop it' B k) e)) (f_fl e)) as [[ysb kb] f1] eqn:Eb.
      pose proof (fun ys' => HB it' g0 e (sto x) ysb kb f1 ys' rf Wx Eb) as HS.
      destruct kb.
      + destruct (IRSem.loop body err (map (fun x0 => (r_env, x0)) r) f1) as [[zs k2] f2] eqn:El.
        injection HL as <- <- <-. rewrite map_app, <- app_assoc. apply HS.
        apply Qs_elim, FSpec_cont_loop.
        apply (IH (setfl e f1) (sto x) it' zs k2 f2 ys rf Er); [|exact El|exact HK].
        rewrite kn_setfl. exact HR.
      + injection HL as <- <- <-. apply HS.
        apply Qs_elim, (break_loop (proj2 HR)). exact HK.
      + injection HL as <- <- <-. apply HS. intros e2 _. exact HK.
      + injection HL as <- <- <-. apply HS. intros e2 _. exact HK.
  Qed.

  (* `for _ in [1]: body` *)
  Definition K1 (B : mcode) (k : mkont) : mkont := KLoop (ILeaf (LGen (GSucc true))) B k.
  Lemma one_sim Q d (B : mcode) (k : mkont) (body : cfg -> flags -> list cfg * compl * flags) :
    SimQ Q d B body (K1 B k) ->
    forall g0 e h xs kb f1 ys rf, wf h ->
      body (f_env e, mkst h (kn k e)) (f_fl e) = (xs, kb, f1) ->
      (forall e2, Q e f1 e2 -> Kont g0 d (match kb with CBrk => CNorm | _ => kb end) h k e2 ys rf) ->
      FSpec (S d) g0 (map snd xs ++ ys) rf (fun n => mexec n d h (CFor one_expr B) k e).
  Proof.
    intros HB g0 e h xs kb f1 ys rf W Eb HK.
    eapply FSpec_ev; [|eapply (HB g0 e h xs kb f1 ys rf W); [exact Eb|]].
    - (* the list iterator delivers its one element *)
      exists 1, 3, 1. intros [|n] L; [lia|]. reflexivity.
    - intros e2 Q2. specialize (HK e2 Q2). destruct kb; cbn [Kont] in *; auto.
      + (* ... and is then exhausted *)
        eapply FSpec_ev; [|exact HK]. exists 1, 3, 1. intros [|n] L; [lia|]. reflexivity.
      + apply FSpec_break_loop. exact HK.
  Qed.

  Lemma ispec_raise d h g0 : ISpec d h g0 ([], true) h (ILeaf LRaise).
  Proof.
    split; [|constructor; reflexivity]. eapply FSpec_end. reflexivity.
  Qed.

  Lemma unify_fast_mono n m s a b r : unify_fast n s a b = r -> r <> UOof -> n <= m -> unify_fast m s a b = r.
  Proof. rewrite !unify_fast_eq. apply unify_mono. Qed.

  Definition ures_st (r : ures) (g : nat) : list st * bool :=
    match r with
    | UOk s' => ([mkst s' g], false)
    | UFail => ([], false)
    | UOof | UCyc => ([], true)
    end.

  Lemma leaf_next D N h gn h' g' y : next N h gn = Some (h', g', y) ->
    forall n, S N <= n -> minext n D h (ILeaf (LGen gn)) = Some (h', ILeaf (LGen g'), if y then RYield else RStop).
  Proof.
    intros H [|n] L; [lia|]. rewrite inext_S. cbn [lnext]. rewrite next_x_eq, (@next_mono N n _ _ _ H) by lia. reflexivity.
  Qed.
  Arguments leaf_next {D N h gn h' g' y} _ n _.

  Lemma ispec_gen d h g (gn : gen) (r : ures) N : fresh gn ->
    (forall s', r = UOk s' -> wf s' /\ exists g1, next N h gn = Some (s', g1, true)) ->
    (r = UFail -> exists g1, next N h gn = Some (h, g1, false)) ->
    ISpec d h g (ures_st r g) h (ILeaf (match r with UOof | UCyc => LRaise | _ => LGen gn end)).
  Proof.
    intros F HO HF.
    assert (I0: MInv h (ILeaf (LGen gn)) h) by (constructor; left; split; [exact F|reflexivity]).
    destruct r as [s'| | |].
    - split; [|exact I0]. cbn [ures_st fst snd FSpec].
      destruct (HO s' eq_refl) as [W' [g1 N1]].
      pose proof (@next_fresh N h gn _ F N1) as [[Q1 _] _].
      destruct (quiet_next_total Q1 s') as [n2 [[[h2 g2] y2] N2]].
      destruct (@next_quiet n2 g1 s' h2 g2 y2 Q1 N2) as [-> _].
      exists (S N), (ILeaf (LGen g1)). cbn [sto nxt mkst it_nxt]. repeat split; auto.
      + exact (leaf_next N1).
      + exists (S n2), h2, (ILeaf (LGen g2)). exact (leaf_next N2).
    - split; [|exact I0]. cbn [ures_st fst snd FSpec].
      destruct (HF eq_refl) as [g1 N1]. exists (S N), h, (ILeaf (LGen g1)). exact (leaf_next N1).
    - apply ispec_raise.
    - apply ispec_raise.
  Qed.

  (* (stated with the store as a variable: converting `unify_fast ufuel (sto (mkst h g)) a b` with
     `unify_fast ufuel h a b` below other definitions makes the checker unfold the unification) *)
  Lemma unify_st_eq s a b : unify_st s a b = ures_st (unify_fast ufuel (sto s) a b) (nxt s).
  Proof. unfold unify_st, ures_st. reflexivity. Qed.

  Lemma ispec_unify d h g a b : wf h ->
    ISpec d h g (unify_st (mkst h g) a b) h (ILeaf (mkleaf (XUnify a b) h)).
  Proof.
    intros W. rewrite unify_st_eq. cbn [mkleaf sto nxt mkst]. rewrite mk_unify_x_eq, unify_x_eq, unify_fast_eq.
    destruct (@unify_gen_matches_unify ufuel h a b W) as [A B].
    apply (ispec_gen d h g (mk_unify h a b) (unify ufuel h a b) ufuel (mk_unify_fresh h a b)).
    - intros s' U. split; [exact (proj1 (@unify_sound ufuel h a b s' W U))|]. destruct (A _ U) as [g1 [N1 _]]. exists g1. exact N1.
    - exact B.
  Qed.

  Definition CallOK (d : nat) : Prop := forall g0 name args nx h, wf h ->
    ISpec d h g0 (BQ d name args (mkst h nx)) h (mq name args nx).

  Lemma ispec_iter d : CallOK d -> forall it (k : mkont) e h xs err, wf h ->
    J d it (f_env e, mkst h (kn k e)) = (xs, err) ->
    exists xs', xs = map (fun x => (f_env e, x)) xs' /\
      ISpec d h (kn k e) (xs', err) h (mkiter mkleaf prog (it_expr it (kn k e) e h) h).
  Proof.
    intros HC it k e h xs err W HJ. unfold J, Machine.iter in HJ. unfold it_expr.
    assert (R: forall xs' : list st, ([], true) = (xs, err) -> xs' = [] ->
               exists xs', xs = map (fun x => (f_env e, x)) xs' /\
                 ISpec d h (kn k e) (xs', err) h (ILeaf LRaise)).
    { intros _ E _. injection E as <- <-. exists []. split; [reflexivity|apply ispec_raise]. }
    destruct it as [v|q|q|f args|items]; try (apply (R [] HJ eq_refl)).
    destruct args as [|a [|b [|c rest]]]; try (apply (R [] HJ eq_refl)).
    destruct (str_eqb f (s_ "unify")).
    - destruct (unify_st (mkst h (kn k e)) (eval_expr (f_env e) a) (eval_expr (f_env e) b)) as [ys ee] eqn:U.
      injection HJ as <- <-. exists ys. split; [reflexivity|]. cbn [mkiter]. rewrite <- U. apply ispec_unify. exact W.
    - destruct (str_eqb f (s_ "query")); [|apply (R [] HJ eq_refl)].
      destruct a; try (apply (R [] HJ eq_refl)). destruct b; try (apply (R [] HJ eq_refl)).
      destruct (BQ d s (map (eval_expr (f_env e)) items) (mkst h (kn k e))) as [ys ee] eqn:U.
      injection HJ as <- <-. exists ys. split; [reflexivity|]. cbn [mkiter]. rewrite <- U. apply HC. exact W.
  Qed.

  Lemma brk_after g0 d h k e ys rf :
    Kont g0 d (if doBreak (f_fl e) then CBrk else CNorm) h k e ys rf ->
    FSpec (S d) g0 ys rf (fun n => mexec n d h brk_code k e).
  Proof.
    intros H. apply FSpec_if. cbn beta. destruct (doBreak (f_fl e)); exact H.
  Qed.

  Lemma FSpec_yield d g0 x k e xs rf : wf (sto x) -> nxt x = kn k e ->
    FSpec (S d) g0 xs rf (fun n => mcont n d (sto x) k e) ->
    FSpec (S d) g0 (x :: xs) rf (fun n => mexec n d (sto x) CYield k e).
  Proof.
    intros W G H. exists 1, (ISusp k e). cbn [it_nxt]. repeat split; auto.
    - intros [|n] L; [lia|]. reflexivity.
    - apply (FSpec_S _ _ _ _ _ _ (fun n => eq_refl)). exact H.
  Qed.

  Lemma sim_yield d k : Sim d CYield (fun s f => ([s], CNorm, f)) k.
  Proof.
    intros g0 e h xs kc f' ys rf W E HK. injection E as <- <- <-.
    specialize (HK _ eq_refl). rewrite setfl_same in HK.
    exact (FSpec_yield d g0 (mkst h (kn k e)) k e ys rf W eq_refl HK).
  Qed.

  Lemma sim_skip (Q : fr -> flags -> fr -> Prop) d k : (forall e, Q e (f_fl e) e) -> SimQ Q d CSkip (fun s f => ([], CNorm, f)) k.
  Proof.
    intros Qe g0 e h xs kc f' ys rf W E HK. injection E as <- <- <-. apply FSpec_skip. exact (HK e (Qe e)).
  Qed.

  Definition seq_run (ra rb : cfg -> flags -> list cfg * compl * flags) (c : cfg) (f : flags) : list cfg * compl * flags :=
    let '(ys, k, f1) := ra c f in
    match k with
    | CNorm => let '(zs, k2, f2) := rb c f1 in (ys ++ zs, k2, f2)
    | _ => (ys, k, f1)
    end.

  Lemma exec_list_seq (JJ : expr -> cfg -> list cfg * bool) s rest : noassign s = true -> forall c f,
    IRSem.exec_list JJ assign (s :: rest) c f = seq_run (IRSem.exec_stmt JJ assign s) (IRSem.exec_list JJ assign rest) c f.
  Proof. destruct s; [discriminate|reflexivity..]. Qed.

  Lemma sim_seq (Q : fr -> flags -> fr -> Prop) d (A B : mcode) ra rb k :
    (forall e f, Q e f (setfl e f)) -> (forall e f1 f' e2, Q (setfl e f1) f' e2 -> Q e f' e2) ->
    Sim d A ra (KSeq B k) -> SimQ Q d B rb k -> SimQ Q d (CSeq A B) (seq_run ra rb) k.
  Proof.
    intros Qr Qt' HA HB g0 e h xs kc f' ys rf W E HK. unfold seq_run in E. apply FSpec_seq.
    destruct (ra (f_env e, mkst h (kn k e)) (f_fl e)) as [[ys0 k0] f1] eqn:Ea.
    pose proof (fun ys' => HA g0 e h ys0 k0 f1 ys' rf W Ea) as HS.
    destruct k0.
    - destruct (rb (f_env e, mkst h (kn k e)) f1) as [[zs k2] f2] eqn:Eb.
      injection E as <- <- <-. rewrite map_app, <- app_assoc. apply HS.
      apply Qs_elim, FSpec_cont_seq.
      apply (HB g0 (setfl e f1) h zs k2 f2 ys rf W).
      + rewrite kn_setfl. exact Eb.
      + intros e2 Q2. exact (HK e2 (Qt' _ _ _ _ Q2)).
    - injection E as <- <- <-. apply HS, Qs_elim, FSpec_break_seq. exact (HK _ (Qr e f1)).
    - injection E as <- <- <-. apply HS. intros e2 _. exact (HK _ (Qr e f1)).
    - injection E as <- <- <-. apply HS. intros e2 _. exact (HK _ (Qr e f1)).
  Qed.

  Lemma Qs_trans e f1 f' e2 : Qs (setfl e f1) f' e2 -> Qs e f' e2.
  Proof. intros ->. reflexivity. Qed.

  Lemma nl_eq c : (fix nl (c : list stmt) : bool := match c with [] => true | s :: r => noassign s && nl r end) c = noassign_list c.
  Proof. induction c as [|s r IH]; cbn; [reflexivity|]. rewrite IH. reflexivity. Qed.
  Lemma noassign_foreach it body : noassign (SForeach it body) = noassign_list body.
  Proof. cbn [noassign]. apply nl_eq. Qed.
  Lemma noassign_block l body : noassign (SBlock l body) = noassign_list body.
  Proof. cbn [noassign]. apply nl_eq. Qed.

  (* if cutIfN: doBreak = False
     if doBreak: break *)
  Definition blk_a2 (l : nat) : mcode := CIf (fun e => lab (f_fl e) l) (CAssign (fun _ e _ => set_fl (setbrk false) e)).
  Lemma block_tail g0 d h k e3 l ys rf :
    let f2 := if lab (f_fl e3) l then setbrk false (f_fl e3) else f_fl e3 in
    Kont g0 d (if doBreak f2 then CBrk else CNorm) h k (setfl e3 f2) ys rf ->
    FSpec (S d) g0 ys rf (fun n => mexec n d h (CSeq (blk_a2 l) brk_code) k e3).
  Proof.
    intros f2 HK. apply FSpec_seq, FSpec_if. cbn beta. destruct (lab (f_fl e3) l); subst f2.
    - apply FSpec_assign, FSpec_cont_seq. apply (brk_after g0 d h k (setfl e3 (setbrk false (f_fl e3)))). exact HK.
    - rewrite setfl_same in HK. apply FSpec_cont_seq, brk_after. exact HK.
  Qed.

  Lemma sim_stmt d : CallOK d -> forall s, noassign s = true -> forall k, Sim d (tr_stmt s) (XS d s) k.
  Proof.
    intros HC.
    apply (stmt_ind2 (fun s => noassign s = true -> forall k, Sim d (tr_stmt s) (XS d s) k)
                     (fun c => noassign_list c = true -> forall k, Sim d (tr_list c) (XL d c) k)).
    - discriminate.
    - (* for lN in it: body; if doBreak: break *)
      intros it body HB NA k g0 e h xs kc f' ys rf W E HK.
      unfold XS in E. rewrite exec_stmt_eq in E. rewrite tr_stmt_eq.
      rewrite noassign_foreach in NA. specialize (HB NA).
      destruct (J d it (f_env e, mkst h (kn k e))) as [xs_it err] eqn:EJ.
      destruct (ispec_iter d HC it (KSeq brk_code k) e h xs_it err W EJ) as [xs' [-> HI]].
      destruct (IRSem.loop (IRSem.exec_list (J d) assign body) err (map (fun x => (f_env e, x)) xs') (f_fl e)) as [[lxs lk] lf] eqn:EL.
      apply FSpec_seq, FSpec_for.
      assert (Exs: lxs = xs) by (unfold after_loop in E; destruct lk; injection E as <- _ _; reflexivity). subst lxs.
      eapply loop_sim; [intros it'; apply HB|reflexivity|exact HI|exact EL|].
      unfold after_loop in E. destruct lk; injection E as <- <-; cbn [Kont].
      + apply FSpec_cont_seq, brk_after. exact (HK _ eq_refl).
      + apply FSpec_break_seq. exact (HK _ eq_refl).
      + exact (HK _ eq_refl).
      + exact (HK _ eq_refl).
    - intros _ k. exact (sim_yield d k).
    - intros _ k. exact (sim_yield d k).
    - intros _ k g0 e h xs kc f' ys rf W E HK. injection E as <- <- <-. destruct (HK _ eq_refl) as [-> ->].
      eapply FSpec_end. reflexivity.
    - (* breakable block *)
      intros l body HB NA k g0 e h xs kc f' ys rf W E HK.
      unfold XS in E. rewrite exec_stmt_eq in E. rewrite tr_stmt_eq.
      rewrite noassign_block in NA. specialize (HB NA).
      destruct (IRSem.exec_list (J d) assign body (f_env e, mkst h (kn k e)) (setlab l false (f_fl e))) as [[bxs bk] bf] eqn:EB.
      set (R2 := CSeq (blk_a2 l) brk_code).
      set (e1 := set_fl (setlab l false) e).
      assert (TL: bk = CNorm \/ bk = CBrk -> FSpec (S d) g0 ys rf (fun n => mexec n d h R2 k (setfl e bf))).
      { intros Hbk. apply block_tail. unfold end_block in E.
        destruct Hbk; subst bk; injection E as <- <- <-; exact (HK _ eq_refl). }
      apply FSpec_seq, FSpec_assign, FSpec_cont_seq, FSpec_seq.
      fold R2. fold e1.
      destruct body as [|b0 brest].
      + cbn in EB. injection EB as <- <- <-. apply FSpec_skip, FSpec_cont_seq.
        assert (Ex: xs = []) by (unfold end_block in E; injection E as <- _ _; reflexivity). subst xs.
        exact (TL (or_introl eq_refl)).
      + assert (Exs: bxs = xs) by (unfold end_block in E; destruct bk; injection E as <- _ _; reflexivity). subst bxs.
        apply (one_sim Qs d (tr_list (b0 :: brest)) (KSeq R2 k) (XL d (b0 :: brest)) (HB _) g0 e1 h xs bk bf ys rf W).
        * cbn [knxt]. unfold e1. rewrite kn_set_fl. exact EB.
        * apply Qs_elim. destruct bk; cbn [Kont].
          -- apply FSpec_cont_seq. exact (TL (or_introl eq_refl)).
          -- apply FSpec_cont_seq. exact (TL (or_intror eq_refl)).
          -- unfold end_block in E. injection E as <- <-. exact (HK _ eq_refl).
          -- unfold end_block in E. injection E as <- <-. exact (HK _ eq_refl).
    - (* cutIfN = True; doBreak = True; break *)
      intros l _ k g0 e h xs kc f' ys rf W E HK. injection E as <- <- <-.
      apply FSpec_seq, FSpec_assign, FSpec_cont_seq. exact (HK _ eq_refl).
    - intros _ k. apply sim_skip. intros e. symmetry. apply setfl_same.
    - intros s r Hs Hr NA k. cbn [noassign_list] in NA. apply andb_prop in NA as [NA1 NA2].
      intros g0 e h xs kc f' ys rf W E. unfold XL in E. rewrite (exec_list_seq _ s r NA1) in E.
      exact (sim_seq Qs d _ _ _ _ k (fun _ _ => eq_refl) Qs_trans (Hs NA1 _) (Hr NA2 k) g0 e h xs kc f' ys rf W E).
  Qed.

  Definition flat (k : mkont) : Prop := forall e, kn k e = f_nxt e.

  Lemma do_assign_spec x ex g e h :
    assign x ex (f_env e, mkst h g) = (f_env (do_assign x ex g e h), mkst h (f_nxt (do_assign x ex g e h)))
    /\ f_fl (do_assign x ex g e h) = f_fl e.
  Proof.
    split; [|unfold do_assign; destruct (assign x ex (f_env e, mkst h g)); reflexivity].
    unfold do_assign, assign. destruct ex as [v|q|q|f args|items]; try reflexivity.
    destruct args; [|reflexivity]. destruct (str_eqb f (s_ "variable")); reflexivity.
  Qed.

  Lemma sim_top d : CallOK d -> forall c, top_ok c = true -> forall k, flat k -> SimQ Qt d (tr_list c) (XL d c) k.
  Proof.
    intros HC. induction c as [|s rest IH]; intros TO k Fk.
    - apply sim_skip. reflexivity.
    - cbn [top_ok forallb] in TO. apply andb_prop in TO as [T1 T2]. fold (top_ok rest) in T2.
      intros g0 e h xs kc f' ys rf W E. unfold XL in E.
      destruct s as [x ex| | | | | |];
        try (rewrite (exec_list_seq _ _ rest T1) in E;
             exact (sim_seq Qt d _ _ _ _ k (fun _ _ => eq_refl) (fun _ _ _ _ H => H)
                      (sim_stmt d HC _ T1 _) (IH T2 k Fk) g0 e h xs kc f' ys rf W E)).
      intros HK. cbn [IRSem.exec_list] in E. cbn [tr_list]. rewrite tr_stmt_eq.
      apply FSpec_seq, FSpec_assign, FSpec_cont_seq. cbn [knxt].
      destruct (do_assign_spec x ex (kn k e) e h) as [A1 A2].
      apply (IH T2 k Fk g0 (do_assign x ex (kn k e) e h) h xs kc f' ys rf W).
      + rewrite (Fk (do_assign x ex (kn k e) e h)). rewrite <- A1, A2. exact E.
      + exact HK.
  Qed.

  Definition rend (e : bool) : GenMachine.res := if e then RRaise else RStop.

  Lemma kont_end g0 d h e (err : bool) : Kont g0 d (if err then CErr else CNorm) h KNil e [] (rend err).
  Proof.
    destruct err; cbn [Kont rend]; auto. eapply FSpec_end. reflexivity.
  Qed.

  Lemma fun_sim d : CallOK d -> forall body r nx h g0 ys kf, wf h -> top_ok body = true ->
    run_function (J d) assign body (r, mkst h nx) = (ys, kf) ->
    FSpec (S d) g0 (map snd ys) (rend (match kf with CErr => true | _ => false end))
          (fun n => mexec n d h (fun_code body) KNil (fr0 r nx)).
  Proof.
    intros HC body r nx h g0 ys kf W TO HR. unfold run_function in HR.
    destruct (IRSem.exec_list (J d) assign body (r, mkst h nx) flags0) as [[ys' k'] f'] eqn:E. injection HR as <- <-.
    unfold fun_code. apply FSpec_seq, FSpec_assign, FSpec_cont_seq.
    rewrite <- (app_nil_r (map snd ys')).
    apply (one_sim Qt d (tr_list body) KNil (XL d body)) with (kb := k') (f1 := f').
    - apply sim_top; auto. intros e. reflexivity.
    - exact W.
    - exact E.
    - intros e2 _. destruct k'; cbn [Kont rend]; auto; apply (kont_end g0 d h e2 false).
  Qed.

  Lemma loop_yield err (l : list cfg) f :
    IRSem.loop (fun (s : cfg) f => ([s], CNorm, f)) err l f = (l, if err then CErr else CNorm, f).
  Proof. induction l as [|x r IH]; cbn [IRSem.loop]; [reflexivity|]. rewrite IH. reflexivity. Qed.

  Lemma map_snd_pair (r : env) (xs : list st) : map snd (map (fun x => (r, x)) xs) = xs.
  Proof. rewrite map_map. cbn. apply map_id. Qed.

  Lemma for_sim d (ex : nat -> fr -> heap -> iexpr lx callp) (B : mcode) (k : mkont) body :
    (forall it', Sim d B body (KLoop it' B k)) ->
    forall g0 e h xs_it err res_xs kc f' ys rf,
      ISpec d h (kn k e) (xs_it, err) h (mkiter mkleaf prog (ex (kn k e) e h) h) ->
      IRSem.loop body err (map (fun x => (f_env e, x)) xs_it) (f_fl e) = (res_xs, kc, f') ->
      Kont g0 d kc h k (setfl e f') ys rf ->
      FSpec (S d) g0 (map snd res_xs ++ ys) rf (fun n => mexec n d h (CFor ex B) k e).
  Proof.
    intros HB g0 e h xs_it err res_xs kc f' ys rf HI HL HK. apply FSpec_for.
    apply (loop_sim d B k body HB g0 xs_it err h (f_env e) e h _ res_xs kc f' ys rf eq_refl HI HL HK).
  Qed.

  (* for l in <it>: yield False      (builtin_eq, YP.call's `yield from`, one row of match_dynamic) *)
  Lemma yield_for d (ex : nat -> fr -> heap -> iexpr lx callp) (k : mkont) g0 e h xs_it err ys rf :
    ISpec d h (kn k e) (xs_it, err) h (mkiter mkleaf prog (ex (kn k e) e h) h) ->
    Kont g0 d (if err then CErr else CNorm) h k e ys rf ->
    FSpec (S d) g0 (xs_it ++ ys) rf (fun n => mexec n d h (CFor ex CYield) k e).
  Proof.
    intros HI HK. rewrite <- (map_snd_pair (f_env e) xs_it).
    eapply for_sim; [intros it'; apply sim_yield|exact HI|apply loop_yield|].
    rewrite setfl_same. exact HK.
  Qed.

  Lemma yield_for_end d (ex : nat -> fr -> heap -> iexpr lx callp) g0 e h xs_it err :
    ISpec d h (f_nxt e) (xs_it, err) h (mkiter mkleaf prog (ex (f_nxt e) e h) h) ->
    FSpec (S d) g0 xs_it (rend err) (fun n => mexec n d h (CFor ex CYield) KNil e).
  Proof.
    intros HI. rewrite <- (app_nil_r xs_it). exact (yield_for d ex KNil g0 e h xs_it err [] _ HI (kont_end _ _ _ _ _)).
  Qed.

  Lemma ispec_call d : CallOK d -> forall goal extra g (e : fr) h, wf h ->
    ISpec d h g (call_goal (BQ d) goal extra (mkst h g)) h (mkiter mkleaf prog (call_expr goal extra g e h) h).
  Proof.
    intros HC goal extra g e h W. unfold call_goal, call_expr. cbn [sto mkst]. rewrite dfast_eq, <- den_fast_eq.
    destruct (den_fast h goal); try apply ispec_raise; cbn [mkiter]; apply HC; exact W.
  Qed.

  (* for x in <it>: yield x; break       (once/1) *)
  Lemma sim_yield_break d k : Sim d (CSeq CYield CBreak) (fun s f => ([s], CBrk, f)) k.
  Proof.
    intros g0 e h xs kc f' ys rf W E HK. injection E as <- <- <-.
    specialize (HK _ eq_refl). rewrite setfl_same in HK.
    apply FSpec_seq. apply (FSpec_yield d g0 (mkst h (kn k e)) (KSeq CBreak k) e ys rf W eq_refl).
    apply FSpec_cont_seq. exact HK.
  Qed.

  Lemma once_for d (ex : nat -> fr -> heap -> iexpr lx callp) g0 e h xs_it err :
    ISpec d h (f_nxt e) (xs_it, err) h (mkiter mkleaf prog (ex (f_nxt e) e h) h) ->
    FSpec (S d) g0 (match xs_it with x :: _ => [x] | [] => [] end)
          (rend (match xs_it with _ :: _ => false | [] => err end))
          (fun n => mexec n d h (CFor ex (CSeq CYield CBreak)) KNil e).
  Proof.
    intros HI.
    assert (HL: IRSem.loop (fun (s : cfg) f => ([s], CBrk, f)) err (map (fun x => (f_env e, x)) xs_it) (f_fl e) =
                (match xs_it with x :: _ => [(f_env e, x)] | [] => [] end,
                 (if match xs_it with _ :: _ => false | [] => err end then CErr else CNorm), f_fl e)).
    { destruct xs_it; reflexivity. }
    pose proof (for_sim d ex (CSeq CYield CBreak) KNil _ (fun it' => sim_yield_break d _) g0 e h xs_it err _ _ _ []
                  (rend (match xs_it with _ :: _ => false | [] => err end)) HI HL (kont_end _ _ _ _ _)) as H.
    rewrite app_nil_r in H. destruct xs_it; exact H.
  Qed.

  (* q = self.call(goal); results = [copy_term(template, {}) for r in q]      (findall/3) *)
  Definition collect_all (t : term) (xs : list st) (e : fr) : fr :=
    fold_left (fun e x => fcollect t (nxt x) e (sto x)) xs e.

  Lemma findall_loop d t k g0 h0 : forall xs_it err e hcur itcur ys rf,
    ISpec d h0 (kn k e) (xs_it, err) hcur itcur ->
    Kont g0 d (if err then CErr else CNorm) h0 k (collect_all t xs_it e) ys rf ->
    FSpec (S d) g0 ys rf (fun n => mloop n d hcur itcur (CAssign (fcollect t)) k e).
  Proof.
    induction xs_it as [|x r IH]; intros err e hcur itcur ys rf HI HK.
    - exact (loop_end HI HK).
    - apply (loop_next HI). intros it' Gn Wx HR.
      apply FSpec_assign, FSpec_cont_loop. rewrite kn_loop, Gn.
      apply (IH err (fcollect t (nxt x) e (sto x)) (sto x) it' ys rf); [|exact HK].
      rewrite (kn_nxt k _ e) by reflexivity. exact HR.
  Qed.

  Lemma collect_all_spec t xs : forall e es b,
    Machine.collect 0 (f_nxt e + f_aux e) t xs = (es, b) ->
    f_acc (collect_all t xs e) = f_acc e ++ es /\
    f_nxt e + f_aux (collect_all t xs e) = b /\
    f_nxt (collect_all t xs e) = f_nxt e.
  Proof.
    induction xs as [|x r IH]; intros e es b H; cbn [collect_all fold_left Machine.collect] in *.
    - injection H as <- <-. rewrite app_nil_r. auto.
    - fold (collect_all t r (fcollect t (nxt x) e (sto x))).
      rewrite !Nat.sub_0_r in H.
      destruct (Machine.collect 0 (f_nxt e + f_aux e + nxt x) t r) as [es' b'] eqn:E.
      injection H as <- <-.
      destruct (IH (fcollect t (nxt x) e (sto x)) es' b') as [A [B C]].
      { cbn [fcollect f_nxt f_aux]. rewrite Nat.add_assoc. exact E. }
      rewrite A, C. cbn [fcollect f_acc f_aux f_nxt] in *. rewrite <- app_assoc. cbn [app].
      rewrite dfast_eq, <- den_fast_eq. auto.
  Qed.

  (* \= : the frame of builtin_neq is a function frame for neq_ir *)
  Lemma neq_run d a b (s : st) :
    run_function (J d) assign neq_ir ([(s_ "Y", b); (s_ "X", a)], s) =
    match unify_fast ufuel (sto s) a b with
    | UOk _ => ([], CNorm)
    | UFail => ([([(s_ "Y", b); (s_ "X", a)], s)], CNorm)
    | _ => ([], CErr)
    end.
  Proof.
    unfold run_function, neq_ir. cbn [IRSem.exec_list]. rewrite exec_stmt_eq. cbn [IRSem.exec_list].
    rewrite exec_stmt_eq.
    change (J d (IR.ECall (s_ "unify") [EVar (s_ "X"); EVar (s_ "Y")]) ([(s_ "Y", b); (s_ "X", a)], s))
      with (let '(xs, e) := unify_st s a b in (map (fun x => ([(s_ "Y", b); (s_ "X", a)], x)) xs, e)).
    unfold unify_st. destruct (unify_fast ufuel (sto s) a b); reflexivity.
  Qed.

  Lemma skip_spec g0 d h e : FSpec (S d) g0 [] (rend false) (fun n => mexec n d h CSkip KNil e).
  Proof. apply FSpec_skip. exact (kont_end g0 d h e false). Qed.

  Lemma builtin_sim d : CallOK d -> forall name args nx h g0, wf h ->
    FSpec (S d) g0
      (fst (match builtin (BQ d) name args (mkst h nx) with Some r => r | None => ([], false) end))
      (rend (snd (match builtin (BQ d) name args (mkst h nx) with Some r => r | None => ([], false) end)))
      (fun n => mexec n d h (fst (builtin_code name args)) KNil (fr0 (snd (builtin_code name args)) nx)).
  Proof.
    intros HC name args nx h g0 W. unfold builtin, builtin_code.
    destruct (str_eqb name (s_ "=")).
    { destruct args as [|a [|b [|c rest]]]; try apply skip_spec. cbn [fst snd].
      destruct (unify_st (mkst h nx) a b) as [xs err] eqn:U. cbn [fst snd].
      apply yield_for_end. cbn [mkiter f_nxt fr0]. rewrite <- U. apply ispec_unify. exact W. }
    destruct (str_eqb name (s_ "\=")).
    { destruct args as [|a [|b [|c rest]]]; try apply skip_spec. cbn [fst snd sto mkst].
      pose proof (neq_run d a b (mkst h nx)) as NR. cbn [sto mkst] in NR.
      destruct (unify_fast ufuel h a b);
        apply (fun_sim d HC neq_ir _ nx h g0 _ _ W eq_refl NR). }
    destruct (str_eqb name (s_ "call")).
    { destruct args as [|g extra]; cbn [fst snd].
      - eapply FSpec_end. reflexivity.
      - destruct (call_goal (BQ d) g extra (mkst h nx)) as [xs err] eqn:U. cbn [fst snd].
        apply yield_for_end. cbn [f_nxt fr0]. rewrite <- U. apply ispec_call; auto. }
    destruct (str_eqb name (s_ "once")).
    { destruct args as [|g [|b rest]]; try apply skip_spec. cbn [fst snd].
      destruct (call_goal (BQ d) g [] (mkst h nx)) as [xs err] eqn:U.
      pose proof (once_for d (call_expr g []) g0 (fr0 [] nx) h xs err) as H. cbn [f_nxt fr0] in H.
      pose proof (ispec_call d HC g [] nx (fr0 [] nx) h W) as HI. rewrite U in HI. specialize (H HI).
      destruct xs; exact H. }
    destruct (str_eqb name (s_ "findall")).
    { destruct args as [|t [|g [|l [|c rest]]]]; try apply skip_spec. cbn [fst snd].
      destruct (call_goal (BQ d) g [] (mkst h nx)) as [xs err] eqn:U.
      pose proof (ispec_call d HC g [] nx (fr0 [] nx) h W) as HI. rewrite U in HI.
      apply FSpec_seq, FSpec_for.
      apply (findall_loop d t (KSeq _ KNil) g0 h xs err (fr0 [] nx) h _ _ _ HI).
      destruct err; cbn [fst snd rend Kont]; [auto|].
      destruct (Machine.collect 0 (nxt (mkst h nx)) t xs) as [es b] eqn:EC. cbn [nxt mkst] in EC.
      destruct (collect_all_spec t xs (fr0 [] nx) es b) as [A [B C]].
      { cbn [f_nxt f_aux fr0]. rewrite Nat.add_0_r. exact EC. }
      cbn [f_acc f_aux f_nxt fr0 app] in A, B, C.
      apply FSpec_cont_seq, FSpec_seq, FSpec_assign, FSpec_cont_seq. cbn [knxt].
      set (ef := fcollected (f_nxt (collect_all t xs (fr0 [] nx))) (collect_all t xs (fr0 [] nx)) h).
      assert (En: f_nxt ef = b) by (unfold ef, fcollected; cbn [f_nxt]; rewrite C; exact B).
      assert (Ea: f_acc ef = es) by (unfold ef, fcollected; cbn [f_acc]; exact A).
      destruct (unify_st {| sto := sto (mkst h nx); nxt := b |} l (mk_list es)) as [ys e2] eqn:U2. cbn [fst snd].
      apply yield_for_end. cbn [mkiter]. rewrite Ea, En, <- U2. apply ispec_unify. exact W. }
    apply skip_spec.
  Qed.

  Lemma ispec_arrays d h g xs ys : wf h ->
    ISpec d h g (ures_st (unify_arrays_fast ufuel h xs ys) g) h (ILeaf (mkleaf (XArrays xs ys) h)).
  Proof.
    intros W. cbn [mkleaf]. rewrite unify_arrays_x_eq, unify_arrays_fast_eq.
    destruct (@arrays_gen_matches_unify ufuel h xs ys W) as [A B].
    apply (ispec_gen d h g (GArrFresh xs ys) (unify_arrays ufuel h xs ys) (S ufuel) I).
    - intros s' U. split; [exact (proj1 (@unify_arrays_sound ufuel h xs ys s' W U))|]. exact (A _ U).
    - exact B.
  Qed.

  Lemma arrays_for d (k : mkont) g0 e h args r ys rf : wf h ->
    unify_arrays_fast ufuel h args (f_acc e) = r ->
    Kont g0 d (if snd (ures_st r (kn k e)) then CErr else CNorm) h k e ys rf ->
    FSpec (S d) g0 (fst (ures_st r (kn k e)) ++ ys) rf
          (fun n => mexec n d h (CFor (fun _ e _ => ELeaf (XArrays args (f_acc e))) CYield) k e).
  Proof.
    intros W U HK. apply (yield_for d _ k g0 e h (fst (ures_st r (kn k e))) (snd (ures_st r (kn k e))) ys rf); [|exact HK].
    cbn [mkiter]. rewrite <- surjective_pairing, <- U. apply ispec_arrays. exact W.
  Qed.

  Lemma facts_sim d (c : mcode) h g0 args (r_env : env) : wf h ->
    forall fs (e : fr) fa fe nx' ys rf,
      f_env e = r_env -> f_fl e = flags0 -> f_aux e = 0 ->
      fact_answers fs args (mkst h (f_nxt e)) = (fa, fe, nx') ->
      Kont g0 d (if fe then CErr else CNorm) h (KSeq c KNil) (fr0 r_env nx') ys rf ->
      FSpec (S d) g0 (fa ++ ys) rf (fun n => mexec n d h (facts_code fs args) (KSeq c KNil) e).
  Proof.
    intros W. induction fs as [|[m vals] r IH]; intros e fa fe nx' ys rf E1 E2 E3 HA HK.
    - cbn [fact_answers nxt mkst] in HA. injection HA as <- <- <-. cbn [facts_code app Kont] in *. apply FSpec_assign.
      replace (clear_acc (kn (KSeq c KNil) e) e h) with (fr0 r_env (f_nxt e)); [exact HK|].
      destruct e; cbn in *. subst. reflexivity.
    - cbn [fact_answers sto nxt mkst] in HA. cbn [facts_code].
      apply FSpec_seq, FSpec_assign, FSpec_cont_seq, FSpec_seq. cbn [knxt].
      set (e1 := {| f_env := f_env e; f_nxt := f_nxt e + m; f_fl := f_fl e;
                    f_acc := map (fact_shift (f_nxt e)) vals; f_aux := f_aux e |}).
      set (K := (KSeq (facts_code r args) (KSeq c KNil) : mkont)).
      pose proof (fun u => arrays_for d K g0 e1 h args u) as HR. cbn [knxt f_nxt f_acc e1] in HR.
      destruct (unify_arrays_fast ufuel h args (map (fact_shift (f_nxt e)) vals)) as [s'| | |].
      + destruct (fact_answers r args {| sto := h; nxt := f_nxt e + m |}) as [[ys1 e1'] nx1] eqn:R1.
        injection HA as <- <- <-. apply (HR _ (ys1 ++ ys) rf W eq_refl).
        apply FSpec_cont_seq. exact (IH e1 ys1 e1' nx1 ys rf E1 E2 E3 R1 HK).
      + apply (HR _ (fa ++ ys) rf W eq_refl).
        apply FSpec_cont_seq. exact (IH e1 fa fe nx' ys rf E1 E2 E3 HA HK).
      + injection HA as <- <- <-. destruct HK as [-> ->]. apply (HR _ [] RRaise W eq_refl). cbn. auto.
      + injection HA as <- <- <-. destruct HK as [-> ->]. apply (HR _ [] RRaise W eq_refl). cbn. auto.
  Qed.

  Notation gnexts := (nexts mkleaf lnext lclose prog f_nxt).

  Lemma FSpec_nexts D g0 xs rf : rf <> RYield -> forall k h it,
    FSpec D g0 xs rf (fun n => minext n D h it) ->
    exists N hf itf, forall n, N <= n ->
      gnexts n D k h it = Some (hf, itf, map sto (firstn k xs), if Nat.leb k (length xs) then RYield else rf).
  Proof.
    intros NY. induction xs as [|x r IH]; intros k h it H; cbn [FSpec] in H.
    - destruct k as [|k].
      + exists 0, h, it. intros n _. reflexivity.
      + destruct H as [N [hf [it' H]]]. exists N, hf, it'. intros n Ln.
        cbn [nexts]. rewrite (H n Ln). destruct rf; try reflexivity. congruence.
    - destruct k as [|k].
      + exists 0, h, it. intros n _. reflexivity.
      + destruct H as [N [it' [H [_ [_ R]]]]]. destruct (IH k _ _ R) as [N' [hf [itf HN]]].
        exists (N + N'), hf, itf. intros n Ln.
        cbn [nexts]. rewrite (H n) by lia. rewrite (HN n) by lia.
        reflexivity.
  Qed.

  (* the generic refinement theorem: if the generator object of every call yields the answers of BQ,
     then driving it as a consumer does (at most k resumptions) gives the first k answer stores, the
     end marker of BQ, and the initial heap *)
  Theorem gen_refines d name args nx h k : CallOK d -> wf h ->
    exists N hf itf, forall n, N <= n ->
      gnexts n d k h (mq name args nx) =
      Some (hf, itf, map sto (firstn k (fst (BQ d name args (mkst h nx)))),
            if Nat.leb k (length (fst (BQ d name args (mkst h nx)))) then RYield
            else rend (snd (BQ d name args (mkst h nx))))
      /\ (length (fst (BQ d name args (mkst h nx))) < k -> hf = h).
  Proof.
    intros HC W. destruct (HC 0 name args nx h W) as [HF _].
    assert (NY: rend (snd (BQ d name args (mkst h nx))) <> RYield) by (destruct (snd _); discriminate).
    destruct (FSpec_nexts d 0 _ _ NY k _ _ HF) as [N [hf [itf H]]].
    exists N, hf, itf. intros n Ln. split; [exact (H n Ln)|]. intros Lk.
    pose proof (H n Ln) as Hn. apply Nat.leb_gt in Lk. rewrite Lk in Hn.
    destruct (query_restores mkleaf lnext lclose prog f_nxt linv L_new L_next L_close L_ext _ _ _ _ _ _ Hn) as [_ [A _]].
    apply A. exact NY.
  Qed.

  Lemma lnext_mono_S n h l r : lnext n h l = Some r -> lnext (S n) h l = Some r.
  Proof.
    destruct l as [g|]; cbn [lnext]; auto. rewrite !next_x_eq.
    destruct (next n h g) as [[[h' g'] y]|] eqn:N; [|discriminate]. rewrite (next_mono_S _ _ _ N). auto.
  Qed.

  Theorem gen_refines_fuel d name args nx h k n hf itf ys r : CallOK d -> wf h ->
    gnexts n d k h (mq name args nx) = Some (hf, itf, ys, r) ->
    ys = map sto (firstn k (fst (BQ d name args (mkst h nx)))) /\
    r = (if Nat.leb k (length (fst (BQ d name args (mkst h nx)))) then RYield
         else rend (snd (BQ d name args (mkst h nx)))).
  Proof.
    intros HC W H. destruct (gen_refines d name args nx h k HC W) as [N [hf' [itf' HN]]].
    destruct (HN (n + N)) as [A _]; [lia|].
    rewrite (nexts_mono _ _ _ _ mkleaf lnext lclose prog f_nxt lnext_mono_S n (n + N) d k h _ _ H) in A by lia.
    injection A as <- <-. auto.
  Qed.

  Corollary gen_refines_all d name args nx h xs e : CallOK d -> wf h ->
    BQ d name args (mkst h nx) = (xs, e) ->
    exists N itf, forall n, N <= n ->
      gnexts n d (S (length xs)) h (mq name args nx) = Some (h, itf, map sto xs, rend e).
  Proof.
    intros HC W E. destruct (gen_refines d name args nx h (S (length xs)) HC W) as [N [hf [itf H]]].
    exists N, itf. intros n Ln. destruct (H n Ln) as [A B]. rewrite E in A, B. cbn [fst snd] in A, B.
    rewrite (B (Nat.lt_succ_diag_r _)), firstn_all2 in A by lia.
    rewrite (proj2 (Nat.leb_gt _ _) (Nat.lt_succ_diag_r _)) in A. exact A.
  Qed.

  Lemma call_ok_of :
    (forall name args s, BQ 0 name args s = ([], true)) ->
    (forall d, CallOK d -> forall g0 name args nx h, wf h ->
       FSpec (S d) g0 (fst (BQ (S d) name args (mkst h nx))) (rend (snd (BQ (S d) name args (mkst h nx))))
             (fun n => mexec n d h (fst (prog (name, args, nx))) KNil (snd (prog (name, args, nx))))) ->
    forall d, CallOK d.
  Proof.
    intros H0 HS. induction d as [|d IH]; intros g0 name args nx h W; (split; [|constructor]).
    - rewrite H0. eapply FSpec_end. reflexivity.
    - apply (FSpec_S _ _ _ _ _ _ (fun n => eq_refl)). exact (HS d IH g0 name args nx h W).
  Qed.
End Gen.

(* The engine running a compiled program with a database of dynamic facts
   (IRMachine.prog ir DB nouser  against  QueryFacts.queryF ir DB). *)
Section Refine.
  Variable ir : ir_program.
  Variable DB : str -> nat -> list fact.          (* the database of dynamic facts *)
  Notation prog := (prog ir DB nouser).
  Notation mexec := (exec mkleaf lnext lclose prog f_nxt).
  Notation minext := (inext mkleaf lnext lclose prog f_nxt).
  Notation mcode := (code lx fr callp).
  Notation FSpec := (FSpec prog).
  Notation CallOK := (CallOK prog (queryF ir DB)).
  Hypothesis OK : ir_ok ir.

  (* the function / builtin part of a query, and its code *)
  Definition part (d : nat) (name : str) (args : list term) (s : st) : list st * bool :=
    match find_func ir name (length args) with
    | Some f =>
        let '(ys, k) := run_function (Machine.iter (queryF ir DB d)) assign (fn_body f) (bind_args 0 args, s) in
        (map snd ys, match k with CErr => true | _ => false end)
    | None =>
        match builtin (queryF ir DB d) name args s with
        | Some r => r
        | None => ([], false)
        end
    end.
  Definition code_env (name : str) (args : list term) : mcode * env :=
    match find_func ir name (length args) with
    | Some f => (fun_code (fn_body f), bind_args 0 args)
    | None => builtin_code name args
    end.

  Lemma queryF_S d name args s : queryF ir DB (S d) name args s =
    match fact_answers (DB name (length args)) args s with
    | (fa, true, _) => (fa, true)
    | (fa, false, nx') => (fa ++ fst (part d name args {| sto := sto s; nxt := nx' |}),
                           snd (part d name args {| sto := sto s; nxt := nx' |}))
    end.
  Proof.
    cbn [queryF]. unfold part. destruct (fact_answers (DB name (length args)) args s) as [[fa fe] nx'].
    destruct fe; auto. destruct (find_func ir name (length args)).
    - destruct (run_function _ _ _ _) as [ys k]. reflexivity.
    - destruct (builtin _ _ _ _) as [[ys e]|]; reflexivity.
  Qed.

  Lemma prog_eq name args nx : prog (name, args, nx) =
    (match DB name (length args) with
     | [] => fst (code_env name args)
     | f0 :: l => CSeq (facts_code (f0 :: l) args) (fst (code_env name args)) end,
     fr0 (snd (code_env name args)) nx).
  Proof.
    unfold IRMachine.prog, nouser, code_env.
    destruct (find_func ir name (length args)); [|destruct (builtin_code name args)];
      destruct (DB name (length args)); reflexivity.
  Qed.

  Lemma part_sim d : CallOK d -> forall name args nx h g0, wf h ->
    FSpec (S d) g0 (fst (part d name args (mkst h nx))) (rend (snd (part d name args (mkst h nx))))
          (fun n => mexec n d h (fst (code_env name args)) KNil (fr0 (snd (code_env name args)) nx)).
  Proof.
    intros IH name args nx h g0 W. unfold part, code_env.
    destruct (find_func ir name (length args)) as [f|] eqn:Ef.
    - destruct (run_function (Machine.iter (queryF ir DB d)) assign (fn_body f) (bind_args 0 args, mkst h nx)) as [ys kf] eqn:ER.
      apply (fun_sim prog (queryF ir DB) d IH (fn_body f) _ nx h g0 ys kf W); [|exact ER].
      apply OK. exact (find_func_in _ _ _ _ Ef).
    - apply (builtin_sim prog (queryF ir DB) d IH name args nx h g0 W).
  Qed.

  Theorem call_ok : forall d, CallOK d.
  Proof.
    apply call_ok_of; [reflexivity|]. intros d IH g0 name args nx h W.
    rewrite queryF_S, prog_eq. cbn [fst snd sto mkst].
    destruct (fact_answers (DB name (length args)) args (mkst h nx)) as [[fa fe] nx'] eqn:FA.
    destruct (DB name (length args)) as [|f0 fs0].
    - cbn [fact_answers] in FA. injection FA as <- <- <-. apply (part_sim d IH).  exact W.
    - apply FSpec_seq.
      pose proof (fun ys rf => facts_sim prog d (fst (code_env name args)) h g0 args (snd (code_env name args)) W (f0 :: fs0)
                   (fr0 (snd (code_env name args)) nx) fa fe nx' ys rf eq_refl eq_refl eq_refl FA) as G.
      destruct fe.
      + rewrite <- (app_nil_r fa). apply G. cbn. auto.
      + apply G. apply FSpec_cont_seq. apply (part_sim d IH). exact W.
  Qed.

  Notation mnexts := (m_nexts ir DB nouser).

  (* THE REFINEMENT THEOREM.  xs / err = the answer states and the error flag of the big-step
     semantics.  The generator object of the query, resumed (each time under the heap it left) at
     most k times - ANY abandonment point k - yields exactly the first k answer stores, in order;
     if k exceeds the number of answers, the (#answers+1)-th __next__ ends by StopIteration or by
     an exception exactly as the big-step semantics says, and the heap is then the initial one. *)
  Theorem machine_refines_irsem d name args nx h k : wf h ->
    exists N hf itf, forall n, N <= n ->
      mnexts n d k h (m_query ir DB nouser name args nx) =
      Some (hf, itf, map sto (firstn k (fst (queryF ir DB d name args (mkst h nx)))),
            if Nat.leb k (length (fst (queryF ir DB d name args (mkst h nx)))) then RYield
            else rend (snd (queryF ir DB d name args (mkst h nx))))
      /\ (length (fst (queryF ir DB d name args (mkst h nx))) < k -> hf = h).
  Proof. intros W. exact (gen_refines prog (queryF ir DB) d name args nx h k (call_ok d) W). Qed.

  (* ... and for WHATEVER fuel the machine returns a value at *)
  Theorem machine_refines_irsem_fuel d name args nx h k n hf itf ys r : wf h ->
    mnexts n d k h (m_query ir DB nouser name args nx) = Some (hf, itf, ys, r) ->
    ys = map sto (firstn k (fst (queryF ir DB d name args (mkst h nx)))) /\
    r = (if Nat.leb k (length (fst (queryF ir DB d name args (mkst h nx)))) then RYield
         else rend (snd (queryF ir DB d name args (mkst h nx)))).
  Proof. intros W. exact (gen_refines_fuel prog (queryF ir DB) d name args nx h k n hf itf ys r (call_ok d) W). Qed.

  (* the same with the cell counters: the i-th suspension of the generator object carries the
     counter of the i-th answer *)
  Theorem machine_refines_irsem_steps d name args nx h : wf h ->
    FSpec d 0 (fst (queryF ir DB d name args (mkst h nx))) (rend (snd (queryF ir DB d name args (mkst h nx))))
          (fun n => minext n d h (m_query ir DB nouser name args nx)).
  Proof. intros W. apply (call_ok d 0 name args nx h W). Qed.
End Refine.
