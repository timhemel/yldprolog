(* machine_refines_nquery: the frame machine (GenMachine / IRMachine: generator objects, suspension,
   destructive bindings undone by `finally`) running ALL of YP.query - dynamic facts first, API names
   never called, then eval_context.get('<name>_<k>', eval_context.get('<name>_n')): a registered Python
   predicate, the generator function of the loaded program, a builtin - yields exactly the answers of
   Sem/Native.nquery (the big-step engine of C20 and of evaluate_bounded, C17), ends as it says
   (StopIteration / an exception), and leaves the initial heap.

   A registered Python predicate is, on the machine side, ARBITRARY machine code (`ucode`: it may loop over
   unifications, call back into the engine, raise anywhere); on the big-step side it is its answer
   function (Native.nfun).  The two are tied by `realizes u f`: run as a generator object under any heap the
   code yields the answers of f, in order, and then ends as f says.  The theorem is compositional: IF every
   registered predicate's generator object behaves as its answer function says THEN so does every query of
   every compiled program around them (conjunction, cut, if-then-else, negation, findall, once, call/N,
   next to dynamic facts).  `pyrows_realizes`: the Python predicates of property C20,
        def p( *args ):
            for row in rows:
                for _ in unify_arrays(args, row): yield v
            [raise E]
   are realized by the literal machine code of that text - also the raising ones. *)
From Coq Require Import String.
From Coq Require Import List Arith Bool Lia ZArith NArith.
Import ListNotations.
From YP Require Import Base.Str Term.Term Term.Fast Term.Dfast Unify.Unify Unify.Fast Unify.UnifyGen Unify.UnifyGenFast Comp.IR Comp.CompileBody
  Comp.CompileClause Sem.IRSem Sem.Machine Sem.Native Sem.NativeThms
  Engine.GenMachine Engine.Restore Engine.MachineMono Engine.IRMachine Engine.QueryFacts Engine.Refine Engine.RefineCompiled.
From YP Require Engine.Resolve.
Local Open Scope string_scope.
Local Open Scope list_scope.

Notation mcode := (code lx fr callp).

(* a registered Python predicate: called with the actual arguments while the cell counter is nx, it is a
   frame with this body and these initial locals *)
Definition ucode := list term -> nat -> mcode * env.

(* the names / arities under which engine.py registers a builtin (Sem/Machine.builtin is Some) *)
Definition is_builtin (name : str) (args : list term) : bool :=
  if str_eqb name (s_ "=") then match args with [_; _] => true | _ => false end
  else if str_eqb name (s_ "\=") then match args with [_; _] => true | _ => false end
  else if str_eqb name (s_ "call") then true
  else if str_eqb name (s_ "once") then match args with [_] => true | _ => false end
  else if str_eqb name (s_ "findall") then match args with [_; _; _] => true | _ => false end
  else false.

Lemma is_builtin_spec call name args s :
  match builtin call name args s with Some _ => is_builtin name args = true | None => is_builtin name args = false end.
Proof.
  unfold builtin, is_builtin.
  destruct (str_eqb name (s_ "=")). { destruct args as [|a [|b [|c r]]]; reflexivity. }
  destruct (str_eqb name (s_ "\=")). { destruct args as [|a [|b [|c r]]]; reflexivity. }
  destruct (str_eqb name (s_ "call")). { destruct args; reflexivity. }
  destruct (str_eqb name (s_ "once")). { destruct args as [|a [|b r]]; reflexivity. }
  destruct (str_eqb name (s_ "findall")). { destruct args as [|a [|b [|c [|e r]]]]; reflexivity. }
  reflexivity.
Qed.

(* match_dynamic / a Python predicate over rows:
     for row in rows: for _ in unify_arrays(args, <row with new variables>): yield
   the row's variables are the cells nx .. nx + r_nv - 1 (a new copy per row; the counter follows the
   search path: it is back at nx when the next row is tried - Native.match_rows) *)
Definition set_row (nx : nat) (r : frow) : nat -> fr -> heap -> fr :=
  fun _ e _ => {| f_env := f_env e; f_nxt := nx + r_nv r; f_fl := f_fl e;
                  f_acc := map (tshift nx) (r_vals r); f_aux := f_aux e |}.
Definition reset_row (nx : nat) : nat -> fr -> heap -> fr :=
  fun _ e _ => {| f_env := f_env e; f_nxt := nx; f_fl := f_fl e; f_acc := []; f_aux := f_aux e |}.
Definition arr_expr (args : list term) : nat -> fr -> heap -> iexpr lx callp :=
  fun _ e _ => ELeaf (XArrays args (f_acc e)).
Fixpoint rows_code (rows : list frow) (args : list term) (nx : nat) : mcode :=
  match rows with
  | [] => CAssign (reset_row nx)
  | r :: rest => CSeq (CAssign (set_row nx r)) (CSeq (CFor (arr_expr args) CYield) (rows_code rest args nx))
  end.

(* the Python predicate of the property, optionally raising after its last row *)
Definition pyrows (rows : list frow) (raises : bool) : ucode :=
  fun args nx => (CSeq (rows_code rows args nx) (if raises then CRaise else CSkip), []).
(* ... and its answer function *)
Definition pyrows_fun (rows : list frow) (vals : list bool) (raises : bool) : nfun :=
  fun args s => let '(xs, e) := native_rows rows vals args s in (xs, e || raises).

Section WProg.
  Variable ir : ir_program.
  Variable dyn : str -> nat -> list frow.               (* the fact database *)
  Variable ufix : str -> nat -> option ucode.           (* registered under '<name>_<k>' *)
  Variable uvar : str -> option ucode.                  (* registered under '<name>_n' *)

  (* eval_context.get(f'{name}_{len(args)}', eval_context.get(f'{name}_n'))( *args ) *)
  Definition fun_part (name : str) (args : list term) (nx : nat) : mcode * env :=
    match ufix name (length args) with
    | Some u => u args nx
    | None =>
        match find_func ir name (length args) with
        | Some f => (fun_code (fn_body f), bind_args 0 args)
        | None =>
            if str_eqb name (s_ "call") then
              match uvar name with Some u => u args nx | None => builtin_code name args end
            else if is_builtin name args then builtin_code name args
            else match uvar name with Some u => u args nx | None => (CSkip, []) end
        end
    end.

  (* YP.query as one frame *)
  Definition wprog (p : callp) : mcode * fr :=
    let '(name, args, nx) := p in
    let ce := if Resolve.reserved name then (CSkip, []) else fun_part name args nx in
    (CSeq (rows_code (dyn name (length args)) args nx) (fst ce), fr0 (snd ce) nx).

  Definition w_nexts := nexts mkleaf lnext lclose wprog f_nxt.
  Definition w_query (name : str) (args : list term) (nx : nat) : GenMachine.iter leaf lx fr callp :=
    mq wprog name args nx.
  Definition w_iclose := iclose (L:=leaf) (X:=lx) (E:=fr) (P:=callp) lclose.

  (* restoration holds for this machine program as for any other (Restore.v) *)
  Theorem world_query_restores n d k h name args nx hf itf ys r :
    w_nexts n d k h (w_query name args nx) = Some (hf, itf, ys, r) ->
    w_iclose hf itf = h
    /\ ithrow lclose hf itf = (h, IDone, RRaise)
    /\ (r <> RYield -> hf = h)
    /\ Forall (fun y => exists nw, y = nw ++ h) ys.
  Proof.
    apply (query_restores_throw mkleaf lnext lclose wprog f_nxt linv L_new L_next L_close L_ext).
  Qed.

  Notation mexec := (exec mkleaf lnext lclose wprog f_nxt).
  Notation minext := (inext mkleaf lnext lclose wprog f_nxt).
  Notation FSpec := (FSpec wprog).
  Notation mkont := (kont leaf lx fr callp).

  (* the generator object of the code yields the answers of the function and ends as it says *)
  Definition realizes (u : ucode) (f : nfun) : Prop :=
    forall d g0 args nx h, wf h ->
      FSpec (S d) g0 (fst (drop (f args (mkst h nx)))) (rend (snd (drop (f args (mkst h nx)))))
            (fun n => mexec n d h (fst (u args nx)) KNil (fr0 (snd (u args nx)) nx)).
  Definition orealizes (ou : option ucode) (of : option nfun) : Prop :=
    match ou, of with
    | Some u, Some f => realizes u f
    | None, None => True
    | _, _ => False
    end.

  Lemma realizes_ext u f g : (forall args s, f args s = g args s) -> realizes u f -> realizes u g.
  Proof. intros E H d g0 args nx h W. rewrite <- E. apply H. exact W. Qed.

  Lemma rows_sim d (c : mcode) h g0 args (r_env : env) nx : wf h ->
    forall rows (e : fr) fa fe ys rf,
      f_env e = r_env -> f_fl e = flags0 -> f_aux e = 0 ->
      match_rows rows args (mkst h nx) = (fa, fe) ->
      Kont wprog g0 d (if fe then CErr else CNorm) h (KSeq c KNil) (fr0 r_env nx) ys rf ->
      FSpec (S d) g0 (fa ++ ys) rf (fun n => mexec n d h (rows_code rows args nx) (KSeq c KNil) e).
  Proof.
    intros W. induction rows as [|r rest IH]; intros e fa fe ys rf E1 E2 E3 HA HK.
    - cbn [match_rows] in HA. injection HA as <- <-. cbn [app rows_code Kont] in *. apply FSpec_assign.
      replace (reset_row nx (knxt f_nxt (KSeq c KNil) e) e h) with (fr0 r_env nx); [exact HK|].
      destruct e; cbn in *. subst. reflexivity.
    - cbn [match_rows sto nxt mkst] in HA. unfold row_terms in HA. cbn [nxt mkst] in HA. cbn [rows_code].
      apply FSpec_seq, FSpec_assign, FSpec_cont_seq, FSpec_seq.
      set (e1 := set_row nx r (knxt f_nxt (KSeq (CSeq (CFor (arr_expr args) CYield) (rows_code rest args nx)) (KSeq c KNil)) e) e h).
      set (K := (KSeq (rows_code rest args nx) (KSeq c KNil) : mkont)).
      pose proof (fun u => arrays_for wprog d K g0 e1 h args u) as HR. cbn [knxt f_nxt f_acc e1 set_row] in HR.
      assert (F1: f_env e1 = r_env /\ f_fl e1 = flags0 /\ f_aux e1 = 0) by (unfold e1, set_row; cbn; auto).
      destruct F1 as [F1 [F2 F3]].
      destruct (unify_arrays_fast ufuel h args (map (tshift nx) (r_vals r))) as [s'| | |].
      + destruct (match_rows rest args (mkst h nx)) as [zs ze] eqn:R1. injection HA as <- <-.
        apply (HR _ (zs ++ ys) rf W eq_refl).
        apply FSpec_cont_seq. exact (IH e1 zs ze ys rf F1 F2 F3 eq_refl HK).
      + apply (HR _ (fa ++ ys) rf W eq_refl).
        apply FSpec_cont_seq. exact (IH e1 fa fe ys rf F1 F2 F3 HA HK).
      + injection HA as <- <-. destruct HK as [-> ->]. apply (HR _ [] RRaise W eq_refl). cbn. auto.
      + injection HA as <- <-. destruct HK as [-> ->]. apply (HR _ [] RRaise W eq_refl). cbn. auto.
  Qed.

  (* the Python predicates of the property are realized by the machine code of their text *)
  Theorem pyrows_realizes rows vals raises : realizes (pyrows rows raises) (pyrows_fun rows vals raises).
  Proof.
    intros d g0 args nx h W. unfold pyrows, pyrows_fun. cbn [fst snd].
    pose proof (drop_native_rows rows vals args (mkst h nx)) as D.
    destruct (native_rows rows vals args (mkst h nx)) as [xs e] eqn:N. unfold drop in *. cbn [fst snd] in *.
    apply FSpec_seq. rewrite <- (app_nil_r (map fst xs)).
    apply (rows_sim d _ h g0 args [] nx W rows (fr0 [] nx) (map fst xs) e [] _ eq_refl eq_refl eq_refl (eq_sym D)).
    destruct e; cbn [orb rend Kont]; [auto|]. apply FSpec_cont_seq.
    destruct raises; cbn [rend].
    - eapply FSpec_end. reflexivity.
    - apply skip_spec.
  Qed.

  Variable w : world.
  Hypothesis Wir : w_ir w = ir.
  Hypothesis Wdyn : forall name k, w_dyn w name k = dyn name k.
  Hypothesis Wfix : forall name k, orealizes (ufix name k) (w_fix w name k).
  Hypothesis Wvar : forall name, orealizes (uvar name) (w_var w name).
  Hypothesis OK : ir_ok ir.

  Notation CallOK := (CallOK wprog (fun d => nquery d w)).

  Lemma fun_part_sim d : CallOK d -> forall name args nx h g0, wf h ->
    FSpec (S d) g0 (fst (call_function (nquery d w) w name args (mkst h nx)))
          (rend (snd (call_function (nquery d w) w name args (mkst h nx))))
          (fun n => mexec n d h (fst (fun_part name args nx)) KNil (fr0 (snd (fun_part name args nx)) nx)).
  Proof.
    intros HC name args nx h g0 W. unfold call_function, fun_part. rewrite Wir.
    pose proof (Wfix name (length args)) as HF. unfold orealizes in HF.
    destruct (ufix name (length args)) as [u|], (w_fix w name (length args)) as [f|]; try contradiction.
    { apply (HF d g0 args nx h W). }
    clear HF.
    destruct (find_func ir name (length args)) as [f|] eqn:Ef.
    { destruct (run_function (Machine.iter (nquery d w)) assign (fn_body f) (bind_args 0 args, mkst h nx)) as [ys kf] eqn:ER.
      cbn [fst snd]. apply (fun_sim wprog (fun d => nquery d w) d HC (fn_body f) _ nx h g0 ys kf W); [|exact ER].
      apply OK. eapply find_func_in; eauto. }
    pose proof (Wvar name) as HV. unfold orealizes in HV.
    pose proof (is_builtin_spec (nquery d w) name args (mkst h nx)) as IB.
    pose proof (builtin_sim wprog (fun d => nquery d w) d HC name args nx h g0 W) as HB. cbn beta in HB.
    destruct (str_eqb name (s_ "call")) eqn:Ec.
    - destruct (uvar name) as [u|], (w_var w name) as [fv|]; try contradiction.
      + apply (HV d g0 args nx h W).
      + destruct (builtin (nquery d w) name args (mkst h nx)) as [r|]; exact HB.
    - destruct (builtin (nquery d w) name args (mkst h nx)) as [r|]; rewrite IB.
      + exact HB.
      + destruct (uvar name) as [u|], (w_var w name) as [fv|]; try contradiction.
        * apply (HV d g0 args nx h W).
        * apply skip_spec.
  Qed.

  Theorem call_ok_w : forall d, CallOK d.
  Proof.
    apply call_ok_of; [reflexivity|]. intros d IH g0 name args nx h W.
    cbn [nquery]. unfold nstep. rewrite Wdyn. unfold wprog. cbn [fst snd]. apply FSpec_seq.
    destruct (match_rows (dyn name (length args)) args (mkst h nx)) as [ds de] eqn:MR.
    set (ce := if Resolve.reserved name then (CSkip, []) else fun_part name args nx).
    pose proof (fun ys rf => rows_sim d (fst ce) h g0 args (snd ce) nx W (dyn name (length args))
                 (fr0 (snd ce) nx) ds de ys rf eq_refl eq_refl eq_refl MR) as G.
    destruct de; cbn [fst snd rend].
    - rewrite <- (app_nil_r ds). apply G. cbn. auto.
    - unfold ce in *. destruct (Resolve.reserved name); cbn [fst snd rend] in *.
      + specialize (G [] (rend false)). rewrite app_nil_r in G. apply G. apply FSpec_cont_seq, skip_spec.
      + pose proof (fun_part_sim d IH name args nx h g0 W) as HP.
        destruct (call_function (nquery d w) w name args (mkst h nx)) as [fs fe]. cbn [fst snd] in *.
        apply G. apply FSpec_cont_seq. exact HP.
  Qed.

  (* THE REFINEMENT THEOREM for the whole of YP.query.  For every abandonment point k: the generator object
     of the query, resumed at most k times (each time under the heap the previous resumption left), yields
     exactly the first k answer stores of Sem/Native.nquery, in order; past the last answer it ends by
     StopIteration / by an exception exactly as nquery says (also when the exception is raised by a
     registered Python predicate after it delivered j answers), and the heap is then the initial one. *)
  Theorem machine_refines_nquery d name args nx h k : wf h ->
    exists N hf itf, forall n, N <= n ->
      w_nexts n d k h (w_query name args nx) =
      Some (hf, itf, map sto (firstn k (fst (nquery d w name args (mkst h nx)))),
            if Nat.leb k (length (fst (nquery d w name args (mkst h nx)))) then RYield
            else rend (snd (nquery d w name args (mkst h nx))))
      /\ (length (fst (nquery d w name args (mkst h nx))) < k -> hf = h).
  Proof. intros W. exact (gen_refines wprog (fun d => nquery d w) d name args nx h k (call_ok_w d) W). Qed.

  (* ... for WHATEVER fuel the machine returns a value at *)
  Theorem machine_refines_nquery_fuel d name args nx h k n hf itf ys r : wf h ->
    w_nexts n d k h (w_query name args nx) = Some (hf, itf, ys, r) ->
    ys = map sto (firstn k (fst (nquery d w name args (mkst h nx)))) /\
    r = (if Nat.leb k (length (fst (nquery d w name args (mkst h nx)))) then RYield
         else rend (snd (nquery d w name args (mkst h nx)))).
  Proof. intros W. exact (gen_refines_fuel wprog (fun d => nquery d w) d name args nx h k n hf itf ys r (call_ok_w d) W). Qed.

  (* ... with the cell counters: the i-th suspension carries the counter of the i-th answer *)
  Theorem machine_refines_nquery_steps d name args nx h : wf h ->
    FSpec d 0 (fst (nquery d w name args (mkst h nx))) (rend (snd (nquery d w name args (mkst h nx))))
          (fun n => minext n d h (w_query name args nx)).
  Proof. intros W. apply (call_ok_w d 0 name args nx h W). Qed.
End WProg.

(* For every COMPILED program (RefineCompiled.compiled_ir_ok), stated over the parts of the world *)
Definition mkw (ir : ir_program) (ffix : str -> nat -> option nfun) (fvar : str -> option nfun)
    (dyn : str -> nat -> list frow) : world := {| w_ir := ir; w_fix := ffix; w_var := fvar; w_dyn := dyn |}.

Theorem compiled_machine_refines_nquery p ir : compile_program p = Some ir ->
  forall (dyn : str -> nat -> list frow) (ufix : str -> nat -> option ucode) (uvar : str -> option ucode)
         (ffix : str -> nat -> option nfun) (fvar : str -> option nfun),
  (forall name k, orealizes ir dyn ufix uvar (ufix name k) (ffix name k)) ->
  (forall name, orealizes ir dyn ufix uvar (uvar name) (fvar name)) ->
  forall d name args nx h k, wf h ->
  exists N hf itf, forall n, N <= n ->
    w_nexts ir dyn ufix uvar n d k h (w_query ir dyn ufix uvar name args nx) =
    Some (hf, itf, map sto (firstn k (fst (nquery d (mkw ir ffix fvar dyn) name args (mkst h nx)))),
          if Nat.leb k (length (fst (nquery d (mkw ir ffix fvar dyn) name args (mkst h nx)))) then RYield
          else rend (snd (nquery d (mkw ir ffix fvar dyn) name args (mkst h nx))))
    /\ (length (fst (nquery d (mkw ir ffix fvar dyn) name args (mkst h nx))) < k -> hf = h).
Proof.
  intros HC dyn ufix uvar ffix fvar Hf Hv.
  apply (machine_refines_nquery ir dyn ufix uvar (mkw ir ffix fvar dyn) eq_refl (fun _ _ => eq_refl) Hf Hv).
  eapply compiled_ir_ok; eauto.
Qed.

Theorem compiled_machine_refines_nquery_fuel p ir : compile_program p = Some ir ->
  forall (dyn : str -> nat -> list frow) (ufix : str -> nat -> option ucode) (uvar : str -> option ucode)
         (ffix : str -> nat -> option nfun) (fvar : str -> option nfun),
  (forall name k, orealizes ir dyn ufix uvar (ufix name k) (ffix name k)) ->
  (forall name, orealizes ir dyn ufix uvar (uvar name) (fvar name)) ->
  forall d name args nx h k n hf itf ys r, wf h ->
  w_nexts ir dyn ufix uvar n d k h (w_query ir dyn ufix uvar name args nx) = Some (hf, itf, ys, r) ->
  ys = map sto (firstn k (fst (nquery d (mkw ir ffix fvar dyn) name args (mkst h nx)))) /\
  r = (if Nat.leb k (length (fst (nquery d (mkw ir ffix fvar dyn) name args (mkst h nx)))) then RYield
       else rend (snd (nquery d (mkw ir ffix fvar dyn) name args (mkst h nx)))).
Proof.
  intros HC dyn ufix uvar ffix fvar Hf Hv d name args nx h k n hf itf ys r.
  apply (machine_refines_nquery_fuel ir dyn ufix uvar (mkw ir ffix fvar dyn) eq_refl (fun _ _ => eq_refl) Hf Hv).
  eapply compiled_ir_ok; eauto.
Qed.
