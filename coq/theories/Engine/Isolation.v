(* C04: isolation of engine instances in the world model (Engine/World.v).

   Pe n i = the cells of engine i (cell numbers = i mod n: the user variables of engine i and every cell
   one of its queries / updates allocates).  World invariant (winv): every engine id is < n, every
   suspended generator (cursor) of engine i holds only terms over Pe n i, and in the shared heap the
   value of a cell of engine j mentions only cells of engine j (for every j).

   estep_frame   one operation of engine i, of ANY kind, run on the shared heap and run on the heap cut down
                 to the cells of engine i gives the same engine state, the same observation and the same
                 own part of the heap; the bindings of all other cells stay where they are (same values,
                 same order); the invariant is kept.
   step_local    the same at the level of the world: the other engines' records are untouched.
   interleave_alone   for EVERY schedule (merge of per-engine histories, any number of engines) and every
                 engine i: what i observes, the state it ends in and its part of the heap are those of
                 running i's operations alone on a private heap (erun).  Induction over the schedule. *)
From Coq Require Import String.
From Coq Require Import List Arith Bool Lia ZArith.
Import ListNotations.
From YP Require Import Base.Str Term.Term Term.Show Unify.Unify Engine.Deref Engine.Frame Engine.Db Engine.World Engine.CursorFrame.

Lemma aget_aset_eq {V} k (v : V) l : aget Nat.eqb k (aset Nat.eqb k v l) = Some v.
Proof. rewrite (aget_aset _ Nat.eqb_spec), Nat.eqb_refl. reflexivity. Qed.
Lemma aget_aset_neq {V} k k' (v : V) l : k <> k' -> aget Nat.eqb k' (aset Nat.eqb k v l) = aget Nat.eqb k' l.
Proof. intros N. rewrite (aget_aset _ Nat.eqb_spec). destruct (Nat.eqb_spec k' k); [congruence|reflexivity]. Qed.
Lemma aget_aset_inv {V} k k' (v v' : V) l :
  aget Nat.eqb k' (aset Nat.eqb k v l) = Some v' -> (k' = k /\ v' = v) \/ (k' <> k /\ aget Nat.eqb k' l = Some v').
Proof.
  rewrite (aget_aset _ Nat.eqb_spec). destruct (Nat.eqb_spec k' k); intros H; [left|right]; split; congruence.
Qed.
Lemma aget_In {V} k (v : V) l : aget Nat.eqb k l = Some v -> In (k, v) l.
Proof.
  induction l as [|[k' v'] l IH]; simpl; [discriminate|].
  destruct (Nat.eqb_spec k k') as [->|N]; intros H; [inversion H; auto|auto].
Qed.
Lemma Forall_aset {V} (Q : nat * V -> Prop) k v l : Forall Q l -> Q (k, v) -> Forall Q (aset Nat.eqb k v l).
Proof.
  intros F Hq. induction l as [|[k' v'] l IH]; simpl; [auto|].
  pose proof (Forall_inv F) as F1. pose proof (Forall_inv_tail F) as F2.
  destruct (Nat.eqb k k'); constructor; auto.
Qed.

Definition Pe (n i v : nat) : bool := Nat.eqb (eng_of n v) i.

Lemma Pe_disjoint n i j v : i <> j -> Pe n i v = true -> Pe n j v = false.
Proof.
  unfold Pe. intros N H. apply Nat.eqb_eq in H. apply Nat.eqb_neq. congruence.
Qed.

Definition slot_of (o : op) : option nat :=
  match o with ONext q | OClose q | ODrain q => Some q | _ => None end.

Inductive slotop := SNext | SClose | SDrain.
(* meant for operations on a slot (slot_of o <> None) *)
Definition slotop_of (o : op) : slotop :=
  match o with OClose _ => SClose | ODrain _ => SDrain | _ => SNext end.
Definition cop (fuel : nat) (fresh : nat -> nat) (k : slotop) (d : db) (h : store) (c : cursor)
  : cursor * store * obs * list ev * db :=
  match k with
  | SNext => let '(c', h', r, lg, d') := cnext fuel d fresh h c in (c', h', res_obs r, lg, d')
  | SClose => (fst (cclose h c), snd (cclose h c), otag "closed" [], [], d)
  | SDrain =>
      let '(c', h', answers, err, lg, d') := cdrain fuel fuel d fresh h c [] [] in
      (c', h', otag "all" [OL (map (fun vals => OL (map term_obs vals)) answers); oopt onat err], lg, d')
  end.

Lemma estep_slot fuel n i o q e h : slot_of o = Some q ->
  estep fuel n i o e h =
  match aget Nat.eqb q (cursors e) with
  | None => (e, h, otag "noslot" [])
  | Some c =>
      let '(c', h', ob, lg, d') := cop fuel (ccell n i (cown c)) (slotop_of o) (edb e) h c in
      (with_atoms (with_db (with_cursors e (aset Nat.eqb q c' (cursors e))) d') (intern_all (names_of lg) (atoms e, natom e)),
       h', ob)
  end.
Proof.
  intros So. destruct o; try discriminate; inversion So; subst; cbn [estep cop slotop_of];
    destruct (aget Nat.eqb q (cursors e)) as [c|]; try reflexivity.
  - destruct (cnext fuel (edb e) (ccell n i (cown c)) h c) as [[[[c1 h1] r] lg] d1]. reflexivity.
  - destruct (cdrain fuel fuel (edb e) (ccell n i (cown c)) h c [] []) as [[[[[c1 h1] answers] err] lg] d1]. reflexivity.
Qed.

Lemma estep_start fuel n i q nm args e h :
  estep fuel n i (OStart q nm args) e h =
  (bump (with_cursors e (aset Nat.eqb q (cstart (nstart e) nm (map (rn (ucell n i)) args)) (cursors e))),
   match aget Nat.eqb q (cursors e) with Some c => unbind (ctrail c) h | None => h end,
   otag "started" []).
Proof. cbn [estep]. destruct (aget Nat.eqb q (cursors e)); reflexivity. Qed.

Section AnyCells.
Variable P : nat -> bool.

Lemma cdrain_frame fresh : (forall k, P (fresh k) = true) ->
  forall m fuel d h c acc lg c' h' answers err lg' d',
  closed P h -> cgood P c ->
  cdrain m fuel d fresh h c acc lg = (c', h', answers, err, lg', d') ->
  cdrain m fuel d fresh (fP P h) c acc lg = (c', fP P h', answers, err, lg', d') /\ framed P h c h' c'.
Proof.
  intros Hf. induction m as [|m IH]; intros fuel d h c acc lg c' h' answers err lg' d' C G E; cbn [cdrain] in *.
  - injection E as <- <- <- <- <- <-. split; [reflexivity|apply framed_refl; assumption].
  - destruct (cnext fuel d fresh h c) as [[[[c1 h1] r] nm] d1] eqn:E1.
    destruct (@cnext_frame P fresh Hf fuel d _ _ _ _ _ _ _ C G E1) as [A F1].
    rewrite A. destruct r as [vals| |k].
    2, 3: injection E as <- <- <- <- <- <-; split; [reflexivity|exact F1].
    destruct (IH fuel d1 h1 c1 (vals :: acc) (nm ++ lg) _ _ _ _ _ _ (fr_closed F1) (fr_good F1) E) as [A2 F2].
    split; [exact A2|exact (framed_trans F1 F2)].
Qed.

Lemma cop_frame fuel fresh k d h c c' h' ob lg d' : (forall k, P (fresh k) = true) -> closed P h -> cgood P c ->
  cop fuel fresh k d h c = (c', h', ob, lg, d') ->
  cop fuel fresh k d (fP P h) c = (c', fP P h', ob, lg, d') /\ framed P h c h' c'.
Proof.
  intros Hf C G E. destruct k; cbn [cop] in *.
  - destruct (cnext fuel d fresh h c) as [[[[c1 h1] r] lg1] d1] eqn:E1.
    destruct (@cnext_frame P fresh Hf fuel d _ _ _ _ _ _ _ C G E1) as [A R]. rewrite A. injection E as <- <- <- <- <-.
    split; [reflexivity|exact R].
  - destruct (@cclose_frame P h c C G) as [A R]. rewrite A. injection E as <- <- <- <- <-. split; [reflexivity|exact R].
  - destruct (cdrain fuel fuel d fresh h c [] []) as [[[[[c1 h1] answers] err] lg1] d1] eqn:E1.
    destruct (cdrain_frame _ Hf _ _ _ _ _ _ _ _ _ _ _ _ _ C G E1) as [A R]. rewrite A. injection E as <- <- <- <- <-.
    split; [reflexivity|exact R].
Qed.

Lemma cstart_good ow nm args : Forall (tin P) args -> cgood P (cstart ow nm args).
Proof.
  intros F. unfold cstart, cgood. cbn [cargs cfr ctrail].
  split; [exact F|]. split; [|apply good_nil].
  constructor; [|constructor]. constructor; [apply good_nil|].
  constructor; [|constructor]. exact F.
Qed.

End AnyCells.

Section OneEngine.
Variables n i : nat.
Hypothesis Hi : i < n.
Let P := Pe n i.

Lemma P_ucell u : P (ucell n i u) = true.
Proof. unfold P, Pe, ucell. rewrite (eng_of_cell _ _ _ Hi). apply Nat.eqb_refl. Qed.
Lemma P_ccell c k : P (ccell n i c k) = true.
Proof. unfold P, Pe, ccell. rewrite (eng_of_cell _ _ _ Hi). apply Nat.eqb_refl. Qed.

(* every generator the caller of this engine holds is over the engine's own cells *)
Definition einv (e : engine) : Prop := Forall (fun qc : nat * cursor => cgood P (snd qc)) (cursors e).

Lemma einv_get e q c : einv e -> aget Nat.eqb q (cursors e) = Some c -> cgood P c.
Proof.
  intros I H. apply aget_In in H. unfold einv in I. rewrite Forall_forall in I. exact (I _ H).
Qed.

Lemma uargs_tin args : Forall (tin P) (map (rn (ucell n i)) args).
Proof. apply lin_rn. apply P_ucell. Qed.

Lemma den2_args_filter h args : closed P h ->
  map (den2 (fP P h)) (map (rn (ucell n i)) args) = map (den2 h) (map (rn (ucell n i)) args).
Proof.
  intros C. apply map_ext_in. intros a Ha. rewrite !den2_den. apply den_filter; auto.
  pose proof (uargs_tin args) as F. rewrite Forall_forall in F. auto.
Qed.

Lemma einv_with_atoms e a : einv (with_atoms e a) <-> einv e.
Proof. unfold einv. destruct e; simpl. tauto. Qed.
Lemma einv_with_db e d : einv (with_db e d) <-> einv e.
Proof. unfold einv. destruct e; simpl. tauto. Qed.
Lemma einv_bump e : einv (bump e) <-> einv e.
Proof. unfold einv. destruct e; simpl. tauto. Qed.
Lemma einv_set e q c : einv e -> cgood P c -> einv (with_cursors e (aset Nat.eqb q c (cursors e))).
Proof. intros I G. unfold einv. destruct e; simpl in *. apply Forall_aset; auto. Qed.

Lemma estep_frame_slot fuel o q e h e' h' ob : slot_of o = Some q -> closed P h -> einv e ->
  estep fuel n i o e h = (e', h', ob) ->
  estep fuel n i o e (fP P h) = (e', fP P h', ob)
  /\ fN P h' = fN P h /\ einv e' /\ closed P h' /\ newP P h h'.
Proof.
  intros So C I E. rewrite (estep_slot fuel n i o q e h So) in E. rewrite (estep_slot fuel n i o q e (fP P h) So).
  destruct (aget Nat.eqb q (cursors e)) as [c|] eqn:Eq.
  - destruct (cop fuel (ccell n i (cown c)) (slotop_of o) (edb e) h c) as [[[[c1 h1] ob1] lg1] d1] eqn:Ec.
    destruct (cop_frame P _ _ _ _ _ _ _ _ _ _ _ (P_ccell (cown c)) C (einv_get e q c I Eq) Ec) as [A F].
    rewrite A. injection E as <- <- <-.
    split; [reflexivity|]. split; [exact (fr_rest F)|]. split; [|split; [exact (fr_closed F)|exact (fr_new F)]].
    apply einv_with_atoms, einv_with_db, einv_set; [exact I|exact (fr_good F)].
  - injection E as <- <- <-. auto 6 using newP_refl.
Qed.

Theorem estep_frame fuel o e h e' h' ob : closed P h -> einv e ->
  estep fuel n i o e h = (e', h', ob) ->
  estep fuel n i o e (fP P h) = (e', fP P h', ob)
  /\ fN P h' = fN P h /\ einv e' /\ closed P h' /\ newP P h h'.
Proof.
  intros C I. destruct (slot_of o) as [q|] eqn:So; [apply (estep_frame_slot fuel o q); assumption|].
  destruct o as [nm|app nm args|nm args|nm ar rows|ov script| |q nm args|q|q|q|ts]; try discriminate So.
  (* atom, register, load and clear do not look at the heap *)
  1, 4, 5, 6: cbn [estep]; intros E; injection E as <- <- <-; auto 6 using newP_refl.
  - cbn [estep]. rewrite (den2_args_filter h args C). intros E. injection E as <- <- <-. auto 6 using newP_refl.
  - cbn [estep].
    rewrite (@retract_list_frame P h (ccell n i (nstart e)) (map (rn (ucell n i)) args)
               (find_facts (edb e) nm (length args)) C (P_ccell (nstart e)) (uargs_tin args)).
    destruct (retract_list h (ccell n i (nstart e)) (map (rn (ucell n i)) args) (find_facts (edb e) nm (length args)));
      intros E; injection E as <- <- <-; auto 6 using newP_refl.
  - rewrite !estep_start. intros E. injection E as <- <- <-.
    assert (I1 : einv (bump (with_cursors e (aset Nat.eqb q (cstart (nstart e) nm (map (rn (ucell n i)) args)) (cursors e))))).
    { apply einv_bump. apply einv_set; [exact I|apply cstart_good, uargs_tin]. }
    destruct (aget Nat.eqb q (cursors e)) as [c|] eqn:Eq; [|auto 6 using newP_refl].
    destruct (framed_unbind 0 C (einv_get e q c I Eq)) as [EN _ C1 N1 _].
    rewrite unbind_fP. auto 6.
  - cbn [estep]. rewrite (den2_args_filter h ts C). intros E. injection E as <- <- <-. auto 6 using newP_refl.
Qed.

(* noninterference form: two heaps that agree on the cells of engine i *)
Corollary estep_agree fuel o e h1 h2 e1 h1' ob1 e2 h2' ob2 :
  closed P h1 -> closed P h2 -> einv e -> fP P h1 = fP P h2 ->
  estep fuel n i o e h1 = (e1, h1', ob1) -> estep fuel n i o e h2 = (e2, h2', ob2) ->
  e1 = e2 /\ ob1 = ob2 /\ fP P h1' = fP P h2' /\ fN P h1' = fN P h1 /\ fN P h2' = fN P h2.
Proof.
  intros C1 C2 I Eh E1 E2.
  destruct (estep_frame fuel o e h1 _ _ _ C1 I E1) as [A1 [N1 _]].
  destruct (estep_frame fuel o e h2 _ _ _ C2 I E2) as [A2 [N2 _]].
  rewrite Eh in A1. rewrite A1 in A2. inversion A2; subst. auto.
Qed.

Fixpoint erun (fuel : nat) (ops : list op) (e : engine) (h : store) : engine * store * list obs :=
  match ops with
  | [] => (e, h, [])
  | o :: r =>
      let '(e1, h1, ob) := estep fuel n i o e h in
      let '(e2, h2, obs) := erun fuel r e1 h1 in
      (e2, h2, ob :: obs)
  end.

End OneEngine.

Definition hinv (n : nat) (h : store) : Prop := forall j, closed (Pe n j) h.
Definition winv (w : world) : Prop :=
  hinv (wn w) (heap w) /\
  forall i e, aget Nat.eqb i (engs w) = Some e -> i < wn w /\ einv (wn w) i e.

Lemma init_engine_inv n i : einv n i init_engine.
Proof. constructor. Qed.

Lemma aget_init i : forall m s e,
  aget Nat.eqb i (map (fun k => (k, init_engine)) (seq s m)) = Some e <-> e = init_engine /\ s <= i < s + m.
Proof.
  induction m as [|m IH]; intros s e; cbn [seq map aget].
  - split; [discriminate|lia].
  - destruct (Nat.eqb_spec i s) as [->|N].
    + split; [intros H; injection H as <-; split; [reflexivity|lia]|intros [-> _]; reflexivity].
    + rewrite IH. split; intros [E L]; (split; [exact E|lia]).
Qed.

Lemma init_world_inv n : winv (init_world n).
Proof.
  split.
  - intros j v t [].
  - intros i e H. apply aget_init in H as [-> L]. cbn [wn init_world]. split; [lia|apply init_engine_inv].
Qed.

(* a step of engine i: the other engines' records are untouched, all bindings of cells that are not
      engine i's stay where they are, the step is a function of engine i's record and of engine i's part of
      the heap only, and it produces bindings of engine i's cells only *)
Theorem step_local fuel w i o w' ob : winv w -> wstep fuel w (i, o) = (w', ob) ->
  winv w' /\ wn w' = wn w
  /\ (forall j, j <> i -> aget Nat.eqb j (engs w') = aget Nat.eqb j (engs w))
  /\ fN (Pe (wn w) i) (heap w') = fN (Pe (wn w) i) (heap w)
  /\ (forall j, j <> i -> fP (Pe (wn w) j) (heap w') = fP (Pe (wn w) j) (heap w))
  /\ newP (Pe (wn w) i) (heap w) (heap w')
  /\ match aget Nat.eqb i (engs w) with
     | None => w' = w
     | Some e => exists e', aget Nat.eqb i (engs w') = Some e'
                   /\ estep fuel (wn w) i o e (fP (Pe (wn w) i) (heap w)) = (e', fP (Pe (wn w) i) (heap w'), ob)
     end.
Proof.
  intros [HI EI] E. unfold wstep in E. cbn [fst snd] in E.
  destruct (aget Nat.eqb i (engs w)) as [e|] eqn:Eg.
  - destruct (EI i e Eg) as [Hi Ie].
    destruct (estep fuel (wn w) i o e (heap w)) as [[e1 h1] ob1] eqn:E1.
    inversion E; subst; clear E. cbn [wn engs heap].
    destruct (estep_frame (wn w) i Hi fuel o e (heap w) _ _ _ (HI i) Ie E1) as [A [EN [I1 [C1 N1]]]].
    destruct (@family_step (Pe (wn w)) i (heap w) h1 (Pe_disjoint (wn w)) HI C1 N1 EN) as [HI1 FP].
    split; [|repeat split; auto].
    + split; cbn [wn engs heap]; [exact HI1|].
      intros j ej Hj. apply aget_aset_inv in Hj as [[-> ->]|[_ Hj]]; auto.
    + intros j Nj. apply aget_aset_neq. auto.
    + exists e1. split; [apply aget_aset_eq|exact A].
  - inversion E; subst. split; [split; assumption|]. repeat (split; [solve [auto using newP_refl]|]). reflexivity.
Qed.

(* every merge: engine i's observations, final record and final part of the heap are those of its own
      operations run alone on a private heap *)
Theorem interleave_alone fuel : forall sched w w' tr, winv w -> wrun fuel w sched = (w', tr) ->
  winv w' /\
  forall i e, aget Nat.eqb i (engs w) = Some e ->
    exists e', aget Nat.eqb i (engs w') = Some e' /\
      erun (wn w) i fuel (map snd (only i sched)) e (fP (Pe (wn w) i) (heap w))
      = (e', fP (Pe (wn w) i) (heap w'), proj i tr).
Proof.
  induction sched as [|[j o] r IH]; intros w w' tr W E.
  - cbn [wrun] in E. inversion E; subst. split; [exact W|]. intros i e H. exists e. split; [exact H|reflexivity].
  - cbn [wrun] in E.
    destruct (wstep fuel w (j, o)) as [w1 ob] eqn:E1.
    destruct (wrun fuel w1 r) as [w2 tr2] eqn:E2.
    inversion E; subst; clear E.
    destruct (step_local fuel w j o w1 ob W E1) as [W1 [En [Eo [EN [EP [_ Ej]]]]]].
    destruct (IH w1 w' tr2 W1 E2) as [W2 Hrest].
    split; [exact W2|]. intros i e Hi.
    unfold only, proj. cbn [filter fst snd].
    destruct (Nat.eqb_spec j i) as [->|Nj].
    + rewrite Hi in Ej. destruct Ej as [e1 [G1 S1]].
      destruct (Hrest i e1 G1) as [e' [G' R']]. exists e'. split; [exact G'|].
      cbn [map snd erun]. rewrite S1. rewrite En in R'. fold (only i r). rewrite R'. reflexivity.
    + rewrite <- (Eo i (not_eq_sym Nj)) in Hi.
      destruct (Hrest i e Hi) as [e' [G' R']]. exists e'. split; [exact G'|].
      rewrite En, (EP i (not_eq_sym Nj)) in R'. exact R'.
Qed.

(* from the initial world: the per-engine observation sequence of any schedule over any number of engines *)
Corollary interleave_alone_init fuel n sched i : i < n ->
  proj i (snd (wrun fuel (init_world n) sched))
  = snd (erun n i fuel (map snd (only i sched)) init_engine []).
Proof.
  intros Hi. destruct (wrun fuel (init_world n) sched) as [w' tr] eqn:E.
  destruct (interleave_alone fuel sched _ _ _ (init_world_inv n) E) as [_ H].
  assert (G : aget Nat.eqb i (engs (init_world n)) = Some init_engine).
  { apply aget_init. split; [reflexivity|lia]. }
  destruct (H i init_engine G) as [e' [_ R]]. cbn [wn heap init_world fP filter] in R.
  rewrite R. reflexivity.
Qed.

(* two merges of the same per-engine histories are indistinguishable for every engine *)
Corollary merges_indistinguishable fuel n s1 s2 i : i < n -> only i s1 = only i s2 ->
  proj i (snd (wrun fuel (init_world n) s1)) = proj i (snd (wrun fuel (init_world n) s2)).
Proof.
  intros Hi E. rewrite !(interleave_alone_init fuel n _ i Hi), E. reflexivity.
Qed.

Lemma proj_own fuel i : forall l w, Forall (fun x : nat * op => fst x = i) l ->
  proj i (snd (wrun fuel w l)) = map snd (snd (wrun fuel w l)).
Proof.
  induction l as [|x r IH]; intros w F; [reflexivity|].
  cbn [wrun]. destruct (wstep fuel w x) as [w1 o]. specialize (IH w1 (Forall_inv_tail F)).
  destruct (wrun fuel w1 r) as [w2 tr]. unfold proj in *. cbn [snd filter fst map] in *.
  rewrite (Forall_inv F), Nat.eqb_refl. cbn [map snd]. rewrite IH. reflexivity.
Qed.

Corollary interleave_alone_world fuel n sched i : i < n ->
  proj i (snd (wrun fuel (init_world n) sched)) = map snd (snd (wrun fuel (init_world n) (only i sched))).
Proof.
  intros Hi. rewrite <- (proj_own fuel i).
  - apply merges_indistinguishable; [exact Hi|]. symmetry. apply filter_filter_impl. auto.
  - apply Forall_forall. intros x Hx. apply filter_In in Hx as [_ Hx]. apply Nat.eqb_eq. exact Hx.
Qed.

(* sched is a merge of the histories hists (hists[i] = the operations of engine i, in order) *)
Definition is_merge (n : nat) (hists : list (list op)) (sched : list (nat * op)) : Prop :=
  forall i, i < n -> map snd (only i sched) = nth i hists [].

Corollary every_merge fuel n hists sched : is_merge n hists sched ->
  forall i, i < n ->
  proj i (snd (wrun fuel (init_world n) sched)) = snd (erun n i fuel (nth i hists []) init_engine []).
Proof. intros M i Hi. rewrite (interleave_alone_init fuel n sched i Hi), (M i Hi). reflexivity. Qed.

(* the whole history of engine k, then the whole history of engine k+1, ... *)
Fixpoint b2b (k : nat) (hists : list (list op)) : list (nat * op) :=
  match hists with
  | [] => []
  | h :: r => map (pair k) h ++ b2b (S k) r
  end.

Lemma only_app i a b : only i (a ++ b) = only i a ++ only i b.
Proof. apply filter_app. Qed.
Lemma only_map_pair i k (h : list op) : only i (map (pair k) h) = if Nat.eqb k i then map (pair k) h else [].
Proof.
  unfold only. induction h as [|o h IH]; simpl; [destruct (Nat.eqb k i); reflexivity|].
  rewrite IH. destruct (Nat.eqb k i); reflexivity.
Qed.
Lemma b2b_only i : forall hists k,
  map snd (only i (b2b k hists)) = if Nat.leb k i then nth (i - k) hists [] else [].
Proof.
  induction hists as [|h r IH]; intros k; cbn [b2b].
  - destruct (Nat.leb k i); [destruct (i - k)|]; reflexivity.
  - rewrite only_app, map_app, only_map_pair, IH.
    destruct (Nat.eqb_spec k i) as [->|N].
    + rewrite Nat.leb_refl, Nat.sub_diag. destruct (Nat.leb_spec (S i) i); [lia|].
      rewrite map_map. cbn [snd nth]. rewrite map_id, app_nil_r. reflexivity.
    + destruct (Nat.leb_spec (S k) i); destruct (Nat.leb_spec k i); try lia; cbn [map app]; auto.
      replace (i - k) with (S (i - S k)) by lia. reflexivity.
Qed.
Lemma b2b_is_merge n hists : is_merge n hists (b2b 0 hists).
Proof. intros i _. rewrite b2b_only. cbn [Nat.leb]. rewrite Nat.sub_0_r. reflexivity. Qed.

(* every merge of the histories shows each engine what it sees when the histories run back to back *)
Corollary merge_eq_back_to_back fuel n hists sched : is_merge n hists sched ->
  forall i, i < n ->
  proj i (snd (wrun fuel (init_world n) sched)) = proj i (snd (wrun fuel (init_world n) (b2b 0 hists))).
Proof.
  intros M i Hi. rewrite (every_merge fuel n hists sched M i Hi).
  rewrite (every_merge fuel n hists (b2b 0 hists) (b2b_is_merge n hists) i Hi). reflexivity.
Qed.
