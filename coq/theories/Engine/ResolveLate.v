(* Late binding: a call consults the context that is current when it is made.
   1. answers depend on the engine only through the dictionaries' contents (so two load orders
      that produce the same contents are indistinguishable), and loads of scripts with
      disjoint keys commute;
   2. schedules: a generator is resumed under a sequence of engines (the engine may be changed
      between two answers).  A call is made at its first resumption: its facts AND its
      definitions are those of the engine of that moment, whatever happens to the engine
      while the call is suspended (on a fact or inside a definition).  Calls made from the
      body of a definition are new calls, made when the body reaches them. *)
From Coq Require Import String.
From Coq Require Import List Arith NArith Bool Lia.
Import ListNotations.
From YP Require Import Base.Str Engine.Resolve Engine.ResolveProofs.

Definition eng_equiv (e1 e2 : engine) : Prop :=
  (forall k, db_get (e_db e1) k = db_get (e_db e2) k) /\
  (forall k, ctx_get (e_ctx e1) k = ctx_get (e_ctx e2) k).

Section Ext.
  Variables call1 call2 : str -> list nat -> nat -> store -> gen.
  Variables e1 e2 : engine.
  Hypothesis Heq : eng_equiv e1 e2.
  Hypothesis Hcall : forall nm args nx s,
    drain e1 (call1 nm args nx s e1) = drain e2 (call2 nm args nx s e2).

  Lemma goals_ext gs : forall env nx s,
    drain e1 (goals_gen call1 gs env nx s e1) = drain e2 (goals_gen call2 gs env nx s e2).
  Proof.
    induction gs as [|g gs IH]; intros env nx s; [reflexivity|].
    destruct g as [v a | nm vs | | ]; cbn [goals_gen].
    - destruct (nth_error env v) as [gv|]; [|apply IH].
      destruct (unify_atom s gv a); [apply IH | reflexivity].
    - rewrite !drain_bind, Hcall. destruct (drain e2 (call2 nm (env_args env vs) nx s e2)) as [l fi].
      apply res_bind_ext. intros s'. apply IH.
    - rewrite !drain_append, IH. apply res_app_ext. reflexivity.
    - reflexivity.
  Qed.

  Lemma clauses_ext cs : forall args nx s,
    drain e1 (clauses_gen call1 cs args nx s e1) = drain e2 (clauses_gen call2 cs args nx s e2).
  Proof.
    induction cs as [|c cs IH]; intros args nx s; [reflexivity|].
    cbn [clauses_gen]. rewrite !drain_append. unfold clause_gen. rewrite goals_ext.
    apply res_app_ext. intros [| | |]; try reflexivity. apply IH.
  Qed.

  Lemma chain_ext ds : forall args nx s,
    drain e1 (chain_gen call1 ds args nx s e1) = drain e2 (chain_gen call2 ds args nx s e2).
  Proof.
    induction ds as [|d ds IH]; intros args nx s; [reflexivity|].
    rewrite !drain_chain_cons. unfold def_gen. rewrite clauses_ext.
    apply res_app_ext. intros [| | |]; try reflexivity; apply IH.
  Qed.

  Lemma query_body_ext name args nx s :
    drain e1 (query_body call1 name args nx s e1) = drain e2 (query_body call2 name args nx s e2).
  Proof.
    rewrite !drain_query_body, !drain_fun_phase.
    destruct Heq as [Hdb Hctx].
    assert (Hd : defs_of (e_ctx e1) name (length args) = defs_of (e_ctx e2) name (length args)).
    { unfold defs_of, resolve. rewrite !Hctx. reflexivity. }
    rewrite Hd, Hdb. destruct (reserved name); [reflexivity|].
    destruct (forallb (params_ok (length args)) (defs_of (e_ctx e2) name (length args))); [|reflexivity].
    rewrite chain_ext. reflexivity.
  Qed.
End Ext.

Theorem query_ext e1 e2 : eng_equiv e1 e2 -> forall fuel name args nx s,
  drain e1 (query_gen fuel name args nx s e1) = drain e2 (query_gen fuel name args nx s e2).
Proof.
  intros Heq. induction fuel as [|f IH]; intros name args nx s; [reflexivity|].
  cbn [query_gen]. apply query_body_ext; [exact Heq | exact IH].
Qed.

Lemma bound_in_ext (c c' : ctx) k : ctx_val c k = ctx_val c' k -> bound_in c k = bound_in c' k.
Proof. unfold bound_in, ctx_val. intros ->. reflexivity. Qed.

(* loads of scripts that mention different keys commute (whatever their overwrite flags, and
   whatever the scripts bind: functions, constants, None, deletions) *)
Theorem load_commute c sc1 ow1 sc2 ow2 c1 c12 :
  (forall k, In k (bound_keys (s_stmts sc1)) -> ~ In k (bound_keys (s_stmts sc2))) ->
  load c sc1 ow1 = Some c1 -> load c1 sc2 ow2 = Some c12 ->
  exists c2 c21, load c sc2 ow2 = Some c2 /\ load c2 sc1 ow1 = Some c21 /\
                 forall k, ctx_val c12 k = ctx_val c21 k.
Proof.
  intros Hdis H1 H12.
  assert (Hok1 : s_broken sc1 = false /\ exec_ok (s_stmts sc1) (bound_in c) = true) by (apply (load_ok_iff c sc1 ow1); exists c1; exact H1).
  assert (Hok2 : s_broken sc2 = false /\ exec_ok (s_stmts sc2) (bound_in c1) = true) by (apply (load_ok_iff c1 sc2 ow2); exists c12; exact H12).
  assert (Hok2' : exec_ok (s_stmts sc2) (bound_in c) = true).
  { destruct Hok2 as [_ <-]. apply exec_ok_local. intros x Hx. apply bound_in_ext. symmetry.
    apply (load_frame _ _ _ _ _ H1). intros Hi. exact (Hdis x Hi Hx). }
  destruct (proj2 (load_ok_iff c sc2 ow2) (conj (proj1 Hok2) Hok2')) as [c2 H2].
  assert (Hok1' : exec_ok (s_stmts sc1) (bound_in c2) = true).
  { destruct Hok1 as [_ <-]. apply exec_ok_local. intros x Hx. apply bound_in_ext.
    apply (load_frame _ _ _ _ _ H2). exact (Hdis x Hx). }
  destruct (proj2 (load_ok_iff c2 sc1 ow1) (conj (proj1 Hok1) Hok1')) as [c21 H21].
  exists c2, c21. split; [exact H2|]. split; [exact H21|]. intros k.
  destruct (in_dec (list_eq_dec N.eq_dec) k (bound_keys (s_stmts sc1))) as [Hi1|Hi1].
  - assert (Hn2 := Hdis k Hi1).
    assert (E2 : ctx_val c2 k = ctx_val c k) by (apply (load_frame _ _ _ _ _ H2 Hn2)).
    rewrite (load_frame _ _ _ _ _ H12 Hn2).
    rewrite (load_val _ _ _ _ k H1), (load_val _ _ _ _ k H21), E2.
    destruct (last_eff (s_stmts sc1) k) as [[v|]|]; try reflexivity. symmetry. apply merged_ext. exact E2.
  - assert (E1 : ctx_val c1 k = ctx_val c k) by (apply (load_frame _ _ _ _ _ H1 Hi1)).
    rewrite (load_frame _ _ _ _ _ H21 Hi1).
    rewrite (load_val _ _ _ _ k H12), (load_val _ _ _ _ k H2), E1.
    destruct (last_eff (s_stmts sc2) k) as [[v|]|]; try reflexivity. apply merged_ext. exact E1.
Qed.

(* ... so every query answers the same after either load order: references between the
   scripts are looked up when the call is made, not when the script is loaded *)
Theorem load_order_irrelevant m c sc1 ow1 sc2 ow2 c1 c12 :
  (forall k, In k (bound_keys (s_stmts sc1)) -> ~ In k (bound_keys (s_stmts sc2))) ->
  load c sc1 ow1 = Some c1 -> load c1 sc2 ow2 = Some c12 ->
  exists c2 c21, load c sc2 ow2 = Some c2 /\ load c2 sc1 ow1 = Some c21 /\
    forall fuel name args nx s,
      drain (mkEngine m c12) (query_gen fuel name args nx s (mkEngine m c12)) =
      drain (mkEngine m c21) (query_gen fuel name args nx s (mkEngine m c21)).
Proof.
  intros Hdis H1 H12. destruct (load_commute _ _ _ _ _ _ _ Hdis H1 H12) as [c2 [c21 [H2 [H21 Hk]]]].
  exists c2, c21. split; [exact H2|]. split; [exact H21|].
  apply query_ext. split; [reflexivity|]. intros k. cbn [e_ctx]. unfold ctx_get. rewrite Hk. reflexivity.
Qed.

(* resume g under e1, the generator it yields under e2, ...; None = still suspended *)
Fixpoint run_sched (es : list engine) (g : gen) : list store * option fin :=
  match es with
  | [] => ([], None)
  | e :: r =>
      match g e with
      | Done f => ([], Some f)
      | Yield s k => let (l, f) := run_sched r k in (s :: l, f)
      end
  end.

Lemma run_sched_first e r g g' : g e = g' e -> run_sched (e :: r) g = run_sched (e :: r) g'.
Proof. intros H. simpl. rewrite H. reflexivity. Qed.

Lemma run_sched_ext es g g' : (forall e, g e = g' e) -> run_sched es g = run_sched es g'.
Proof. intros H. destruct es as [|e r]; [reflexivity|]. apply run_sched_first. apply H. Qed.

Lemma run_sched_smap h es : forall g,
  run_sched es (fun e => smap h (g e)) = (map h (fst (run_sched es g)), snd (run_sched es g)).
Proof.
  induction es as [|e r IH]; intros g; [reflexivity|].
  simpl. destruct (g e) as [f|s k]; simpl; [reflexivity|].
  rewrite IH. destruct (run_sched r k). reflexivity.
Qed.

Lemma facts_gen_yield f fs args s s' after e r : match_fact s args f = Some s' ->
  run_sched (e :: r) (facts_gen (f :: fs) args s after) =
  let (l, fi) := run_sched r (facts_gen fs args s after) in (s' :: l, fi).
Proof. intros Em. cbn [run_sched facts_gen]. rewrite Em. reflexivity. Qed.

Lemma facts_gen_skip f fs args s after es : match_fact s args f = None ->
  run_sched es (facts_gen (f :: fs) args s after) = run_sched es (facts_gen fs args s after).
Proof. intros Em. apply run_sched_ext. intros e. cbn [facts_gen]. rewrite Em. reflexivity. Qed.

(* the fact phase under ANY schedule: one resumption per matching fact, the continuation gets
   what is left of the schedule; a schedule that ends earlier leaves the call suspended *)
Lemma facts_sched fs : forall args s after es,
  run_sched es (facts_gen fs args s after) =
  let fa := fact_answers fs args s in
  if length es <=? length fa then (firstn (length es) fa, None)
  else let r := run_sched (skipn (length fa) es) after in (fa ++ fst r, snd r).
Proof.
  induction fs as [|f fs IH]; intros args s after es.
  - cbn [fact_answers flat_map length skipn app].
    rewrite (run_sched_ext es (facts_gen [] args s after) after) by reflexivity.
    destruct es as [|e r]; [reflexivity|]. cbn [length Nat.leb].
    destruct (run_sched (e :: r) after); reflexivity.
  - unfold fact_answers in *. cbn [flat_map].
    destruct (match_fact s args f) as [s'|] eqn:Em.
    + destruct es as [|e r]; [reflexivity|].
      rewrite (facts_gen_yield _ _ _ _ _ _ _ _ Em), (IH args s after r).
      cbn [app length Nat.leb firstn skipn]. destruct (length r <=? _); reflexivity.
    + rewrite (facts_gen_skip _ _ _ _ _ _ Em). apply IH.
Qed.

(* THE MOMENT OF RESOLUTION, for every schedule e0 :: es.  Everything a call takes from the
   engine it takes from e0, the engine of its FIRST resumption: the fact list of name/N and the
   result of the lookup (blacklist, '<name>_<N>', else '<name>_n').  The later engines are only
   handed on: to nobody while the facts are yielded, then to the bodies of the definitions that
   were looked up in e0 (a body that makes a call makes it in the engine of that moment). *)
Theorem resolution_at_first_resumption f name args nx s e0 es :
  let facts := fact_answers (db_get (e_db e0) (name, length args)) args s in
  let fn := lookup_phase (e_ctx e0) name (length args) in
  run_sched (e0 :: es) (query_gen (S f) name args nx s) =
  if length es <? length facts
  then (map (prune nx) (firstn (S (length es)) facts), None)        (* still in the facts *)
  else let r := run_sched (skipn (length facts) (e0 :: es)) (call_phase (query_gen f) fn args nx s) in
       (map (prune nx) (facts ++ fst r), snd r).
Proof.
  intros facts fn.
  rewrite (run_sched_first e0 es (query_gen (S f) name args nx s)
             (fun e => smap (prune nx) (facts_gen (db_get (e_db e0) (name, length args)) args s
                                           (call_phase (query_gen f) fn args nx s) e))) by reflexivity.
  rewrite run_sched_smap, facts_sched. fold facts. cbv zeta.
  change (length (e0 :: es) <=? length facts) with (length es <? length facts).
  destruct (length es <? length facts); reflexivity.
Qed.

(* the same, split at the moment the facts run out: es0 has one engine per fact answer, e' is the
   engine current when the call of the definitions happens - it gets the definitions of the
   engine of the first resumption (hd e' es0), not those of e' *)
Theorem resolution_moment f name args nx s es0 e' es :
  let e0 := hd e' es0 in
  let facts := fact_answers (db_get (e_db e0) (name, length args)) args s in
  let fn := lookup_phase (e_ctx e0) name (length args) in
  length es0 = length facts ->
  run_sched (es0 ++ e' :: es) (query_gen (S f) name args nx s) =
  let r := run_sched (e' :: es) (call_phase (query_gen f) fn args nx s) in
  (map (prune nx) (facts ++ fst r), snd r).
Proof.
  intros e0 facts fn Hlen.
  assert (Hsplit : exists tl, es0 ++ e' :: es = e0 :: tl /\ length tl = length es0 + length es).
  { unfold e0. destruct es0 as [|x es0]; simpl.
    - exists es. auto.
    - exists (es0 ++ e' :: es). split; [reflexivity|]. rewrite app_length. simpl. lia. }
  destruct Hsplit as [tl [Htl Hl]].
  rewrite Htl, resolution_at_first_resumption. fold facts. fold fn.
  assert (Hlt : length tl <? length facts = false) by (apply Nat.ltb_ge; lia).
  rewrite Hlt, <- Htl, <- Hlen.
  assert (Hskip : skipn (length es0) (es0 ++ e' :: es) = e' :: es).
  { rewrite skipn_app, skipn_all, Nat.sub_diag. reflexivity. }
  rewrite Hskip. reflexivity.
Qed.

(* engine-independent generators *)
Inductive sim : step -> step -> Prop :=
| sim_done f : sim (Done f) (Done f)
| sim_yield s k1 k2 : (forall e1 e2, sim (k1 e1) (k2 e2)) -> sim (Yield s k1) (Yield s k2).

Lemma sim_run es1 : forall es2 g1 g2,
  (forall e1 e2, sim (g1 e1) (g2 e2)) -> length es1 = length es2 -> run_sched es1 g1 = run_sched es2 g2.
Proof.
  induction es1 as [|e1 r1 IH]; intros [|e2 r2] g1 g2 Hs Hl; try discriminate; [reflexivity|].
  simpl. specialize (Hs e1 e2). inversion Hs as [f Hf1 Hf2 | s k1 k2 Hk Hy1 Hy2]; [reflexivity|].
  rewrite (IH r2 k1 k2 Hk); [reflexivity|]. simpl in Hl. congruence.
Qed.

Lemma sim_yield_inv s1 s2 k1 k2 :
  sim (Yield s1 k1) (Yield s2 k2) -> forall e1 e2, sim (k1 e1) (k2 e2).
Proof. intros H. inversion H; subst. assumption. Qed.

(* a generator whose first step, taken under e0, no longer depends on the engine *)
Lemma sim_run_after_first e0 es1 es2 g :
  sim (g e0) (g e0) -> length es1 = length es2 -> run_sched (e0 :: es1) g = run_sched (e0 :: es2) g.
Proof.
  intros Hs Hl. simpl. destruct (g e0) as [f|s k]; [reflexivity|].
  rewrite (sim_run es1 es2 k k); [reflexivity | | exact Hl].
  exact (sim_yield_inv s s k k Hs).
Qed.

Lemma sim_append st1 st2 : sim st1 st2 -> forall a1 a2,
  (forall fi e1 e2, sim (a1 fi e1) (a2 fi e2)) ->
  forall e1 e2, sim (append st1 a1 e1) (append st2 a2 e2).
Proof.
  induction 1 as [f | s k1 k2 Hk IH]; intros a1 a2 Ha e1 e2; simpl.
  - apply Ha.
  - constructor. intros e1' e2'. apply IH. exact Ha.
Qed.

Lemma sim_smap h st1 st2 : sim st1 st2 -> sim (smap h st1) (smap h st2).
Proof.
  induction 1 as [f | s k1 k2 Hk IH]; simpl; constructor. intros e1 e2. apply IH.
Qed.

Lemma sim_facts fs args s after1 after2 :
  (forall e1 e2, sim (after1 e1) (after2 e2)) ->
  forall e1 e2, sim (facts_gen fs args s after1 e1) (facts_gen fs args s after2 e2).
Proof.
  intros Ha. induction fs as [|f fs IH]; intros e1 e2; cbn [facts_gen]; [apply Ha|].
  destruct (match_fact s args f) as [s'|]; [|apply IH].
  constructor. exact IH.
Qed.

Definition callfree_goal (g : goal) : bool := match g with GCall _ _ => false | _ => true end.
Definition callfree (d : def) : bool :=
  forallb (fun c => forallb callfree_goal (c_goals c)) (d_clauses d).

(* what a call took from the context, as a list of definitions *)
Definition fn_defs (fn : option (list def)) : list def := match fn with Some ds => ds | None => [] end.

Section Indep.
  Variables call1 call2 : str -> list nat -> nat -> store -> gen.

  Lemma goals_sim gs : forallb callfree_goal gs = true -> forall env nx s e1 e2,
    sim (goals_gen call1 gs env nx s e1) (goals_gen call2 gs env nx s e2).
  Proof.
    induction gs as [|g gs IH]; intros Hcf env nx s e1 e2.
    - simpl. constructor. intros. constructor.
    - cbn [forallb] in Hcf. apply andb_true_iff in Hcf. destruct Hcf as [Hg Hcf].
      destruct g as [v a | nm vs | | ]; cbn [goals_gen]; try discriminate.
      + destruct (nth_error env v) as [gv|]; [|apply IH; exact Hcf].
        destruct (unify_atom s gv a); [apply IH; exact Hcf | constructor].
      + apply sim_append; [apply IH; exact Hcf|]. intros fi _ _. constructor.
      + constructor.
  Qed.

  Lemma clauses_sim cs :
    forallb (fun c => forallb callfree_goal (c_goals c)) cs = true -> forall args nx s e1 e2,
    sim (clauses_gen call1 cs args nx s e1) (clauses_gen call2 cs args nx s e2).
  Proof.
    induction cs as [|c cs IH]; intros Hcf args nx s e1 e2; [constructor|].
    cbn [forallb] in Hcf. apply andb_true_iff in Hcf. destruct Hcf as [Hc Hcf].
    cbn [clauses_gen]. apply sim_append.
    - unfold clause_gen. apply goals_sim. exact Hc.
    - intros [| | |] e1' e2'; try constructor. apply IH. exact Hcf.
  Qed.

  Lemma chain_sim ds : forallb callfree ds = true -> forall args nx s e1 e2,
    sim (chain_gen call1 ds args nx s e1) (chain_gen call2 ds args nx s e2).
  Proof.
    induction ds as [|d ds IH]; intros Hcf args nx s e1 e2; [constructor|].
    cbn [forallb] in Hcf. apply andb_true_iff in Hcf. destruct Hcf as [Hd Hcf].
    cbn [chain_gen]. apply sim_append.
    - unfold def_gen. apply clauses_sim. exact Hd.
    - intros [| | |] e1' e2'; try constructor; apply IH; exact Hcf.
  Qed.

  Lemma call_phase_sim fn : forallb callfree (fn_defs fn) = true -> forall args nx s e1 e2,
    sim (call_phase call1 fn args nx s e1) (call_phase call2 fn args nx s e2).
  Proof.
    intros Hcf args nx s e1 e2. destruct fn as [ds|]; cbn [call_phase]; [|constructor].
    destruct (forallb (params_ok (length args)) ds); [|constructor].
    apply chain_sim. exact Hcf.
  Qed.
End Indep.

(* A SUSPENDED CALL KEEPS WHAT IT RESOLVED.  Once the chain ds has been taken from the context,
   its answers are the same under every later history of the engine (loads with or without
   overwrite, register, clear, assert).  Stated for definitions whose bodies make no calls -
   calls made from a body are new calls and are resolved when they are made. *)
Theorem resolved_call_keeps_definitions call ds args nx s es1 es2 :
  forallb callfree ds = true -> length es1 = length es2 ->
  run_sched es1 (chain_gen call ds args nx s) = run_sched es2 (chain_gen call ds args nx s).
Proof.
  intros Hcf Hl. apply sim_run; [|exact Hl]. intros e1 e2. apply chain_sim. exact Hcf.
Qed.

(* the big-step reading is the schedule in which the engine never changes *)
Lemma run_sched_const e st : forall n,
  length (fst (drain e st)) < n ->
  forall g, g e = st -> run_sched (repeat e n) g = (fst (drain e st), Some (snd (drain e st))).
Proof.
  induction st as [f | s k IH]; intros n Hn g Hg.
  - destruct n; [destruct (Nat.nlt_0_r _ Hn)|]. simpl. rewrite Hg. reflexivity.
  - destruct n; [destruct (Nat.nlt_0_r _ Hn)|]. simpl. rewrite Hg. simpl in Hn.
    destruct (drain e (k e)) as [l fi] eqn:Ed. simpl in Hn.
    rewrite (IH e n); [| rewrite Ed; simpl; lia | reflexivity].
    rewrite Ed. reflexivity.
Qed.

(* the definitions the call name/N takes from the engine (none for an API name) *)
Definition call_defs (e : engine) (name : str) (n : nat) : list def :=
  fn_defs (lookup_phase (e_ctx e) name n).

(* CALL-TIME RESOLUTION.  "A call resolves at the moment it is made": a call whose definitions
   (those of the engine e0 of its first resumption) make no calls gives the same answers under
   EVERY later history of the engine - es1, es2 are arbitrary: facts asserted, definitions
   replaced / combined / registered, everything cleared, while the call is suspended on one of
   its facts or inside one of its definitions.  (A definition that makes calls makes new calls;
   each of them is resolved in the same way at its own first resumption:
   resolution_at_first_resumption has no call-free hypothesis.) *)
Theorem call_time_resolution f name args nx s e0 es1 es2 :
  forallb callfree (call_defs e0 name (length args)) = true ->
  length es1 = length es2 ->
  run_sched (e0 :: es1) (query_gen (S f) name args nx s) =
  run_sched (e0 :: es2) (query_gen (S f) name args nx s).
Proof.
  intros Hcf Hl. apply sim_run_after_first; [|exact Hl].
  cbn [query_gen]. unfold query_body. apply sim_smap. apply sim_facts.
  intros e1 e2. apply call_phase_sim. exact Hcf.
Qed.

(* ... so they are the answers computed in e0 alone: the facts of name/N in e0, in order, then
   the answers of the definitions e0 holds for name/N (lookup_spec), as soon as the schedule
   is long enough to reach the end of the call *)
Theorem call_time_resolution_answers f name args nx s e0 es :
  forallb callfree (call_defs e0 name (length args)) = true ->
  let r := drain e0 (query_gen (S f) name args nx s e0) in
  length (fst r) <= length es ->
  run_sched (e0 :: es) (query_gen (S f) name args nx s) = (fst r, Some (snd r)).
Proof.
  intros Hcf r Hlen.
  rewrite (call_time_resolution f name args nx s e0 es (repeat e0 (length es)) Hcf)
    by (rewrite repeat_length; reflexivity).
  change (e0 :: repeat e0 (length es)) with (repeat e0 (S (length es))).
  apply run_sched_const; [fold r; lia | reflexivity].
Qed.

(* The definitions a call uses are those of its first resumption, not those current when its facts run out:
   p/1 has the fact p(f) and the definition p(old); the call is started and yields f; the definition is replaced
   by p(new) (load with overwrite); the call is resumed: it answers old, and a call made now answers new. *)
Local Open Scope string_scope.
Definition wit_def (a : string) : def := mkDef (Some 1) [mkClause 0 [GUnify 0 (d a)]].
Definition wit_e0 : engine := mkEngine [((d "p", 1), [[d "f"]])] [(mkkey (d "p") (AFix 1), VObj (wit_def "old"))].
Definition wit_e1 : engine := mkEngine [((d "p", 1), [[d "f"]])] [(mkkey (d "p") (AFix 1), VObj (wit_def "new"))].

Example call_time_resolution_witness :
  forallb callfree (call_defs wit_e0 (d "p") 1) = true /\
  run_sched [wit_e0; wit_e1; wit_e1] (query_gen 2 (d "p") [0] 1 []) = ([[(0, d "f")]; [(0, d "old")]], Some Norm) /\
  run_sched [wit_e1; wit_e1; wit_e1] (query_gen 2 (d "p") [0] 1 []) = ([[(0, d "f")]; [(0, d "new")]], Some Norm).
Proof. repeat split; vm_compute; reflexivity. Qed.
