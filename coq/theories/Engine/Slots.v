(* C04, second half: several query generators of ONE engine, suspended at the same time.

   PQ q = the cells of the generator in slot q (the variables of its query and the cells it allocates),
   pairwise disjoint.  Clause bodies may write the fact store (asserta / assertz / retract / retractall), so
   generators of one engine can influence each other through the store - and through nothing else:
   K = a set of keys (name, arity).  For EVERY sequence of next / close / drain operations on the slots and every slot q:
   if every step on slot q touches (reads or writes) only keys in K and every step on another slot writes only keys
   outside K (foot_ok, read off the logs of the steps of the run), then what is observed on q, the generator left in q
   and q's part of the heap are those of running the operations on q alone (the other generators are never advanced) on
   q's part of the heap, and the fact stores of the two runs agree on K.
   Read-only queries are the special case in which no step writes at all (nowrite; K = all keys).
   Without the condition the statement is false (SlotsExamples.v: a reader of p/1 next to assertz(p(b))). *)
From Coq Require Import String.
From Coq Require Import List Arith Bool Lia ZArith.
Import ListNotations.
From YP Require Import Base.Str Term.Term Unify.Unify Engine.Deref Engine.Frame Engine.Db Engine.World Engine.CursorFrame
  Engine.Isolation Engine.Footprint.

Definition is_slot (q : nat) (o : op) : bool :=
  match slot_of o with Some q' => Nat.eqb q' q | None => false end.
Definition qop (o : op) : Prop := slot_of o <> None.

Fixpoint pick (q : nat) (ops : list op) (bs : list obs) : list obs :=
  match ops, bs with
  | o :: r, b :: s => if is_slot q o then b :: pick q r s else pick q r s
  | _, _ => []
  end.

(* the accesses to the fact store made by one operation (only next and drain run clause bodies) *)
Definition step_log (fuel n i : nat) (o : op) (e : engine) (h : store) : list ev :=
  match o with
  | ONext q => match aget Nat.eqb q (cursors e) with
               | Some c => snd (fst (cnext fuel (edb e) (ccell n i (cown c)) h c))
               | None => [] end
  | ODrain q => match aget Nat.eqb q (cursors e) with
                | Some c => snd (fst (cdrain fuel fuel (edb e) (ccell n i (cown c)) h c [] []))
                | None => [] end
  | _ => []
  end.

Lemma step_log_slot fuel n i o q e h : slot_of o = Some q ->
  step_log fuel n i o e h =
  match aget Nat.eqb q (cursors e) with
  | None => []
  | Some c => snd (fst (cop fuel (ccell n i (cown c)) (slotop_of o) (edb e) h c))
  end.
Proof.
  intros So. destruct o; try discriminate; inversion So; subst; cbn [step_log cop slotop_of];
    destruct (aget Nat.eqb q (cursors e)) as [c|]; try reflexivity.
  - destruct (cnext fuel (edb e) (ccell n i (cown c)) h c) as [[[[c1 h1] r] lg] d1]. reflexivity.
  - destruct (cdrain fuel fuel (edb e) (ccell n i (cown c)) h c [] []) as [[[[[c1 h1] answers] err] lg] d1]. reflexivity.
Qed.

Section Slots.
Variables n i : nat.
Variable PQ : nat -> nat -> bool.
Hypothesis PQ_disj : forall q q' v, q <> q' -> PQ q v = true -> PQ q' v = false.

Definition sinv (e : engine) (h : store) : Prop :=
  (forall q, closed (PQ q) h) /\
  forall q c, aget Nat.eqb q (cursors e) = Some c ->
    cgood (PQ q) c /\ forall k, PQ q (ccell n i (cown c) k) = true.

Lemma qstep_local fuel o q0 e h e' h' ob : slot_of o = Some q0 -> sinv e h ->
  estep fuel n i o e h = (e', h', ob) ->
  estep fuel n i o e (fP (PQ q0) h) = (e', fP (PQ q0) h', ob)
  /\ step_log fuel n i o e (fP (PQ q0) h) = step_log fuel n i o e h
  /\ sinv e' h'
  /\ (forall q, q <> q0 -> aget Nat.eqb q (cursors e') = aget Nat.eqb q (cursors e))
  /\ (forall q, q <> q0 -> fP (PQ q) h' = fP (PQ q) h).
Proof.
  intros So [HC HQ] E.
  rewrite (estep_slot fuel n i o q0 e h So) in E.
  rewrite (estep_slot fuel n i o q0 e (fP (PQ q0) h) So), !(step_log_slot fuel n i o q0 e _ So).
  destruct (aget Nat.eqb q0 (cursors e)) as [c|] eqn:Eq.
  2: { injection E as <- <- <-. split; [reflexivity|]. split; [reflexivity|]. split; [split; assumption|]. split; reflexivity. }
  destruct (HQ q0 c Eq) as [G Hf].
  destruct (cop fuel (ccell n i (cown c)) (slotop_of o) (edb e) h c) as [[[[c1 h1] ob1] lg1] d1] eqn:Ec.
  destruct (cop_frame (PQ q0) _ _ _ _ _ _ _ _ _ _ _ Hf (HC q0) G Ec) as [A [EN G1 C1 N1 Ow]].
  rewrite A. injection E as <- <- <-. cbn [fst snd cursors with_atoms with_db with_cursors].
  destruct (@family_step PQ q0 h h1 PQ_disj HC C1 N1 EN) as [HC' HP].
  assert (Hget : forall q, q <> q0 -> aget Nat.eqb q (aset Nat.eqb q0 c1 (cursors e)) = aget Nat.eqb q (cursors e)).
  { intros q Nq. apply aget_aset_neq. auto. }
  split; [reflexivity|]. split; [reflexivity|]. split; [|split; [exact Hget|exact HP]].
  split; [exact HC'|].
  intros q c' Hq. cbn [cursors with_atoms with_db with_cursors] in Hq. apply aget_aset_inv in Hq as [[-> ->]|[_ Hq]].
  - split; [exact G1|]. rewrite Ow. exact Hf.
  - apply HQ. exact Hq.
Qed.

Section Foot.
Variable K : fkey -> bool.

(* two engine records whose fact stores agree on K (same definitions) and that hold the same generator in slot q *)
Definition simK (q : nat) (e1 e2 : engine) : Prop :=
  dbK K (edb e1) (edb e2) /\ aget Nat.eqb q (cursors e1) = aget Nat.eqb q (cursors e2).

Lemma simK_refl q e : simK q e e.
Proof. split; [apply dbK_refl|reflexivity]. Qed.

Lemma cop_foot fuel fresh k d1 h c c' h' ob lg d1' : cop fuel fresh k d1 h c = (c', h', ob, lg, d1') ->
  (Forall (wrOut K) lg -> dbK K d1 d1')
  /\ (Forall (inK K) lg -> forall d2, dbK K d1 d2 ->
      exists d2', cop fuel fresh k d2 h c = (c', h', ob, lg, d2') /\ dbK K d1' d2').
Proof.
  intros E. destruct k; cbn [cop] in *.
  - destruct (cnext fuel d1 fresh h c) as [[[[c1 h1] r] lg1] dm] eqn:E1. injection E as <- <- <- <- <-.
    destruct (cnext_foot K _ _ _ _ _ _ _ _ _ _ E1) as [W A]. split; [exact W|].
    intros HL d2 HK. destruct (A HL d2 HK) as [d2' [E2 HK2]]. rewrite E2. exists d2'. split; [reflexivity|exact HK2].
  - injection E as <- <- <- <- <-. split; [intros _; apply dbK_refl|]. intros _ d2 HK. exists d2. split; [reflexivity|exact HK].
  - destruct (cdrain fuel fuel d1 fresh h c [] []) as [[[[[c1 h1] answers] err] lg1] dm] eqn:E1. injection E as <- <- <- <- <-.
    destruct (cdrain_foot K _ _ _ _ _ _ _ _ _ _ _ _ _ _ E1) as [l [El [W A]]]. rewrite app_nil_r in El. subst l.
    split; [exact W|].
    intros HL d2 HK. destruct (A HL d2 HK) as [d2' [E2 HK2]]. rewrite E2. exists d2'. split; [reflexivity|exact HK2].
Qed.

Lemma qstep_sim fuel o q e1 e2 h e1' h' ob : slot_of o = Some q -> simK q e1 e2 ->
  estep fuel n i o e1 h = (e1', h', ob) -> Forall (inK K) (step_log fuel n i o e1 h) ->
  exists e2', estep fuel n i o e2 h = (e2', h', ob) /\ simK q e1' e2'.
Proof.
  intros So [Ed Ec] E HL.
  rewrite (estep_slot fuel n i o q e1 h So) in E. rewrite (step_log_slot fuel n i o q e1 h So) in HL.
  rewrite (estep_slot fuel n i o q e2 h So), <- Ec.
  destruct (aget Nat.eqb q (cursors e1)) as [c|] eqn:Eq.
  2: { injection E as <- <- <-. exists e2. split; [reflexivity|]. split; [exact Ed|congruence]. }
  destruct (cop fuel (ccell n i (cown c)) (slotop_of o) (edb e1) h c) as [[[[c1 h1] ob1] lg1] d1] eqn:E1. cbn [fst snd] in HL.
  destruct (proj2 (cop_foot _ _ _ _ _ _ _ _ _ _ _ E1) HL (edb e2) Ed) as [d2 [E2 Hd]]. rewrite E2.
  injection E as <- <- <-. eexists. split; [reflexivity|].
  split; [exact Hd|]. cbn [cursors with_atoms with_db with_cursors]. rewrite !aget_aset_eq. reflexivity.
Qed.

Lemma qstep_writes fuel o q e h e' h' ob : slot_of o = Some q ->
  estep fuel n i o e h = (e', h', ob) -> Forall (wrOut K) (step_log fuel n i o e h) -> dbK K (edb e) (edb e').
Proof.
  intros So E HL.
  rewrite (estep_slot fuel n i o q e h So) in E. rewrite (step_log_slot fuel n i o q e h So) in HL.
  destruct (aget Nat.eqb q (cursors e)) as [c|]; [|injection E as <- <- <-; apply dbK_refl].
  destruct (cop fuel (ccell n i (cown c)) (slotop_of o) (edb e) h c) as [[[[c1 h1] ob1] lg1] d1] eqn:E1. cbn [fst snd] in HL.
  injection E as <- <- <-. exact (proj1 (cop_foot _ _ _ _ _ _ _ _ _ _ _ E1) HL).
Qed.

(* the footprint condition on a run, for slot q: its steps touch only K, the steps on the other slots write only
   outside K (read off the logs of the steps of this run) *)
Fixpoint foot_ok (q : nat) (fuel : nat) (ops : list op) (e : engine) (h : store) : Prop :=
  match ops with
  | [] => True
  | o :: r =>
      (if is_slot q o then Forall (inK K) (step_log fuel n i o e h) else Forall (wrOut K) (step_log fuel n i o e h))
      /\ foot_ok q fuel r (fst (fst (estep fuel n i o e h))) (snd (fst (estep fuel n i o e h)))
  end.

Fixpoint foot_okb (q : nat) (fuel : nat) (ops : list op) (e : engine) (h : store) : bool :=
  match ops with
  | [] => true
  | o :: r =>
      forallb (if is_slot q o then fun x => K (ekey x) else fun x => negb (ewr x && K (ekey x))) (step_log fuel n i o e h)
      && let '(e', h', _) := estep fuel n i o e h in foot_okb q fuel r e' h'
  end.

Lemma foot_okb_ok q fuel : forall ops e h, foot_okb q fuel ops e h = true -> foot_ok q fuel ops e h.
Proof.
  induction ops as [|o r IH]; intros e h H; cbn [foot_okb foot_ok] in *; [exact I|].
  apply andb_true_iff in H as [H1 H2]. destruct (estep fuel n i o e h) as [[e' h'] ob]. split; [|apply IH; exact H2].
  rewrite forallb_forall in H1. destruct (is_slot q o); apply Forall_forall; intros x Hx; specialize (H1 x Hx).
  - exact H1.
  - intros Hw. rewrite Hw in H1. apply negb_true_iff in H1. exact H1.
Qed.

Theorem slots_alone_K fuel q : forall ops e h e' h' bs,
  Forall qop ops -> sinv e h -> erun n i fuel ops e h = (e', h', bs) -> foot_ok q fuel ops e h ->
  sinv e' h' /\
  forall ea, simK q e ea ->
    exists ea', erun n i fuel (filter (is_slot q) ops) ea (fP (PQ q) h) = (ea', fP (PQ q) h', pick q ops bs)
                /\ simK q e' ea'.
Proof.
  induction ops as [|o r IH]; intros e h e' h' bs F I E FO.
  - cbn [erun] in E. injection E as <- <- <-. split; [exact I|]. intros ea S. exists ea. split; [reflexivity|exact S].
  - cbn [erun] in E. cbn [foot_ok] in FO. destruct FO as [FO1 FO2].
    destruct (estep fuel n i o e h) as [[e1 h1] ob] eqn:E1. cbn [fst snd] in FO2.
    destruct (erun n i fuel r e1 h1) as [[e2 h2] obs2] eqn:E2.
    injection E as -> -> <-.
    pose proof (Forall_inv F) as Fo. pose proof (Forall_inv_tail F) as Fr.
    destruct (slot_of o) as [q0|] eqn:So; [|exfalso; apply Fo; exact So].
    destruct (qstep_local fuel o q0 e h e1 h1 ob So I E1) as [A [EL [I1 [Hget HP]]]].
    destruct (IH e1 h1 e' h' obs2 Fr I1 E2 FO2) as [I2 Hrest].
    split; [exact I2|]. intros ea S.
    assert (Es : is_slot q o = Nat.eqb q0 q) by (unfold is_slot; rewrite So; reflexivity).
    cbn [filter pick]. rewrite Es in FO1 |- *. clear Es.
    destruct (Nat.eqb_spec q0 q) as [Eq0|Nq]; [subst q0|].
    + rewrite <- EL in FO1.
      destruct (qstep_sim fuel o q e ea (fP (PQ q) h) e1 (fP (PQ q) h1) ob So S A FO1) as [ea1 [Ea S1]].
      destruct (Hrest ea1 S1) as [ea' [R' S']]. exists ea'. split; [|exact S'].
      cbn [erun]. rewrite Ea, R'. reflexivity.
    + assert (S1 : simK q e1 ea).
      { destruct S as [Sd Sc]. split.
        - eapply dbK_trans; [|exact Sd]. apply dbK_sym. exact (qstep_writes fuel o q0 e h e1 h1 ob So E1 FO1).
        - rewrite (Hget q (not_eq_sym Nq)). exact Sc. }
      destruct (Hrest ea S1) as [ea' [R' S']]. exists ea'. split; [|exact S'].
      rewrite (HP q (not_eq_sym Nq)) in R'. exact R'.
Qed.

(* the form of the property text: the answers seen on slot q are the answers of q run alone *)
Corollary same_engine_slots_K fuel ops e h q : Forall qop ops -> sinv e h -> foot_ok q fuel ops e h ->
  pick q ops (snd (erun n i fuel ops e h)) = snd (erun n i fuel (filter (is_slot q) ops) e (fP (PQ q) h)).
Proof.
  intros F I FO. destruct (erun n i fuel ops e h) as [[e' h'] bs] eqn:E.
  destruct (slots_alone_K fuel q ops e h e' h' bs F I E FO) as [_ H].
  destruct (H e (simK_refl q e)) as [ea' [R _]]. rewrite R. reflexivity.
Qed.

End Foot.

(* read-only queries: no step of the run writes the fact store *)
Fixpoint nowrite (fuel : nat) (ops : list op) (e : engine) (h : store) : Prop :=
  match ops with
  | [] => True
  | o :: r =>
      Forall (fun x => ewr x = false) (step_log fuel n i o e h)
      /\ nowrite fuel r (fst (fst (estep fuel n i o e h))) (snd (fst (estep fuel n i o e h)))
  end.

Fixpoint nowriteb (fuel : nat) (ops : list op) (e : engine) (h : store) : bool :=
  match ops with
  | [] => true
  | o :: r =>
      forallb (fun x => negb (ewr x)) (step_log fuel n i o e h)
      && let '(e', h', _) := estep fuel n i o e h in nowriteb fuel r e' h'
  end.

Lemma nowriteb_ok fuel : forall ops e h, nowriteb fuel ops e h = true -> nowrite fuel ops e h.
Proof.
  induction ops as [|o r IH]; intros e h H; cbn [nowriteb nowrite] in *; [exact I|].
  apply andb_true_iff in H as [H1 H2]. destruct (estep fuel n i o e h) as [[e' h'] ob]. split; [|apply IH; exact H2].
  rewrite forallb_forall in H1. apply Forall_forall. intros x Hx. apply negb_true_iff. exact (H1 x Hx).
Qed.

Lemma nowrite_foot fuel q : forall ops e h, nowrite fuel ops e h -> foot_ok (fun _ => true) q fuel ops e h.
Proof.
  induction ops as [|o r IH]; intros e h H; cbn [nowrite foot_ok] in *; [exact I|].
  destruct H as [H1 H2]. split; [|apply IH; exact H2].
  destruct (is_slot q o).
  - apply Forall_forall. intros x _. reflexivity.
  - eapply Forall_impl; [|exact H1]. intros x Hx Hw. congruence.
Qed.

Theorem slots_alone fuel : forall ops e h e' h' bs,
  Forall qop ops -> sinv e h -> erun n i fuel ops e h = (e', h', bs) -> nowrite fuel ops e h ->
  sinv e' h' /\
  forall q ea, simK (fun _ => true) q e ea ->
    exists ea', erun n i fuel (filter (is_slot q) ops) ea (fP (PQ q) h) = (ea', fP (PQ q) h', pick q ops bs)
                /\ simK (fun _ => true) q e' ea'.
Proof.
  intros ops e h e' h' bs F I E NW. split.
  - exact (proj1 (slots_alone_K (fun _ => true) fuel 0 ops e h e' h' bs F I E (nowrite_foot fuel 0 ops e h NW))).
  - intros q. exact (proj2 (slots_alone_K (fun _ => true) fuel q ops e h e' h' bs F I E (nowrite_foot fuel q ops e h NW))).
Qed.

Corollary same_engine_slots fuel ops e h q : Forall qop ops -> sinv e h -> nowrite fuel ops e h ->
  pick q ops (snd (erun n i fuel ops e h)) = snd (erun n i fuel (filter (is_slot q) ops) e (fP (PQ q) h)).
Proof.
  intros F I NW. apply (same_engine_slots_K (fun _ => true)); auto. apply nowrite_foot. exact NW.
Qed.

End Slots.

Lemma sinv_nocursors n i PQ e h : cursors e = [] -> (forall q, closed (PQ q) h) -> sinv n i PQ e h.
Proof. intros Ec C. split; [exact C|]. intros q c H. rewrite Ec in H. discriminate. Qed.

(* starting a query in slot q whose argument terms are over Pnew (and whose allocations will be: the cells
   named after the engine's start counter) extends the family by PQ q := Pnew.  A generator that was in the
   slot is dropped (closed) first, exactly as in the code. *)
Lemma sinv_start fuel n i PQ q Pnew nm args e h e' h' ob :
  sinv n i PQ e h ->
  Forall (tin Pnew) (map (rn (ucell n i)) args) -> (forall k, Pnew (ccell n i (nstart e) k) = true) -> closed Pnew h ->
  estep fuel n i (OStart q nm args) e h = (e', h', ob) ->
  sinv n i (fun q' => if Nat.eqb q' q then Pnew else PQ q') e' h'.
Proof.
  intros [HC HQ] Ha Hf Cn E. rewrite estep_start in E. injection E as <- <- <-.
  assert (Hh : forall P, closed P h ->
                 closed P (match aget Nat.eqb q (cursors e) with Some c => unbind (ctrail c) h | None => h end)).
  { intros P CP. destruct (aget Nat.eqb q (cursors e)) as [c|]; [apply unbind_closed|]; exact CP. }
  split.
  - intros q'. destruct (Nat.eqb q' q); apply Hh; auto.
  - intros q' c' H. cbn [cursors bump with_cursors] in H. apply aget_aset_inv in H as [[-> ->]|[Nq H]].
    + rewrite Nat.eqb_refl. split; [apply cstart_good; exact Ha|exact Hf].
    + apply Nat.eqb_neq in Nq. rewrite Nq. apply HQ. exact H.
Qed.
