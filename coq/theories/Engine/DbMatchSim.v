(* Matching a goal against a stored fact inside compiled code (Answer.match under the current
   bindings, the copy of the fact allocated at the current allocation counter) and in the cursor
   machine (match_fact: dereferenced pattern, empty store, copy allocated just beyond the cells of
   pattern and fact) agree: same outcome, and the answers are equal up to the renaming that moves the
   cursor's copy cells to the copy cells of the compiled code. *)
From Coq Require Import List Arith Bool Lia ZArith.
Import ListNotations.
From YP Require Import Base.Str Term.Term Unify.Unify Unify.Base Unify.Rename Engine.Frame Engine.Db Engine.DbFacts Engine.DbFactsThms Engine.DbHeap Engine.DbHeapThms.
Set Implicit Arguments.

(* the renaming that leaves the cells below m alone and moves the others up by dl *)
Definition shiftp (m dl : nat) (w : nat) : nat := if w <? m then w else w + dl.
Lemma shiftp_inj m dl : injective (shiftp m dl).
Proof.
  intros a b. unfold shiftp.
  destruct (Nat.ltb_spec a m); destruct (Nat.ltb_spec b m); lia.
Qed.

Lemma unify_arrays_vals_free s n nw xs ys nw' :
  vals_free s nw -> (forall x, In x xs -> free_in s x) -> (forall y, In y ys -> free_in s y) ->
  unify_arrays n nw xs ys = UOk nw' -> vals_free s nw'.
Proof.
  unfold unify_arrays. intros Fv Fx Fy H.
  destruct (Nat.eqb (length xs) (length ys)); [|discriminate].
  apply (@arr_vals_free s (unify n) (@unify_vals_free s n) xs ys nw nw' Fv Fx Fy H).
Qed.

Lemma unify_arrays_equivariant p : injective p -> forall n s xs ys,
  unify_arrays n (ren_store p s) (map (Rename.ren p) xs) (map (Rename.ren p) ys) = ren_res p (unify_arrays n s xs ys).
Proof.
  intros Hp n s xs ys. unfold unify_arrays. rewrite !map_length.
  destruct (Nat.eqb (length xs) (length ys)); [|reflexivity].
  apply ren_arr. apply unify_equivariant. exact Hp.
Qed.

Lemma ren_id_on p t : (forall w, occurs w t = true -> p w = w) -> Rename.ren p t = t.
Proof. intros H. rewrite (@ren_agree p (fun w => w) t H). apply ren_id. Qed.

Lemma bound_in x l : In x l -> bound x <= bound_list l.
Proof.
  induction l as [|y l IH]; intros H; [contradiction|].
  unfold bound_list. cbn [fold_right]. fold (bound_list l).
  destruct H as [->|H]; [lia|]. specialize (IH H). lia.
Qed.

Lemma occurs_bound w t : occurs w t = true -> w < bound t.
Proof.
  induction t as [a|z|q|v|f args IH] using term_ind'; intros H; try discriminate.
  - simpl in H. apply Nat.eqb_eq in H. subst. simpl. lia.
  - apply occurs_fun in H as [x [Hx Ox]]. rewrite Forall_forall in IH. specialize (IH x Hx Ox).
    change (bound (TFun f args)) with (bound_list args). pose proof (bound_in x args Hx). lia.
Qed.

Lemma occurs_bound_list w x l : In x l -> occurs w x = true -> w < bound_list l.
Proof. intros Hx Ox. pose proof (occurs_bound _ _ Ox). pose proof (bound_in x l Hx). lia. Qed.

Lemma bound_list_le0 n l : Forall (fun t => bound t <= n) l -> bound_list l <= n.
Proof.
  induction 1 as [|x l Hx Hl IH]; unfold bound_list; cbn [fold_right]; [lia|].
  fold (bound_list l). lia.
Qed.

Lemma bound_le n t : (forall w, occurs w t = true -> w < n) -> bound t <= n.
Proof.
  induction t as [a|z|q|v|f args IH] using term_ind'; intros H; cbn [bound]; try lia.
  - assert (v < n) by (apply H; simpl; apply Nat.eqb_refl). lia.
  - change (bound_list args <= n). apply bound_list_le0. rewrite Forall_forall in *.
    intros x Hx. apply IH; auto. intros w Hw. apply H. apply occurs_fun. exists x. auto.
Qed.

Lemma bound_list_le n l : (forall t, In t l -> forall w, occurs w t = true -> w < n) -> bound_list l <= n.
Proof.
  intros H. apply bound_list_le0. apply Forall_forall. intros x Hx. apply bound_le. apply H. exact Hx.
Qed.

Definition shm (dl : nat) (m : list (nat * nat)) : list (nat * nat) :=
  map (fun ab : nat * nat => (fst ab, snd ab + dl)) m.

Lemma mfind_shm dl v m : mfind v (shm dl m) = option_map (fun w => w + dl) (mfind v m).
Proof.
  induction m as [|[a b] r IH]; cbn [shm map mfind fst snd option_map]; auto.
  destruct (Nat.eqb v a); auto.
Qed.

Lemma ren_shift_both dl :
  (forall t m k t' m1 k1, DbFacts.ren t (m, k) = (t', (m1, k1)) ->
     DbFacts.ren t (shm dl m, k + dl) = (Rename.ren (fun w => w + dl) t', (shm dl m1, k1 + dl))) /\
  (forall l m k l' m1 k1, ren_list l (m, k) = (l', (m1, k1)) ->
     ren_list l (shm dl m, k + dl) = (map (Rename.ren (fun w => w + dl)) l', (shm dl m1, k1 + dl))).
Proof.
  apply term_list_ind.
  - intros [a|z|q|v|f args]; [| | | |exact I]; intros m k t' m1 k1 H.
    1-3: cbn [DbFacts.ren] in H; injection H as <- <- <-; reflexivity.
    cbn [DbFacts.ren fst snd] in *. rewrite mfind_shm.
    destruct (mfind v m) as [w|]; injection H as <- <- <-; reflexivity.
  - intros f args IH m k t' m1 k1 H. rewrite ren_fun in *.
    destruct (ren_list args (m, k)) as [l' [m2 k2]] eqn:E. cbn [fst snd] in H. injection H as <- <- <-.
    rewrite (IH _ _ _ _ _ E). reflexivity.
  - intros m k l' m1 k1 H. cbn [ren_list] in H. injection H as <- <- <-. reflexivity.
  - intros x r IHx IHr m k l' m1 k1 H. cbn [ren_list] in *.
    destruct (DbFacts.ren x (m, k)) as [x' [m2 k2]] eqn:E1.
    destruct (ren_list r (m2, k2)) as [r' [m3 k3]] eqn:E2. injection H as <- <- <-.
    rewrite (IHx _ _ _ _ _ E1), (IHr _ _ _ _ _ E2). reflexivity.
Qed.

(* the copy of a heap-independent list made dl cells later is the shifted copy *)
Lemma copy_args_shift l k dl :
  copy_args [] l (k + dl) =
    (map (Rename.ren (fun w => w + dl)) (fst (copy_args [] l k)), snd (copy_args [] l k) + dl).
Proof.
  unfold copy_args. rewrite map_id.
  destruct (ren_list l ([], k)) as [l' [m1 k1]] eqn:E.
  change (@nil (nat * nat)) with (shm dl []).
  rewrite (proj2 (ren_shift_both dl) l [] k l' m1 k1 E). reflexivity.
Qed.

Lemma copy_args_shiftp l m n : m <= n ->
  fst (copy_args [] l n) = map (Rename.ren (shiftp m (n - m))) (fst (copy_args [] l m)).
Proof.
  intros L. pose proof (copy_args_shift l m (n - m)) as X. replace (m + (n - m)) with n in X by lia. rewrite X. cbn [fst].
  destruct (copy_args [] l m) as [cs0 k0] eqn:C0. destruct (copy_cells C0) as [_ Cells0]. cbn [fst].
  apply map_ext_in. intros c Hc. apply ren_agree. intros w Hw.
  destruct (Cells0 c Hc w Hw) as [A _]. unfold shiftp. destruct (Nat.ltb_spec w m); [lia|reflexivity].
Qed.

Lemma ren_shiftp_below m dl l : bound_list l <= m -> map (Rename.ren (shiftp m dl)) l = l.
Proof.
  intros B. rewrite <- (map_id l) at 2. apply map_ext_in. intros t Ht. apply ren_id_on. intros w Hw.
  pose proof (occurs_bound_list w t l Ht Hw). unfold shiftp. destruct (Nat.ltb_spec w m); [reflexivity|lia].
Qed.

Theorem match_sim uf F s n args f :
  wf s -> good (Pc n F) s -> (forall w, F w = true -> w < n) -> lin (Pc n F) args -> fact_cells F f ->
  let pat := map (den s) args in
  let m0 := Nat.max (bound_list pat) (bound_list (fargs f)) in
  m0 <= n /\
  match fst (answer_match uf s n args (fargs f)) with
  | UOk s' => exists a, match_fact uf pat (fargs f) = MYes a /\
                        map (den s') args = map (Rename.ren (shiftp m0 (n - m0))) a
  | UFail => match_fact uf pat (fargs f) = MNo
  | _ => match_fact uf pat (fargs f) = MStuck
  end.
Proof.
  (* Under the bindings s the compiled code's match is the match of the dereferenced goal from the empty store,
     lifted over s (unify_arrays_increment: s binds no cell of the dereferenced goal or of the copy); the copy
     made at counter n is the one the cursor machine makes at m0, renamed by a shift that leaves the goal alone
     (copy_args_shiftp, ren_shiftp_below); unification commutes with injective renamings
     (unify_arrays_equivariant). *)
  intros W G R La Cf pat m0.
  assert (Tp : forall t, In t pat -> tin (Pc n F) t).
  { intros t Ht. apply in_map_iff in Ht as [a [<- Ha]]. apply den_tin; [apply good_closed; exact G|].
    unfold lin in La. rewrite Forall_forall in La. apply La; exact Ha. }
  assert (Bp : forall t, In t pat -> forall w, occurs w t = true -> w < n).
  { intros t Ht w Hw. specialize (Tp t Ht w Hw). unfold Pc in Tp. apply andb_true_iff in Tp as [A _].
    apply Nat.ltb_lt in A. exact A. }
  assert (Bf : forall t, In t (fargs f) -> forall w, occurs w t = true -> w < n).
  { intros t Ht w Hw. apply R. unfold fact_cells, lin in Cf. rewrite Forall_forall in Cf. exact (Cf t Ht w Hw). }
  assert (Lm : m0 <= n).
  { unfold m0. apply Nat.max_lub; apply bound_list_le; assumption. }
  split; [exact Lm|].
  assert (Lp : bound_list pat <= m0) by (unfold m0; lia).
  set (dl := n - m0). set (p := shiftp m0 dl).
  assert (Hp : injective p) by (apply shiftp_inj).
  (* the side of the compiled code *)
  rewrite (@answer_match_independent uf s n args (fargs f) (@fact_free n F s f G Cf)). cbn [fst].
  (* the cursor's side *)
  assert (MF : match_fact uf pat (fargs f) =
               match unify_arrays uf [] pat (fst (copy_args [] (fargs f) m0)) with
               | UOk s0 => MYes (map (den s0) pat) | UFail => MNo | _ => MStuck end).
  { unfold match_fact. fold m0.
    rewrite (@answer_match_independent uf [] m0 pat (fargs f)) by (intros t _ w _; reflexivity).
    destruct (unify_arrays uf [] pat (fst (copy_args [] (fargs f) m0))); reflexivity. }
  rewrite MF. clear MF.
  (* the two copies *)
  pose proof (copy_args_shiftp (fargs f) Lm) as Ecs. fold dl p in Ecs.
  destruct (copy_args [] (fargs f) m0) as [cs0 k0].
  destruct (copy_args [] (fargs f) n) as [cs k1] eqn:C1.
  cbn [fst] in *. destruct (copy_cells C1) as [_ Cells1].
  pose proof (ren_shiftp_below dl pat Lp) as Epat. fold p in Epat.
  (* the cells of the copy made by the compiled code are unbound *)
  assert (Fcs : forall c, In c cs -> free_in s c).
  { intros c Hc w Hw. destruct (Cells1 c Hc w Hw) as [A _]. apply (@outside_unbound n F s w G (@Pc_new n F w A)). }
  assert (Fpat : forall t, In t pat -> free_in s t).
  { intros t Ht. apply in_map_iff in Ht as [a [<- Ha]]. apply den_free. exact W. }
  assert (Dcs : map (den s) cs = cs).
  { rewrite <- (map_id cs) at 2. apply map_ext_in. intros c Hc. apply den_id. apply Fcs. exact Hc. }
  rewrite (@unify_arrays_increment uf s args cs W). fold pat. rewrite Dcs.
  assert (Eq : unify_arrays uf [] pat cs = ren_res p (unify_arrays uf [] pat cs0)).
  { rewrite <- (@unify_arrays_equivariant p Hp uf [] pat cs0). rewrite Epat, <- Ecs. reflexivity. }
  destruct (unify_arrays uf [] pat cs0) as [s0| | |] eqn:E0; rewrite Eq; cbn [ren_res lift]; try reflexivity.
  exists (map (den s0) pat). split; [reflexivity|].
  assert (Fv : vals_free s (ren_store p s0)).
  { apply (@unify_arrays_vals_free s uf [] pat cs (ren_store p s0) (vals_free_nil s) Fpat Fcs). rewrite Eq. reflexivity. }
  transitivity (map (den (ren_store p s0)) (map (Rename.ren p) pat)).
  - rewrite Epat. unfold pat. rewrite map_map. apply map_ext. intros u. apply den_split. exact Fv.
  - rewrite !map_map. apply map_ext. intros u. apply (@ren_den p Hp).
Qed.

Print Assumptions match_sim.
