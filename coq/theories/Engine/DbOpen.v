(* Database operations whose arguments mention variables of a query that is still OPEN.

   engine.py: a goal's variables are bound only while its generator is suspended at an answer
   (Variable.unify binds, the `finally` unbinds when the generator is resumed, closed or
   deallocated).  A caller of the Python API can therefore write

       for _ in yp.query('name', [Y]):  yp.assert_fact(yp.atom('pet'), [Y])

   (or a Python predicate registered with register_function can do the same with the clause
   variables it receives from compiled code): the argument list handed to assert_fact contains
   Variable objects that are bound AT THAT MOMENT.  Answer.__init__ copies the arguments through
   copy_term = deep get_value, so what is stored is the value the arguments have when the operation
   is issued; advancing, exhausting or closing the query afterwards changes nothing that is stored.

   The cursor machine DbCursor.v gives every cursor its own pattern variables and keeps no bindings
   between events.  Here it is extended, WITHOUT changing it: an extended history may contain
   [XOpen c e] = "the event e, its terms written over the pattern variables of cursor c".  The
   machine keeps, per cursor, the bindings of the answer at which the cursor is suspended (the store
   that the match produced: Answer.match = copy_term + unify_arrays from the empty store, as in
   DbFacts.match_fact); [XOpen c e] is the base event e with every term dereferenced under those
   bindings (inst_ev).  So an extended run IS a run of the base machine (xrun_is_run), all theorems of
   DbCursorThms / DbSpec apply to it, and the stored fact is the resolved value at assertion time
   (open_assert_stores_value). *)
From Coq Require Import List Arith Bool Lia.
Import ListNotations.
From YP Require Import Base.Str Term.Term Term.Fast Unify.Unify Engine.Db Engine.DbCursor Engine.DbCursorThms Engine.DbFacts.
Set Implicit Arguments.

Inductive xev :=
| XBase (e : ev)
| XOpen (c : nat) (e : ev).     (* e's terms are over the pattern variables of cursor c, read under c's current bindings *)

(* deep get_value of every term of an event (den_fast = den, Term/Fast.v) *)
Definition inst_ev (b : store) (e : ev) : ev :=
  match e with
  | EAssert front t => EAssert front (den_fast b t)
  | EAssertFact name args append => EAssertFact name (map (den_fast b) args) append
  | ERetractAll t => ERetractAll (den_fast b t)
  | EQueryAll name args => EQueryAll name (map (den_fast b) args)
  | _ => e
  end.

(* the bindings Answer.match leaves active while the generator is suspended at its yield *)
Definition bind_of (fuel : nat) (pat args : list term) : store :=
  match answer_match fuel [] (Nat.max (bound_list pat) (bound_list args)) pat args with
  | (UOk s, _) => s
  | _ => []
  end.

(* the pattern of cursor c and the list it will scan at its next resumption *)
Definition cur_view (s : st) (c : nat) : option (list term * list fact) :=
  match scur s c with
  | CQNew k pat => Some (pat, sdb s k)
  | CQRun pat rest => Some (pat, rest)
  | CRNew t => match callable t with
               | Some (n, args) => Some (args, sdb s (n, length args))
               | None => None
               end
  | CRRun _ pat rest => Some (pat, rest)
  | _ => None
  end.

Definition find_fact (i : nat) (l : list fact) : option fact := find (fun f => Nat.eqb (fid f) i) l.

Record xst := mkx { xs_st : st; xs_bind : nat -> store }.
Definition xinit : xst := mkx init (fun _ => []).

Definition set_bind (b : nat -> store) (c : nat) (x : store) : nat -> store :=
  fun c' => if Nat.eqb c' c then x else b c'.

(* bindings of the cursors after the base event e returned o (s = state BEFORE the event) *)
Definition next_bind (fuel : nat) (s : st) (b : nat -> store) (e : ev) (o : out) : nat -> store :=
  match e with
  | ENext c =>
      match o with
      | OAns i _ | ORet _ i _ =>
          match cur_view s c with
          | Some (pat, l) =>
              match find_fact i l with
              | Some f => set_bind b c (bind_of fuel pat (fargs f))
              | None => set_bind b c []
              end
          | None => set_bind b c []
          end
      | OBad => b
      | _ => set_bind b c []            (* StopIteration: the finally clauses have unbound everything *)
      end
  | EClose c => set_bind b c []
  | EStart c _ => set_bind b c []
  | _ => b
  end.

Definition xtrans (x : xst) (xe : xev) : ev :=
  match xe with
  | XBase e => e
  | XOpen c e => inst_ev (xs_bind x c) e
  end.

Definition xstep (fuel : nat) (x : xst) (xe : xev) : option (xst * ev * out) :=
  let e := xtrans x xe in
  match step (match_fact fuel) (xs_st x) e with
  | None => None
  | Some (s1, o) => Some (mkx s1 (next_bind fuel (xs_st x) (xs_bind x) e o), e, o)
  end.

(* result: final state, the base history that was run, its outputs *)
Fixpoint xrun (fuel : nat) (x : xst) (xs : list xev) : option (xst * list ev * list out) :=
  match xs with
  | [] => Some (x, [], [])
  | xe :: r =>
      match xstep fuel x xe with
      | None => None
      | Some (x1, e, o) =>
          match xrun fuel x1 r with
          | None => None
          | Some (x2, es, os) => Some (x2, e :: es, o :: os)
          end
      end
  end.

(* an extended run is a run of the cursor machine on the history it names: same states, same outputs *)
Theorem xrun_is_run fuel : forall xs x x' es outs,
  xrun fuel x xs = Some (x', es, outs) ->
  run (match_fact fuel) (xs_st x) es = Some (xs_st x', outs) /\ length es = length xs.
Proof.
  induction xs as [|xe r IH]; intros x x' es outs H; simpl in H.
  - injection H as <- <- <-. simpl. auto.
  - unfold xstep in H.
    destruct (step (match_fact fuel) (xs_st x) (xtrans x xe)) as [[s1 o]|] eqn:S; [|discriminate].
    destruct (xrun fuel (mkx s1 (next_bind fuel (xs_st x) (xs_bind x) (xtrans x xe) o)) r) as [[[x2 es2] os2]|] eqn:E; [|discriminate].
    injection H as <- <- <-. destruct (IH _ _ _ _ E) as [R L]. simpl in R. simpl. rewrite S, R, L. auto.
Qed.

(* assert_fact with arguments over the variables of an open cursor: the stored fact is the value the
   arguments have under the cursor's bindings when the operation is issued; it is a new Answer put at the
   end / front of the list that is current then; nothing else changes *)
Theorem open_assert_stores_value fuel x c name args append :
  xstep fuel x (XOpen c (EAssertFact name args append)) =
  let vals := map (den (xs_bind x c)) args in
  let k := (name, length args) in
  let f := mkfact (snext (xs_st x)) vals in
  Some (mkx (mkst (upd k (ins (negb append) f (sdb (xs_st x) k)) (sdb (xs_st x))) (S (snext (xs_st x))) (scur (xs_st x)))
            (xs_bind x),
        EAssertFact name vals append, OIns k (negb append) f).
Proof.
  unfold xstep, xtrans, inst_ev. cbn [step]. unfold do_assert.
  rewrite (map_ext _ _ (den_fast_eq (xs_bind x c))). rewrite map_length. reflexivity.
Qed.

(* the bindings kept for a cursor are those of its answer: the answer the caller saw is the pattern
   under them, and they form a well-formed (acyclic) store *)
Theorem bind_of_answer fuel pat args a : match_fact fuel pat args = MYes a ->
  wf (bind_of fuel pat args) /\ a = map (den (bind_of fuel pat args)) pat.
Proof.
  unfold match_fact, bind_of.
  destruct (answer_match fuel [] (Nat.max (bound_list pat) (bound_list args)) pat args) as [u n'] eqn:A.
  unfold answer_match in A.
  destruct (copy_args [] args (Nat.max (bound_list pat) (bound_list args))) as [cs n2] eqn:C.
  inversion A; subst. clear A.
  destruct (unify_arrays fuel [] pat cs) as [s| | |] eqn:U; try discriminate.
  intros H. injection H as <-.
  destruct (unify_arrays_sound _ _ _ wf_nil U) as [W _]. auto.
Qed.

(* the database after an extended history is the fold of the atomic updates of its events, each applied to the
   database current at that moment (no update is lost, none is altered afterwards by what the cursors do), and
   identities stay unique: no_lost_update of the cursor machine, transported along xrun_is_run *)
Corollary xrun_no_lost_update fuel xs x x' es outs :
  ids_ok (sdb (xs_st x)) (snext (xs_st x)) -> xrun fuel x xs = Some (x', es, outs) ->
  (forall k, sdb (xs_st x') k = apply_outs outs (sdb (xs_st x)) k) /\ ids_ok (sdb (xs_st x')) (snext (xs_st x')).
Proof.
  intros I H. destruct (xrun_is_run _ _ _ H) as [R _]. exact (@no_lost_update _ _ _ _ _ I R).
Qed.
