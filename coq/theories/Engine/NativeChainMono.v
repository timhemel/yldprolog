(* Monotonicity of the engine with chains of definitions (Sem/NativeChain.v) in the call depth and in the Python
   predicates that are MEMBERS of chains; hence exception passthrough for a Python predicate in any position of a
   chain: making it raise instead of its j-th answer changes any query only by cutting it short (the later members of
   the chain are not tried after the exception, nothing catches or replaces it).  Same method as Engine/NativeMono.v. *)
From Coq Require Import String.
From Coq Require Import List Arith Bool.
Import ListNotations.
From YP Require Import Base.Str Term.Term Comp.IR Sem.ExecMono Sem.Machine
  Sem.Native Sem.NativeThms Sem.NativeChain Engine.BoundedMachine Engine.NativeMono.
Local Open Scope string_scope.
Local Open Scope list_scope.

(* member by member: the same compiled function, or a Python predicate that delivers at least as far *)
Inductive def_le : cdef -> cdef -> Prop :=
| def_le_ir f : def_le (CIr f) (CIr f)
| def_le_nat f1 f2 : (forall args s, le_b (drop (f1 args s)) (drop (f2 args s))) -> def_le (CNat f1) (CNat f2).

Definition chain_le (o1 o2 : option chain) : Prop :=
  match o1, o2 with
  | Some l1, Some l2 => Forall2 def_le l1 l2
  | None, None => True
  | _, _ => False
  end.

Definition cworld_le (w1 w2 : cworld) : Prop :=
  (forall name k, c_dyn w1 name k = c_dyn w2 name k) /\
  (forall name k, chain_le (c_fix w1 name k) (c_fix w2 name k)) /\ (forall name, ofun_le (c_var w1 name) (c_var w2 name)).

Lemma def_le_refl d : def_le d d.
Proof. destruct d; constructor. intros; apply le_b_refl. Qed.

Lemma chain_le_refl o : chain_le o o.
Proof. destruct o as [l|]; [|exact I]. cbn [chain_le]. induction l; constructor; [apply def_le_refl|assumption]. Qed.

Lemma cworld_le_refl w : cworld_le w w.
Proof. repeat split; intros; [apply chain_le_refl|apply ofun_le_refl]. Qed.

Lemma run_def_mono c1 c2 d1 d2 : call_le c1 c2 -> def_le d1 d2 -> forall args s, le_b (run_def c1 d1 args s) (run_def c2 d2 args s).
Proof.
  intros Hc Hd args s. destruct Hd as [f|f1 f2 H]; [|apply H]. rewrite !run_def_ir. apply run_code_mono, Hc.
Qed.

Lemma run_chain_mono c1 c2 l1 l2 : call_le c1 c2 -> Forall2 def_le l1 l2 -> forall args s, le_b (run_chain c1 l1 args s) (run_chain c2 l2 args s).
Proof.
  intros Hc F args s. induction F as [|d1 d2 r1 r2 Hd _ IH]; [apply le_b_refl|].
  cbn [run_chain]. pose proof (run_def_mono c1 c2 d1 d2 Hc Hd args s) as L.
  destruct (run_def c1 d1 args s) as [xs1 e1], (run_def c2 d2 args s) as [xs2 e2]. unfold le_b in L; cbn [fst snd] in L.
  destruct e1.
  - unfold le_b; cbn [fst snd]. destruct e2; [exact L|].
    destruct (run_chain c2 r2 args s) as [ys2 e2']. cbn [fst]. apply prefixl_app_r. exact L.
  - injection L as -> ->. apply (le_b_app_l xs1) in IH.
    destruct (run_chain c1 r1 args s) as [ys1 e1'], (run_chain c2 r2 args s) as [ys2 e2']. exact IH.
Qed.

Lemma ccall_function_mono c1 c2 w1 w2 : call_le c1 c2 -> cworld_le w1 w2 ->
  forall name args s, le_b (ccall_function c1 w1 name args s) (ccall_function c2 w2 name args s).
Proof.
  intros Hc [_ [Hf Hv]] name args s. rewrite !ccall_function_eq. specialize (Hf name (length args)).
  destruct (c_fix w1 name (length args)) as [l1|], (c_fix w2 name (length args)) as [l2|]; cbn [chain_le] in Hf; try contradiction.
  - apply run_chain_mono; assumption.
  - apply fallback_mono; [exact Hc|apply Hv].
Qed.

Lemma cstep_mono c1 c2 w1 w2 : call_le c1 c2 -> cworld_le w1 w2 ->
  forall name args s, le_b (cstep c1 w1 name args s) (cstep c2 w2 name args s).
Proof.
  intros Hc Hw name args s. rewrite !cstep_eq, (proj1 Hw). apply dyn_first_mono, ccall_function_mono; assumption.
Qed.

Theorem cquery_mono w1 w2 n m : cworld_le w1 w2 -> n <= m -> call_le (cquery n w1) (cquery m w2).
Proof.
  intros Hw. apply (fuel_mono (fun n => cquery n w1) (fun m => cquery m w2)); [reflexivity|].
  intros n' m' H name args s. apply cstep_mono; assumption.
Qed.

Lemma cquery_mono_w w1 w2 : cworld_le w1 w2 -> forall n, call_le (cquery n w1) (cquery n w2).
Proof. intros Hw n. apply cquery_mono; [exact Hw|apply le_n]. Qed.

(* the member number i of a chain raises instead of delivering its answer number j (if it is a Python predicate) *)
Fixpoint raise_member (i j : nat) (ds : chain) : chain :=
  match i with
  | O => match ds with CNat f :: r => CNat (raising f j) :: r | _ => ds end
  | S i' => match ds with [] => [] | d :: r => d :: raise_member i' j r end
  end.

Lemma Forall2_def_le_refl l : Forall2 def_le l l.
Proof. induction l; constructor; [apply def_le_refl|assumption]. Qed.

Lemma raise_member_le i j : forall ds, Forall2 def_le (raise_member i j ds) ds.
Proof.
  induction i as [|i IH]; intros ds; cbn [raise_member].
  - destruct ds as [|[f|f] r]; try apply Forall2_def_le_refl.
    constructor; [|apply Forall2_def_le_refl]. constructor. intros args s. apply raising_le.
  - destruct ds as [|d r]; constructor; [apply def_le_refl|apply IH].
Qed.

Definition with_raising_member (w : cworld) (name : str) (k i j : nat) : cworld :=
  {| c_fix := fun n0 k0 => if key_eq (n0, k0) (name, k) then option_map (raise_member i j) (c_fix w n0 k0) else c_fix w n0 k0;
     c_var := c_var w; c_dyn := c_dyn w |}.

Lemma with_raising_member_le w name k i j : cworld_le (with_raising_member w name k i j) w.
Proof.
  repeat split; cbn [with_raising_member c_fix c_var c_dyn]; [intros n0 k0|intros n0]; try apply ofun_le_refl.
  destruct (key_eq (n0, k0) (name, k)); [|apply chain_le_refl].
  destruct (c_fix w n0 k0) as [l|]; cbn [option_map chain_le]; [|exact I]. apply raise_member_le.
Qed.

(* every query, at every depth, in any context: either nothing changes, or the query ends with the exception after a prefix
   of its answers *)
Theorem exception_passthrough_member w pname k i j n name args s :
  let r' := cquery n (with_raising_member w pname k i j) name args s in
  let r := cquery n w name args s in
  (snd r' = false /\ r' = r) \/ (snd r' = true /\ prefixl (fst r') (fst r)).
Proof. exact (le_b_cut _ _ (cquery_mono_w _ _ (with_raising_member_le w pname k i j) n name args s)). Qed.

(* at the chain itself: the members before it answer, it delivers j answers, then the exception; the later members are not tried *)
Theorem raising_member_at_the_chain call ds1 f ds2 j args s :
  snd (run_chain call ds1 args s) = false -> j < length (fst (f args s)) ->
  run_chain call (ds1 ++ CNat (raising f j) :: ds2) args s =
  (fst (run_chain call ds1 args s) ++ firstn j (fst (drop (f args s))), true).
Proof.
  intros H1 Hj. rewrite run_chain_app, H1. cbn [run_chain run_def]. rewrite (raising_leaf f j args s Hj). reflexivity.
Qed.
