(* C03: an exception raised INSIDE findall/3's own frame while the goal's generator object is suspended at
   an answer - the RecursionError that `copy_term(template, {})` raises when the answer could be computed within the
   recursion limit but copying it cannot (engine.py:329 findall: `results = makelist([copy_term(template, {}) for r in q])`).

   The exception does not travel through the goal's generator (that one is suspended, it is not on the path of the
   exception): the goal's bindings are undone only because findall's frame, which owns the generator, dies.  In the
   frame machine this is `CRaise` executed in the body of the loop over the goal: `unwind` closes the loop's iterator.

   findall_r rz t g l = the code of the builtin (IRMachine.builtin_code "findall") with `if rz(frame state): raise`
   in front of the copy; rz is an ARBITRARY predicate of findall's frame state (which contains the results collected
   so far, so "at the j-th answer" is an instance; the machine has no other state the copy could depend on).  It is
   installed through the hook for registered predicates (arbitrary machine code, looked up before the builtins), so
   the engine program `prog ir facts (with_findall_r rz user)` is the program of C03_compiled_query_restores with this
   one builtin replaced - for every IR program, fact database, further registered predicates, and every rz.

   What the machine does NOT say (trusted, tied by the recursion-limit sweeps of the check, harness/props/c03_sweep.py):
   in CPython the frame of findall is kept alive by the traceback of the exception; its local `q` (the goal's
   generator) is finalised when the exception object dies (at the end of evaluate_bounded's `except RuntimeError: pass`,
   at the end of the consumer's except clause), not while the exception travels.  The machine identifies "the exception
   has arrived at the consumer" with "... and the consumer has let go of it". *)
From Coq Require Import String.
From Coq Require Import List Arith Bool Lia.
Import ListNotations.
From YP Require Import Base.Str Term.Term Term.Dfast Unify.UnifyGen Comp.IR Comp.CompileBody Sem.Machine Engine.GenMachine Engine.Restore Engine.IRMachine.
Local Open Scope string_scope.
Local Open Scope list_scope.

Notation mcode := (code lx fr callp).

Definition findall_r (rz : fr -> bool) (t g l : term) : mcode :=
  CSeq (CFor (call_expr g []) (CSeq (CIf rz CRaise) (CAssign (fcollect t))))
    (CSeq (CAssign fcollected)
       (CFor (fun _ e _ => ELeaf (XUnify l (mk_list (f_acc e)))) CYield)).

Definition with_findall_r (rz : fr -> bool) (user : str -> list term -> option (mcode * fr))
    (name : str) (args : list term) : option (mcode * fr) :=
  if str_eqb name (s_ "findall") then
    match args with
    | [t; g; l] => Some (findall_r rz t g l, fr0 [] 0)
    | _ => user name args
    end
  else user name args.

Section FindallRaise.
  Variable ir : ir_program.
  Variable facts : str -> nat -> list fact.
  Variable user : str -> list term -> option (mcode * fr).
  Variable rz : fr -> bool.

  Notation userR := (with_findall_r rz user).

  (* restoration, whatever the copy does: every query of every program (findall anywhere below it, nested, under
     once / call / negation), every fuel, recursion limit d, abandonment point k *)
  Theorem findall_copy_raise_restores n d k h name args nx hf itf ys r :
    m_nexts ir facts userR n d k h (m_query ir facts userR name args nx) = Some (hf, itf, ys, r) ->
    m_iclose hf itf = h
    /\ ithrow lclose hf itf = (h, IDone, RRaise)
    /\ (r <> RYield -> hf = h)
    /\ Forall (fun y => exists nw, y = nw ++ h) ys.
  Proof. apply compiled_query_restores. Qed.

  (* ... and through evaluate_bounded *)
  Theorem findall_copy_raise_bounded_restores n d k h name args nx hf ys :
    bounded_m ir facts userR n d k h name args nx = Some (hf, ys) -> hf = h.
  Proof. apply bounded_restores. Qed.

  (* The scenario is inside these statements.  The frame of findall(t, g, l), started under the heap h: if the goal's
     generator object delivers an answer - it is then SUSPENDED (it1), with its bindings in the heap h1 - and the copy
     raises, the frame ends by that exception; the heap that arrives at the caller is h1 with the suspended generator
     closed, and that is h. *)
  Lemma findall_r_raise_step n d h t g l (e : fr) h1 it1 :
    rz e = true ->
    m_inext ir facts userR (S (S (S n))) d h (mkiter mkleaf (prog ir facts userR) (call_expr g [] (f_nxt e) e h) h) = Some (h1, it1, RYield) ->
    m_inext ir facts userR (S (S (S (S (S (S (S n))))))) (S d) h (IFresh (findall_r rz t g l) e)
      = Some (m_iclose h1 it1, IDone, RRaise)
    /\ m_iclose h1 it1 = h.
  Proof.
    intros RZ G. unfold m_inext in *. split.
    - rewrite inext_S. unfold findall_r. rewrite exec_S. rewrite exec_S. cbn [knxt].
      rewrite loop_S. rewrite G.
      rewrite exec_S. rewrite exec_S. rewrite RZ. rewrite exec_S.
      rewrite unwind_eq. rewrite unwind_eq. rewrite unwind_eq. rewrite unwind_eq. reflexivity.
    - assert (I0 : Inv linv h (mkiter mkleaf (prog ir facts userR) (call_expr g [] (f_nxt e) e h) h) h).
      { unfold mkiter. destruct (call_expr g [] (f_nxt e) e h) as [x|p].
        - apply Inv_leaf. apply L_new.
        - apply Inv_fresh. }
      destruct (@frame_next_restores _ _ _ _ mkleaf lnext lclose (prog ir facts userR) f_nxt linv L_new L_next L_close _ _ _ _ _ _ _ _ I0 G)
        as [_ [_ C]].
      exact C.
  Qed.
End FindallRaise.

(* A concrete run: findall(g(X), p(X), L) over the dynamic facts p(a). p(f(b)). with no program loaded; the copy
   raises when one result has been collected. *)
Definition ex_facts (name : str) (ar : nat) : list fact :=
  if str_eqb name (d "p") && Nat.eqb ar 1 then [ (0, [TAtom (d "a")]); (0, [TFun (d "f") [TAtom (d "b")]]) ] else [].

Definition ex_findall_run (rz : fr -> bool) (k : nat) :=
  m_nexts [] ex_facts (with_findall_r rz (fun _ _ => None)) 200 20 k [(7, TAtom (d "keep"))]
    (m_query [] ex_facts (with_findall_r rz (fun _ _ => None)) (d "findall")
       [TFun (d "g") [TVar 0]; TFun (d "p") [TVar 0]; TVar 1] 2).

(* the copy never raises: one answer, _1 = [g(a), g(f(b))] on top of the untouched heap *)
Example ex_findall_ok :
  exists it, ex_findall_run (fun _ => false) 1 =
    Some ([(1, mk_list [TFun (d "g") [TAtom (d "a")]; TFun (d "g") [TFun (d "f") [TAtom (d "b")]]]); (7, TAtom (d "keep"))],
          it, [[(1, mk_list [TFun (d "g") [TAtom (d "a")]; TFun (d "g") [TFun (d "f") [TAtom (d "b")]]]); (7, TAtom (d "keep"))]], RYield).
Proof. eexists. vm_compute. reflexivity. Qed.

(* the copy of the SECOND answer raises (one result collected; the goal is suspended at p(f(b)) with _0 bound):
   no answer, the exception arrives, the heap is the initial one *)
Example ex_findall_copy_raises :
  ex_findall_run (fun e => Nat.eqb (length (f_acc e)) 1) 1 = Some ([(7, TAtom (d "keep"))], IDone, [], RRaise).
Proof. vm_compute. reflexivity. Qed.
