(* Theorems about arbitrary interleavings of updates and suspended cursors (C14), for every
   matching function.  An event changes the database by the atomic update that its output names and
   leaves alone the cursors it does not address: so what holds of histories follows from what holds
   of sequences of well-formed updates, and what a cursor returns over a history from what one
   next() on it does. *)
From Coq Require Import List Arith Bool Lia.
Import ListNotations.
From YP Require Import Base.Str Term.Term Engine.Db Engine.DbCursor.
Set Implicit Arguments.

Lemma del_ids_cons_notin i g l : ~ In i (map fid l) -> del_ids (i :: g) l = del_ids g l.
Proof.
  intros H. unfold del_ids. apply filter_ext_in. intros c Hc. simpl.
  destruct (Nat.eqb_spec (fid c) i) as [E|E]; auto.
  exfalso. apply H. apply in_map_iff. exists c. auto.
Qed.

Lemma del_ids_hit g f r : del_ids (fid f :: g) (f :: r) = del_ids (fid f :: g) r.
Proof. unfold del_ids. simpl. rewrite Nat.eqb_refl. reflexivity. Qed.
Lemma del_ids_miss g f r : existsb (Nat.eqb (fid f)) g = false -> del_ids g (f :: r) = f :: del_ids g r.
Proof. intros H. unfold del_ids. simpl. rewrite H. reflexivity. Qed.

Lemma del_ids_in g l c : In c (del_ids g l) <-> In c l /\ ~ In (fid c) g.
Proof.
  unfold del_ids. rewrite filter_In. split; intros [A B]; split; auto.
  - intros X. apply negb_true_iff in B.
    assert (Y: existsb (Nat.eqb (fid c)) g = true); [|congruence].
    apply existsb_exists. exists (fid c). split; auto. apply Nat.eqb_refl.
  - apply negb_true_iff. destruct (existsb (Nat.eqb (fid c)) g) eqn:X; auto.
    apply existsb_exists in X as [i [Hi E]]. apply Nat.eqb_eq in E. subst i. contradiction.
Qed.

(* o is an update that makes sense in the database d, n being the next free identity *)
Definition out_ok (d : db) (n : nat) (o : out) : Prop :=
  match o with
  | OIns _ _ f => fid f = n
  | ORet k i _ => In i (map fid (d k))
  | ORAll k gone => NoDup gone /\ forall i, In i gone -> In i (map fid (d k))
  | _ => True
  end.

Definition out_ids (o : out) : nat := match o with OIns _ _ _ => 1 | _ => 0 end.

Fixpoint outs_ok (d : db) (n : nat) (tr : list out) : Prop :=
  match tr with
  | [] => True
  | o :: r => out_ok d n o /\ outs_ok (apply_out o d) (n + out_ids o) r
  end.

Definition removed_of (o : out) : list nat :=
  match o with ORet _ i _ => [i] | ORAll _ g => g | _ => [] end.
Definition removed (outs : list out) : list nat := flat_map removed_of outs.

Definition apply_outs (outs : list out) (d : db) : db := fold_left (fun d o => apply_out o d) outs d.

Lemma apply_out_ext o d1 d2 : (forall k, d1 k = d2 k) -> forall k, apply_out o d1 k = apply_out o d2 k.
Proof.
  intros E k. destruct o; simpl; auto; unfold upd; destruct (key_eqb k k0); auto; rewrite E; reflexivity.
Qed.
Lemma apply_outs_ext outs : forall d1 d2, (forall k, d1 k = d2 k) -> forall k, apply_outs outs d1 k = apply_outs outs d2 k.
Proof.
  induction outs as [|o r IH]; intros d1 d2 E k; simpl; auto.
  apply IH. apply apply_out_ext. exact E.
Qed.

Lemma apply_out_ids_ok d n o : ids_ok d n -> out_ok d n o -> ids_ok (apply_out o d) (n + out_ids o).
Proof.
  intros I V. destruct o as [k front f| |k gone| | | | | | |id a|k id a|l]; simpl in *; rewrite ?Nat.add_0_r; auto.
  - destruct f as [i args]. simpl in V. subst i. rewrite Nat.add_1_r. apply ids_ok_ins. exact I.
  - apply ids_ok_sub; auto.
    + intros f Hf. apply del_ids_in in Hf. tauto.
    + apply nodup_ids_filter. destruct I as [I1 _]. apply I1.
  - apply ids_ok_empty.
  - apply ids_ok_sub; auto.
    + intros f Hf. apply del_id_in in Hf. tauto.
    + apply nodup_ids_filter. destruct I as [I1 _]. apply I1.
Qed.

Lemma apply_out_removed d n o : ids_ok d n -> out_ok d n o ->
  NoDup (removed_of o) /\
  (forall i, In i (removed_of o) -> exists k, In i (map fid (d k))) /\
  (forall i, In i (removed_of o) -> forall k, ~ In i (map fid (apply_out o d k))) /\
  (forall i k, In i (map fid (apply_out o d k)) -> In i (map fid (d k)) \/ i = n).
Proof.
  intros [I1 [I2 I3]] V.
  assert (Sub: forall (p : fact -> bool) k0 i k, In i (map fid (upd k0 (filter p (d k0)) d k)) -> In i (map fid (d k))).
  { intros p k0 i k. unfold upd. destruct (key_eqb_spec k k0) as [->|]; auto. apply ids_filter. }
  (* the identity i is in the list of k: after its deletion from that list it is nowhere *)
  assert (Gone: forall (p : fact -> bool) k i, In i (map fid (d k)) -> (forall c, In c (filter p (d k)) -> fid c <> i) ->
                forall k0, ~ In i (map fid (upd k (filter p (d k)) d k0))).
  { intros p k i Hi Hp k0. unfold upd. destruct (key_eqb_spec k0 k) as [->|N]; intros X.
    - apply in_map_iff in X as [c [E X]]. apply (Hp c X E).
    - apply N. apply (I3 k0 k i); auto. }
  assert (Quiet: removed_of o = [] -> apply_out o d = d ->
            NoDup (removed_of o) /\
            (forall i, In i (removed_of o) -> exists k, In i (map fid (d k))) /\
            (forall i, In i (removed_of o) -> forall k, ~ In i (map fid (apply_out o d k))) /\
            (forall i k, In i (map fid (apply_out o d k)) -> In i (map fid (d k)) \/ i = n)).
  { intros -> ->. split; [constructor|]. split; [intros i []|]. split; [intros i []|]. intros i k Hi. left. exact Hi. }
  destruct o as [k front f| |k gone| | | | | | |id a|k id a|l]; try (apply Quiet; reflexivity); simpl in *.
  - (* OIns *)
    split; [constructor|split; [intros i []|split; [intros i []|]]].
    intros i k0. unfold upd. destruct (key_eqb_spec k0 k) as [EK|N]; intros Hi; [subst k0|auto].
    unfold ins in Hi. destruct front; simpl in Hi.
    + destruct Hi as [Hi|Hi]; [right; congruence|left; exact Hi].
    + rewrite map_app, in_app_iff in Hi. simpl in Hi. destruct Hi as [Hi|[Hi|[]]]; [left; exact Hi|right; congruence].
  - (* ORAll *)
    destruct V as [V1 V2]. split; [exact V1|split; [|split]].
    + intros i Hi. exists k. auto.
    + intros i Hi. apply Gone; auto. intros c Hc <-. apply del_ids_in in Hc. tauto.
    + intros i k0 Hi. left. eapply Sub; eauto.
  - (* OClr *)
    split; [constructor|split; [intros i []|split; [intros i []|]]]. intros i k0 [].
  - (* ORet *)
    split; [repeat constructor; auto|split; [|split]].
    + intros i [<-|[]]. exists k. exact V.
    + intros i [<-|[]]. apply Gone; auto. intros c Hc. apply del_id_in in Hc. tauto.
    + intros i k0 Hi. left. eapply Sub; eauto.
Qed.

Lemma outs_ok_removed tr : forall d n R,
  ids_ok d n -> outs_ok d n tr ->
  (forall i, In i R -> i < n /\ forall k, ~ In i (map fid (d k))) -> NoDup R ->
  NoDup (R ++ removed tr).
Proof.
  induction tr as [|o r IH]; intros d n R I V HR N; simpl in *.
  - rewrite app_nil_r. exact N.
  - destruct V as [V1 V2].
    destruct (@apply_out_removed d n o I V1) as [A [B [C D]]].
    pose proof (@apply_out_ids_ok d n o I V1) as I'.
    unfold removed. simpl. fold (removed r). rewrite app_assoc. apply (IH (apply_out o d) (n + out_ids o)); auto.
    + intros i Hi. apply in_app_iff in Hi as [Hi|Hi].
      * destruct (HR i Hi) as [X Y]. split; [lia|]. intros k Z. destruct (D _ _ Z) as [W|W]; [apply (Y k W)|lia].
      * split; [|apply C; auto]. destruct (B i Hi) as [k Hk]. destruct I as [_ [I2 _]].
        apply in_map_iff in Hk as [f [Ef Hf]]. subst i. specialize (I2 k f Hf). lia.
    + apply nodup_app; auto. intros i Hi Hj. destruct (HR i Hi) as [_ Y]. destruct (B i Hj) as [k Hk]. apply (Y k Hk).
Qed.

Section Thms.
  Variable mt : list term -> list term -> mres.
  Notation step := (step mt).
  Notation run := (run mt).

  Lemma rall_spec pat : forall l keep gone, NoDup (map fid l) -> rall mt pat l = Some (keep, gone) ->
    keep = del_ids gone l /\ (forall i, In i gone -> In i (map fid l)) /\ NoDup gone.
  Proof.
    induction l as [|f r IH]; intros keep gone N H; simpl in H.
    - injection H as <- <-. repeat split; auto; try constructor; intros; contradiction.
    - inversion N as [|? ? N1 N2]; subst.
      destruct (mt pat (fargs f)) eqn:M; [| |discriminate];
        destruct (rall mt pat r) as [[k' g']|] eqn:R; try discriminate; inversion H; subst; clear H;
        destruct (IH _ _ N2 eq_refl) as [A [B C]].
      + repeat split.
        * rewrite del_ids_hit, del_ids_cons_notin; auto.
        * intros i [<-|Hi]; simpl; auto.
        * constructor; auto.
      + assert (NG: existsb (Nat.eqb (fid f)) gone = false).
        { destruct (existsb (Nat.eqb (fid f)) gone) eqn:X; auto. apply existsb_exists in X as [i [Hi E]].
          apply Nat.eqb_eq in E. subst i. exfalso. apply N1. auto. }
        repeat split; auto.
        * rewrite del_ids_miss; auto. f_equal. exact A.
        * intros i Hi. simpl. right. auto.
  Qed.

  (* what an event does to the database, read off its output *)
  Definition asserts (e : ev) : bool :=
    match e with EAssert _ _ | EAssertFact _ _ _ => true | _ => false end.

  Definition db_effect (s : st) (e : ev) (s' : st) (o : out) : Prop :=
    snext s' = out_ids o + snext s /\
    match o with
    | OIns k front f => asserts e = true /\ fid f = snext s /\ sdb s' = upd k (ins front f (sdb s k)) (sdb s)
    | ORet k i a => sdb s' = upd k (del_id i (sdb s k)) (sdb s) /\
                    exists pat l f r, rscan mt pat (sdb s k) l = Some (Some (f, a, r)) /\ i = fid f
    | ORAll k gone => exists pat keep, rall mt pat (sdb s k) = Some (keep, gone) /\ sdb s' = upd k keep (sdb s)
    | OClr => sdb s' = empty_db
    | _ => sdb s' = sdb s
    end.

  Definition acts_on (c : nat) (e : ev) : bool :=
    match e with
    | ENext c' | EStart c' _ | EClose c' => Nat.eqb c' c
    | _ => false
    end.

  Definition cur_effect (s : st) (e : ev) (s' : st) : Prop :=
    forall c, scur s' c = scur s c \/ (acts_on c e = true /\ scur s' c <> CNone).

  Lemma set_cur_same s c x : scur (set_cur s c x) c = x.
  Proof. simpl. rewrite Nat.eqb_refl. reflexivity. Qed.

  Lemma set_cur_cases s c' x c : x <> CNone ->
    scur (set_cur s c' x) c = scur s c \/ (Nat.eqb c' c = true /\ scur (set_cur s c' x) c <> CNone).
  Proof.
    intros X. simpl. destruct (Nat.eqb_spec c c') as [->|N]; auto.
    right. split; [apply Nat.eqb_refl|exact X].
  Qed.

  Lemma step_view s e s' o : step s e = Some (s', o) -> db_effect s e s' o /\ cur_effect s e s'.
  Proof.
    intros H.
    (* events that change neither the database nor a cursor *)
    assert (Same: forall o', match o' with OIns _ _ _ | ORet _ _ _ | ORAll _ _ | OClr => False | _ => True end ->
                  db_effect s e s o' /\ cur_effect s e s).
    { intros o' Q. split; [|intros c; left; reflexivity]. destruct o'; try contradiction; split; reflexivity. }
    destruct e as [front t|name args app|c q|c|c|t|name args|]; simpl in H.
    - (* EAssert *)
      destruct (callable t) as [[n a]|]; injection H as <- <-; [|apply Same; exact I].
      split; [repeat split|intros c; left; reflexivity].
    - (* EAssertFact *)
      injection H as <- <-. split; [repeat split|intros c; left; reflexivity].
    - (* EStart *)
      injection H as <- <-. split; [split; reflexivity|]. intros c0. apply set_cur_cases. destruct q; discriminate.
    - (* ENext: by the state of the cursor; Q a query, R a retract *)
      assert (Q: forall pat l, qnext mt s c pat l = Some (s', o) -> db_effect s (ENext c) s' o /\ cur_effect s (ENext c) s').
      { intros pat l HQ. unfold qnext in HQ.
        destruct (qscan mt pat l) as [[[[f a] r]|]|]; try discriminate; injection HQ as <- <-;
          (split; [split; reflexivity|intros c0; apply set_cur_cases; discriminate]). }
      assert (R: forall k pat l, rnext mt s c k pat l = Some (s', o) -> db_effect s (ENext c) s' o /\ cur_effect s (ENext c) s').
      { intros k pat l HR. unfold rnext in HR.
        destruct (rscan mt pat (sdb s k) l) as [[[[f a] r]|]|] eqn:RS; try discriminate; injection HR as <- <-.
        - split; [|intros c0; apply (set_cur_cases (set_db s _)); discriminate].
          split; [reflexivity|]. split; [reflexivity|]. exists pat, l, f, r. auto.
        - split; [split; reflexivity|intros c0; apply set_cur_cases; discriminate]. }
      destruct (scur s c) as [|k pat|pat rest|t|k pat rest|].
      + injection H as <- <-. apply Same; exact I.
      + exact (Q _ _ H).
      + exact (Q _ _ H).
      + destruct (callable t) as [[n a]|]; [exact (R _ _ _ H)|]. injection H as <- <-.
        split; [split; reflexivity|intros c0; apply set_cur_cases; discriminate].
      + exact (R _ _ _ H).
      + injection H as <- <-. apply Same; exact I.
    - (* EClose *)
      destruct (scur s c); injection H as <- <-;
        try (split; [split; reflexivity|intros c0; apply set_cur_cases; discriminate]).
      apply Same; exact I.
    - (* ERetractAll *)
      destruct (callable t) as [[n a]|]; [|injection H as <- <-; apply Same; exact I].
      destruct (rall mt a (sdb s (n, length a))) as [[keep gone]|] eqn:RA; try discriminate; injection H as <- <-.
      split; [|intros c; left; reflexivity]. split; [reflexivity|]. exists a, keep. auto.
    - (* EQueryAll *)
      destruct (qall mt args (sdb s (name, length args))); try discriminate; injection H as <- <-.
      apply Same; exact I.
    - (* EClear *)
      injection H as <- <-. split; [split; reflexivity|intros c; left; reflexivity].
  Qed.

  (* C14.3, one event: it changes the database by exactly the atomic update that its output names,
     applied to the database that is current at that moment, and that update is well formed *)
  Lemma step_out s e s' o : ids_ok (sdb s) (snext s) -> step s e = Some (s', o) ->
    out_ok (sdb s) (snext s) o /\ sdb s' = apply_out o (sdb s) /\ snext s' = out_ids o + snext s.
  Proof.
    intros [I1 _] H. destruct (proj1 (@step_view s e s' o H)) as [N E].
    destruct o as [k front f| |k gone| | | | | | |id a|k id a|l]; simpl in *; auto.
    - destruct E as [_ [F D]]. auto.
    - destruct E as [pat [keep [RA D]]]. destruct (rall_spec _ _ (I1 k) RA) as [A [B C]]. subst keep. auto.
    - destruct E as [D [pat [l [f [r [RS ->]]]]]]. destruct (rscan_some _ _ _ _ RS) as [X _].
      apply has_id_in in X. auto.
  Qed.

  Lemma step_ids_ok s e s' o : ids_ok (sdb s) (snext s) -> step s e = Some (s', o) -> ids_ok (sdb s') (snext s').
  Proof.
    intros I H. destruct (@step_out s e s' o I H) as [V [D N]]. rewrite D, N, Nat.add_comm. apply apply_out_ids_ok; auto.
  Qed.

  Lemma run_outs : forall evs s s' outs, ids_ok (sdb s) (snext s) -> run s evs = Some (s', outs) ->
    outs_ok (sdb s) (snext s) outs /\ sdb s' = apply_outs outs (sdb s) /\ ids_ok (sdb s') (snext s').
  Proof.
    induction evs as [|e r IH]; intros s s' outs I H; simpl in H.
    - injection H as <- <-. simpl. auto.
    - destruct (step s e) as [[s1 o]|] eqn:ES; [|discriminate].
      destruct (run s1 r) as [[s2 os]|] eqn:ER; [|discriminate]. injection H as <- <-.
      destruct (@step_out s e s1 o I ES) as [V [D N]].
      destruct (IH _ _ _ (@step_ids_ok s e s1 o I ES) ER) as [A [B C]].
      rewrite D, N, Nat.add_comm in A. rewrite D in B. simpl. auto.
  Qed.

  (* C14.3: no update is lost.  The database after a history is the fold of the atomic updates that
     the outputs name, in the order of the events; in particular a suspended cursor never writes
     back a list it read earlier. *)
  Theorem no_lost_update : forall evs s s' outs,
    ids_ok (sdb s) (snext s) -> run s evs = Some (s', outs) ->
    (forall k, sdb s' k = apply_outs outs (sdb s) k) /\ ids_ok (sdb s') (snext s').
  Proof.
    intros evs s s' outs I H. destruct (@run_outs evs s s' outs I H) as [_ [B C]].
    split; [intros k; rewrite B; reflexivity|exact C].
  Qed.

  (* C14.2: over all cursors and all retractall calls of a history, every fact is removed, and
     returned by a retract, at most once *)
  Theorem retract_at_most_once : forall evs s s' outs,
    ids_ok (sdb s) (snext s) -> run s evs = Some (s', outs) -> NoDup (removed outs).
  Proof.
    intros evs s s' outs I H. destruct (@run_outs evs s s' outs I H) as [V _].
    apply (@outs_ok_removed outs (sdb s) (snext s) [] I V); [intros i []|constructor].
  Qed.

  Lemma step_other s e s' o c : step s e = Some (s', o) -> acts_on c e = false -> scur s' c = scur s c.
  Proof. intros H A. destruct (proj2 (@step_view s e s' o H) c) as [E|[B _]]; congruence. Qed.

  Lemma step_keeps_cursor s e s' o c : step s e = Some (s', o) -> scur s c <> CNone -> scur s' c <> CNone.
  Proof. intros H N. destruct (proj2 (@step_view s e s' o H) c) as [E|[_ B]]; congruence. Qed.

  Lemma run_keeps_cursor c : forall evs s s' outs, run s evs = Some (s', outs) -> scur s c <> CNone -> scur s' c <> CNone.
  Proof.
    induction evs as [|e r IH]; intros s s' outs H N; simpl in H.
    - injection H as <- <-. exact N.
    - destruct (step s e) as [[s1 o]|] eqn:ES; [|discriminate].
      destruct (run s1 r) as [[s2 os]|] eqn:ER; [|discriminate]. injection H as -> <-.
      apply (IH _ _ _ ER). apply (@step_keeps_cursor s e s1 o c ES N).
  Qed.

  (* what the next() calls on cursor c returned, in order *)
  Fixpoint outs_of (c : nat) (evs : list ev) (outs : list out) : list out :=
    match evs, outs with
    | e :: es, o :: os =>
        match e with
        | ENext c' => if Nat.eqb c' c then o :: outs_of c es os else outs_of c es os
        | _ => outs_of c es os
        end
    | _, _ => []
    end.

  Lemma outs_of_other c e r o os : acts_on c e = false -> outs_of c (e :: r) (o :: os) = outs_of c r os.
  Proof. intros A. destruct e; simpl in *; auto. rewrite A. reflexivity. Qed.

  Lemma outs_of_next c r o os : outs_of c (ENext c :: r) (o :: os) = o :: outs_of c r os.
  Proof. simpl. rewrite Nat.eqb_refl. reflexivity. Qed.

  (* the cursor is neither re-created nor closed by the caller *)
  Definition ctl (c : nat) (e : ev) : bool :=
    match e with EStart c' _ | EClose c' => Nat.eqb c' c | _ => false end.
  Definition no_ctl (c : nat) (evs : list ev) : Prop := forall e, In e evs -> ctl c e = false.
  Definition no_start (c : nat) (evs : list ev) : Prop := forall e q, In e evs -> e <> EStart c q.

  (* A property P of (state of cursor c, what its next() calls return from there on) holds of every
     history whose events satisfy ok, if it holds of the empty history and goes backwards over one
     next() on c and over one admissible Start/Close of c: all other events do not touch c. *)
  Lemma cursor_outs_ind c (ok : ev -> Prop) (P : cursor -> list out -> Prop) :
    (forall cu, P cu []) ->
    (forall s s1 o os, step s (ENext c) = Some (s1, o) -> P (scur s1 c) os -> P (scur s c) (o :: os)) ->
    (forall s e s1 o os, ok e -> ctl c e = true -> step s e = Some (s1, o) -> P (scur s1 c) os -> P (scur s c) os) ->
    forall evs s s' outs, (forall e, In e evs -> ok e) -> run s evs = Some (s', outs) ->
    P (scur s c) (outs_of c evs outs).
  Proof.
    intros P0 PN PC. induction evs as [|e r IH]; intros s s' outs OK H; simpl in H.
    - injection H as <- <-. apply P0.
    - destruct (step s e) as [[s1 o]|] eqn:ES; [|discriminate].
      destruct (run s1 r) as [[s2 os]|] eqn:ER; [|discriminate]. injection H as -> <-.
      assert (Hr: P (scur s1 c) (outs_of c r os)).
      { apply (IH s1 s'); auto. intros x Hx. apply OK. right. exact Hx. }
      assert (Oe: ok e) by (apply OK; left; reflexivity).
      destruct (acts_on c e) eqn:A.
      + destruct e as [| |c' q|c'|c'| | |]; simpl in A; try discriminate; apply Nat.eqb_eq in A; subst c'.
        * apply (PC s (EStart c q) s1 o); auto. simpl. apply Nat.eqb_refl.
        * rewrite outs_of_next. apply (PN s s1); auto.
        * apply (PC s (EClose c) s1 o); auto. simpl. apply Nat.eqb_refl.
      + rewrite (@outs_of_other c e r o os A). rewrite <- (@step_other s e s1 o c ES A). exact Hr.
  Qed.

  (* the first n elements of  L ++ [OEnd; OEnd; ...] *)
  Fixpoint expect (L : list out) (n : nat) : list out :=
    match n with
    | O => []
    | S n' => match L with [] => OEnd :: expect [] n' | x :: L' => x :: expect L' n' end
    end.

  Lemma expect_S L n : expect L (S n) = hd OEnd L :: expect (tl L) n.
  Proof. destruct L; reflexivity. Qed.

  (* the answers a query cursor owes: the matching facts of its snapshot, in snapshot order *)
  Definition qstream (pat : list term) (l : list fact) : list out :=
    map (fun fa => OAns (fid (fst fa)) (snd fa)) (matches mt pat l).

  Definition cur_stream (cu : cursor) : option (list out) :=
    match cu with
    | CQRun pat rest => Some (qstream pat rest)
    | CDone => Some []
    | _ => None
    end.

  Lemma qnext_stream s c pat l s1 o : qnext mt s c pat l = Some (s1, o) ->
    o = hd OEnd (qstream pat l) /\ cur_stream (scur s1 c) = Some (tl (qstream pat l)).
  Proof.
    unfold qnext. intros H.
    destruct (qscan mt pat l) as [[[[f a] r]|]|] eqn:Q; [| |discriminate]; injection H as <- <-; rewrite set_cur_same; unfold qstream.
    - destruct (qscan_some _ _ _ Q) as [M _]. rewrite M. split; reflexivity.
    - apply qscan_none in Q. rewrite Q. split; reflexivity.
  Qed.

  Lemma next_stream s c s1 o L : step s (ENext c) = Some (s1, o) -> cur_stream (scur s c) = Some L ->
    o = hd OEnd L /\ cur_stream (scur s1 c) = Some (tl L).
  Proof.
    simpl. intros H HL.
    destruct (scur s c) as [|k pat|pat rest|t|k pat rest|] eqn:EC; simpl in HL; try discriminate; injection HL as <-.
    - apply (@qnext_stream s c pat rest s1 o H).
    - injection H as <- <-. rewrite EC. split; reflexivity.
  Qed.

  (* C14.1: whatever happens between its next() calls, a query cursor returns exactly the matching
     facts of its snapshot, in order, then StopIteration for ever *)
  Theorem cursor_visits_snapshot : forall evs s s' outs c L,
    cur_stream (scur s c) = Some L -> no_ctl c evs -> run s evs = Some (s', outs) ->
    outs_of c evs outs = expect L (length (outs_of c evs outs)).
  Proof.
    intros evs s s' outs c L HL NC H. revert L HL.
    apply (@cursor_outs_ind c (fun e => ctl c e = false)
             (fun cu os => forall L, cur_stream cu = Some L -> os = expect L (length os))) with (4 := NC) (5 := H).
    - intros cu L _. reflexivity.
    - intros s0 s1 o os ES IH L HL. destruct (@next_stream s0 c s1 o L ES HL) as [-> HL'].
      simpl length. rewrite expect_S. f_equal. apply IH. exact HL'.
    - intros s0 e s1 o os OK C. congruence.
  Qed.

  (* the snapshot is the list that is stored when the goal is started, i.e. at the first next() *)
  Corollary query_snapshot_at_first_next : forall evs s s' outs c k pat,
    scur s c = CQNew k pat -> no_ctl c evs -> run s (ENext c :: evs) = Some (s', outs) ->
    outs_of c (ENext c :: evs) outs = expect (qstream pat (sdb s k)) (length (outs_of c (ENext c :: evs) outs)).
  Proof.
    intros evs s s' outs c k pat EC NC H. simpl in H. rewrite EC in H.
    destruct (qnext mt s c pat (sdb s k)) as [[s1 o]|] eqn:Q; [|discriminate].
    destruct (run s1 evs) as [[s2 os]|] eqn:ER; [|discriminate]. injection H as -> <-.
    destruct (@qnext_stream s c pat (sdb s k) s1 o Q) as [-> HL].
    rewrite outs_of_next. simpl length. rewrite expect_S. f_equal.
    apply (@cursor_visits_snapshot evs s1 s' os c _ HL NC ER).
  Qed.

  (* C14.4: a cursor yields at most as many answers as its snapshot has facts left, whatever is
     asserted or retracted meanwhile *)
  Definition is_ans (o : out) : bool := match o with OAns _ _ | ORet _ _ _ => true | _ => false end.
  Definition count_ans (l : list out) : nat := length (filter is_ans l).
  Definition cur_left (cu : cursor) : option nat :=
    match cu with
    | CQRun _ rest | CRRun _ _ rest => Some (length rest)
    | CDone => Some 0
    | _ => None
    end.

  Lemma count_ans_cons o os : count_ans (o :: os) = (if is_ans o then 1 else 0) + count_ans os.
  Proof. unfold count_ans. simpl. destruct (is_ans o); reflexivity. Qed.

  Lemma qnext_left s c pat l s1 o : qnext mt s c pat l = Some (s1, o) ->
    exists n, cur_left (scur s1 c) = Some n /\ (if is_ans o then 1 else 0) + n <= length l.
  Proof.
    unfold qnext. intros H.
    destruct (qscan mt pat l) as [[[[f a] r]|]|] eqn:Q; [| |discriminate]; injection H as <- <-; rewrite set_cur_same; simpl.
    - destruct (qscan_some _ _ _ Q) as [_ [nm [-> _]]]. exists (length r). split; auto. rewrite app_length. simpl. lia.
    - exists 0. split; auto. lia.
  Qed.

  Lemma rnext_left s c k pat l s1 o : rnext mt s c k pat l = Some (s1, o) ->
    exists n, cur_left (scur s1 c) = Some n /\ (if is_ans o then 1 else 0) + n <= length l.
  Proof.
    unfold rnext. intros H.
    destruct (rscan mt pat (sdb s k) l) as [[[[f a] r]|]|] eqn:Q; [| |discriminate]; injection H as <- <-; rewrite set_cur_same; simpl.
    - destruct (rscan_some _ _ _ _ Q) as [_ [_ [pre [-> _]]]]. exists (length r). split; auto. rewrite app_length. simpl. lia.
    - exists 0. split; auto. lia.
  Qed.

  Lemma next_left s c s1 o n : step s (ENext c) = Some (s1, o) -> cur_left (scur s c) = Some n ->
    exists n', cur_left (scur s1 c) = Some n' /\ (if is_ans o then 1 else 0) + n' <= n.
  Proof.
    simpl. intros H HL.
    destruct (scur s c) as [|k pat|pat rest|t|k pat rest|] eqn:EC; simpl in HL; try discriminate; injection HL as <-.
    - apply (@qnext_left s c pat rest s1 o H).
    - apply (@rnext_left s c k pat rest s1 o H).
    - injection H as <- <-. rewrite EC. exists 0. auto.
  Qed.

  Theorem cursor_finite : forall evs s s' outs c n,
    cur_left (scur s c) = Some n -> no_start c evs -> run s evs = Some (s', outs) ->
    count_ans (outs_of c evs outs) <= n.
  Proof.
    intros evs s s' outs c n HL NS H. revert n HL.
    apply (@cursor_outs_ind c (fun e => forall q, e <> EStart c q)
             (fun cu os => forall n, cur_left cu = Some n -> count_ans os <= n))
      with (4 := fun e He q => NS e q He) (5 := H).
    - intros cu n _. apply Nat.le_0_l.
    - intros s0 s1 o os ES IH n HL. destruct (@next_left s0 c s1 o n ES HL) as [n' [HL' Le]].
      rewrite count_ans_cons. specialize (IH n' HL'). lia.
    - (* the caller closes the cursor: it is done *)
      intros s0 e s1 o os OK C ES IH n HL.
      destruct e as [| |c' q|c'|c'| | |]; simpl in C; try discriminate; apply Nat.eqb_eq in C; subst c'.
      + exfalso. apply (OK q). reflexivity.
      + assert (X: count_ans os <= 0); [|lia]. apply IH. simpl in ES.
        destruct (scur s0 c); simpl in HL; try discriminate; injection ES as <- <-; rewrite set_cur_same; reflexivity.
  Qed.

  (* the failure-driven update loop  retract(c(N)), ..., assertz(c(N1)), fail : the retract goal is
     started once (its first next()), every iteration of the loop is one more next() on it, and the
     events in between (evs) are arbitrary - in particular they may assert new matching facts.  The
     goal answers at most as often as there were facts when it started. *)
  Corollary retract_goal_finite : forall evs s s' outs c t name args,
    scur s c = CRNew t -> callable t = Some (name, args) -> no_start c evs ->
    run s (ENext c :: evs) = Some (s', outs) ->
    count_ans (outs_of c (ENext c :: evs) outs) <= length (sdb s (name, length args)).
  Proof.
    intros evs s s' outs c t name args EC CA NS H. simpl in H. rewrite EC, CA in H.
    set (k := (name, length args)) in *.
    destruct (rnext mt s c k args (sdb s k)) as [[s1 o]|] eqn:Q; [|discriminate].
    destruct (run s1 evs) as [[s2 os]|] eqn:ER; [|discriminate]. injection H as -> <-.
    destruct (@rnext_left s c k args (sdb s k) s1 o Q) as [n [HL Le]].
    rewrite outs_of_next, count_ans_cons. pose proof (@cursor_finite evs s1 s' os c n HL NS ER). lia.
  Qed.
End Thms.
