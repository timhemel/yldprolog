(* Non-vacuity of the C04 theorems for the meta-call builtins of the world model (World.metastep / ctl_goal / coll_finish):
   two engines load the SAME script whose bodies use findall/3, once/1, \= /2 and call/N over p/1, which has other facts
   in each engine; their generators are advanced in an interleaved schedule while the generators of the other engine
   are suspended with their bindings in the one shared heap. *)
From Coq Require Import String.
From Coq Require Import List Arith Bool Lia ZArith.
Import ListNotations.
From YP Require Import Base.Str Term.Term Term.Show Unify.Unify Engine.World Engine.Isolation Sem.Machine.
Local Open Scope string_scope.

Definition mA (s : string) := TAtom (of_string s).
Definition m_ := of_string.
(* u(L) :- findall(s(X,Y), p(X), L).      (Y stays unbound: every copy gets a variable of its own)
   f(X) :- once(p(X)).
   n(X) :- p(X), X \= a.
   c(X) :- G = p, call(G, X). *)
Definition mscript : list (str * nat * list clause) :=
  [ (m_ "u", 1, [ ([TVar 0], [(m_ "findall", [TFun (m_ "s") [TVar 1; TVar 2]; TFun (m_ "p") [TVar 1]; TVar 0])]) ]);
    (m_ "f", 1, [ ([TVar 0], [(m_ "once", [TFun (m_ "p") [TVar 0]])]) ]);
    (m_ "n", 1, [ ([TVar 0], [(m_ "p", [TVar 0]); ([92%N; 61%N], [TVar 0; mA "a"])]) ]);
    (m_ "c", 1, [ ([TVar 0], [(m_ "=", [TVar 1; mA "p"]); (m_ "call", [TVar 1; TVar 0])]) ]) ].
Definition msched : list (nat * op) :=
  [ (0, OAssert true (m_ "p") [mA "a"]); (1, OAssert true (m_ "p") [mA "c"]); (0, OAssert true (m_ "p") [mA "b"]);
    (0, OLoad true mscript); (1, OLoad true mscript);
    (0, OStart 0 (m_ "c") [TVar 0]); (1, OStart 0 (m_ "n") [TVar 0]);
    (0, ONext 0); (1, ONext 0);
    (0, OStart 1 (m_ "u") [TVar 1]); (0, ONext 1); (1, OStart 1 (m_ "u") [TVar 1]); (1, ONext 1);
    (0, OStart 2 (m_ "f") [TVar 2]); (0, ONext 2); (0, ONext 2); (0, ONext 0); (1, ONext 0); (0, ONext 0);
    (0, OStart 3 (m_ "n") [TVar 3]); (0, ODrain 3); (0, OAtom (m_ "=")) ].

Definition mans (t : term) : obs := otag "ans" [term_obs t].
Definition mlist (l : list term) : term := World.mk_list l.
Definition mS (a : string) (v : nat) : term := TFun (m_ "s") [mA a; TVar v].

(* engine 0: c(X) = a (call(p, X)), u(L) = [s(a,_), s(b,_)] with two different new variables, f(X) = a and no more (once),
   c(X) = b, done, n(X) = [b] (X \= a), and '=' has been interned by the \= (fourth atom of this engine);
   engine 1: n(X) = c, u(L) = [s(c,_)], done - and each of them is what the engine observes ALONE (erun) *)
Lemma ex_meta_world :
  proj 0 (snd (wrun 200 (init_world 2) msched))
  = [otag "ok" []; otag "ok" []; otag "ok" []; otag "started" []; mans (mA "a"); otag "started" [];
     mans (mlist [mS "a" 36; mS "b" 50]); otag "started" []; mans (mA "a"); otag "done" []; mans (mA "b"); otag "done" [];
     otag "started" []; otag "all" [OL [OL [term_obs (mA "b")]]; OL []]; otag "atom" [OL [onat 3]]]
  /\ proj 1 (snd (wrun 200 (init_world 2) msched))
  = [otag "ok" []; otag "ok" []; otag "started" []; mans (mA "c"); otag "started" []; mans (mlist [mS "c" 37]); otag "done" []]
  /\ proj 0 (snd (wrun 200 (init_world 2) msched)) = snd (erun 2 0 200 (map snd (only 0 msched)) init_engine [])
  /\ proj 1 (snd (wrun 200 (init_world 2) msched)) = snd (erun 2 1 200 (map snd (only 1 msched)) init_engine [])
  /\ length (heap (fst (wrun 200 (init_world 2) (firstn 13 msched)))) = 10.
Proof.
  split; [vm_compute; reflexivity|]. split; [vm_compute; reflexivity|].
  split; [apply interleave_alone_init; lia|]. split; [apply interleave_alone_init; lia|].
  vm_compute. reflexivity.
Qed.

(* the list built by findall is the list of the one-engine semantics (Sem/Machine.v: mk_list = YP.makelist) *)
Lemma mk_list_machine l : World.mk_list l = Machine.mk_list l.
Proof. induction l as [|x l IH]; [reflexivity|]. cbn [World.mk_list Machine.mk_list]. rewrite IH. reflexivity. Qed.
