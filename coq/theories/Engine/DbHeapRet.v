(* C13 across TIME: answers that outlive the use of the fact that produced them.

   The heap machine of DbHeap.v is extended by
     - findall/3 (engine.py YP.findall: run the goal on the stored facts to exhaustion, collect
       a copy of the template (new variables) per answer, unify the bag with the list of the results and stay suspended
       at that unification), the construct through which compiled code keeps answers of a use of a
       fact after that use has ended;
     - the list K of RETAINED ANSWERS: every answer the machine ever handed out (the arguments of a goal
       at each of its answers, every row of a read), as the terms they were at that moment - what a
       Python caller holds who kept `X.get_value()` of an answer; RKept renders all of them under the
       bindings of the moment.

   Theorems (all histories): every retained answer, and its value under the bindings of any later
   moment, mentions only cells that exist at that moment and no cell owned by a stored fact; the copy
   that the NEXT use of any stored fact unifies with consists of cells that do not exist yet.  Hence a
   later use of a fact shares no variable with any answer of an earlier use, with any binding of the
   heap (a findall result), or with the value of any program variable: "fresh at every use" over time. *)
From Coq Require Import String.
From Coq Require Import List Arith Bool Lia ZArith.
Import ListNotations.
From YP Require Import Base.Str Term.Term Term.Fast Term.Show Unify.Unify Engine.Frame Engine.Db Engine.DbFacts Engine.DbFactsThms
  Engine.DbHeap Engine.DbHeapThms Engine.RunDb.
Set Implicit Arguments.

Inductive rop :=
| RBase (o : hop)
| RKept                                                              (* look at all retained answers *)
| RFindall (tmpl : term) (name : str) (args : list term) (bag : term). (* findall(tmpl, name(args), bag), suspended *)

(* makelist *)
Definition mk_list (l : list term) : term := fold_right (fun x r => TFun (d "."%string) [x; r]) (TAtom (d "[]"%string)) l.

Section Ret.
  Variable fuel : nat.

  (* [copy_term(template, {}) for r in q] over the snapshot of the facts: each collected instance is a COPY with new
     cells (engine.py YP.findall copies the template per answer; copy_args is the model of copy_term, DbFacts.v) *)
  Fixpoint hall_t (s : store) (n : nat) (tmpl : term) (pat : list term) (l : list fact) : option (list term * nat) :=
    match l with
    | [] => Some ([], n)
    | f :: r =>
        match answer_match fuel s n pat (fargs f) with
        | (UOk s', n') =>
            let '(cs, n1) := copy_args s' [tmpl] n' in
            match hall_t s n1 tmpl pat r with Some (x, n2) => Some (cs ++ x, n2) | None => None end
        | (UFail, n') => hall_t s n' tmpl pat r
        | _ => None
        end
    end.

  Definition rstep (h : hst) (o : rop) : option (hst * hout) :=
    match o with
    | RBase b => hstep fuel h b
    | RKept => Some (h, HOk)
    | RFindall tmpl name args bag =>
        match hall_t (hs h) (hn h) tmpl args (hdb h (name, length args)) with
        | None => None
        | Some (rs, n') =>
            match unify fuel (hs h) bag (mk_list rs) with
            | UOk s' => Some (mkh s' n' (hdb h) (hnext h) (FUnify (length (hs h)) :: hstk h), HOk)
            | UFail => Some (mkh (hs h) n' (hdb h) (hnext h) (hstk h), HFail)
            | _ => None
            end
        end
    end.

  (* the answers a step hands out *)
  Definition answers_of (x : hout) : list (list term) :=
    match x with HAns a => [a] | HAll l => l | _ => [] end.

  Fixpoint rrun (h : hst) (ops : list rop) : option (hst * list hout) :=
    match ops with
    | [] => Some (h, [])
    | o :: r =>
        match rstep h o with
        | None => None
        | Some (h1, x) => match rrun h1 r with None => None | Some (h2, xs) => Some (h2, x :: xs) end
        end
    end.

  Definition kept (outs : list hout) : list (list term) := flat_map answers_of outs.

  (* executable: observations step by step; RKept prints every retained answer under the current bindings *)
  Fixpoint rrun_obs (h : hst) (K : list (list term)) (ops : list rop) : list obs :=
    match ops with
    | [] => []
    | o :: r =>
        match rstep h o with
        | None => [otag "stuck"%string []]
        | Some (h1, x) =>
            let K1 := K ++ answers_of x in
            match o with
            | RKept => otag "kept"%string [OL (map (fun a => args_obs (map (den_fast (hs h1)) a)) K1)]
            | _ => hout_obs x
            end :: rrun_obs h1 K1 r
        end
    end.

  Lemma answer_match_mono s n pat args r n' : answer_match fuel s n pat args = (r, n') -> n <= n'.
  Proof.
    unfold answer_match. destruct (copy_args s args n) as [cs n2] eqn:Cp. intros H. injection H as _ <-.
    destruct (copy_cells Cp). assumption.
  Qed.

  Lemma hscan_mono pat : forall l s n r n', hscan fuel s n pat l = Some (r, n') -> n <= n'.
  Proof.
    induction l as [|f l IH]; intros s n r n' H; cbn [hscan] in H.
    - injection H as _ <-. auto.
    - destruct (answer_match fuel s n pat (fargs f)) as [u n1] eqn:M. pose proof M as L; apply answer_match_mono in L.
      destruct u; try discriminate.
      + injection H as _ <-. exact L.
      + apply IH in H. lia.
  Qed.

  Lemma hall_mono pat : forall l s n x n', hall fuel s n pat l = Some (x, n') -> n <= n'.
  Proof.
    induction l as [|f l IH]; intros s n x n' H; cbn [hall] in H.
    - injection H as _ <-. auto.
    - destruct (answer_match fuel s n pat (fargs f)) as [u n1] eqn:M. pose proof M as L; apply answer_match_mono in L.
      destruct u; try discriminate.
      + destruct (hall fuel s n1 pat l) as [[y n2]|] eqn:E; [|discriminate]. injection H as _ <-. apply IH in E. lia.
      + apply IH in H. lia.
  Qed.

  Lemma hall_t_mono tmpl pat : forall l s n x n', hall_t s n tmpl pat l = Some (x, n') -> n <= n'.
  Proof.
    induction l as [|f l IH]; intros s n x n' H; cbn [hall_t] in H.
    - injection H as _ <-. auto.
    - destruct (answer_match fuel s n pat (fargs f)) as [u n1] eqn:M. pose proof M as L; apply answer_match_mono in L.
      destruct u as [s1| | |]; try discriminate.
      + destruct (copy_args s1 [tmpl] n1) as [cs n1c] eqn:Cp. destruct (copy_cells Cp) as [Lc _].
        destruct (hall_t s n1c tmpl pat l) as [[y n2]|] eqn:E; [|discriminate]. injection H as _ <-. apply IH in E. lia.
      + apply IH in H. lia.
  Qed.

  Lemma hall_out F pat : forall l s n x n',
    good (Pc n F) s -> (forall w, F w = true -> w < n) -> lin (Pc n F) pat -> Forall (fact_cells F) l ->
    hall fuel s n pat l = Some (x, n') -> Forall (lin (Pc n' F)) x.
  Proof. intros l s n x n' G R Lp Fl H. exact (proj2 (@hall_inv fuel F pat l s n x n' G R Lp Fl H)). Qed.

  Lemma hall_t_out F tmpl pat : forall l s n x n',
    good (Pc n F) s -> (forall w, F w = true -> w < n) -> lin (Pc n F) pat -> tin (Pc n F) tmpl -> Forall (fact_cells F) l ->
    hall_t s n tmpl pat l = Some (x, n') -> lin (Pc n' F) x.
  Proof.
    induction l as [|f l IH]; intros s n x n' G R Lp Lt Fl H; cbn [hall_t] in H.
    - injection H as <- <-. constructor.
    - inversion Fl as [|? ? Ff Fl']; subst.
      destruct (answer_match fuel s n pat (fargs f)) as [u n1] eqn:M.
      destruct (@match_inv fuel F s n pat f u n1 G R Lp Ff M) as [L _].
      destruct (ctx_grow L G R Lp) as [G1 [R1 Lp1]].
      destruct u as [s1| | |]; try discriminate.
      + destruct (copy_args s1 [tmpl] n1) as [cs n1c] eqn:Cp.
        destruct (@copy_lin_new F s1 n1 [tmpl] cs n1c R1 Cp) as [Lc Lcs].
        destruct (ctx_grow Lc G1 R1 Lp1) as [Gc [Rc Lpc]].
        assert (Ltc: tin (Pc n1c F) tmpl) by (apply (tin_grow (Nat.le_trans _ _ _ L Lc) Lt)).
        destruct (hall_t s n1c tmpl pat l) as [[y n2]|] eqn:E; [|discriminate]. injection H as <- <-.
        apply Forall_app. split; [|apply (IH _ _ _ _ Gc Rc Lpc Ltc Fl' E)].
        apply (lin_grow (hall_t_mono _ _ _ _ _ E) Lcs).
      + apply (IH _ _ _ _ G1 R1 Lp1 (tin_grow L Lt) Fl' H).
  Qed.

  Lemma mk_list_tin P l : lin P l -> tin P (mk_list l).
  Proof.
    induction l as [|x l IH]; intros H; simpl.
    - apply tin_atom.
    - inversion H; subst. apply tin_fun. constructor; [assumption|]. constructor; [auto|constructor].
  Qed.

  Definition rop_ok (p : nat) (o : rop) : Prop :=
    match o with
    | RBase b => op_ok p b
    | RKept => True
    | RFindall tmpl _ args bag => tprog p tmpl /\ Forall (tprog p) args /\ tprog p bag
    end.

  (* one step keeps the invariant of DbHeapThms, and the answers it hands out are over existing cells
     that no stored fact owns *)
  Lemma rstep_inv p F h o h' x : inv p F h -> rop_ok p o -> rstep h o = Some (h', x) ->
    exists F', inv p F' h' /\ (forall w, F w = true -> F' w = true) /\ (forall w, F' w = true -> F w = true \/ hn h <= w) /\
               hn h <= hn h' /\ Forall (lin (Pc (hn h') F')) (answers_of x).
  Proof.
    intros I OK H. destruct o as [b| |tmpl name args bag]; cbn [rstep] in H.
    - exact (@hstep_inv fuel p F h b h' x I OK H).
    - injection H as <- <-. exists F. split; [exact I|]. split; [auto|]. split; [auto|]. split; [auto|]. constructor.
    - (* findall *)
      pose proof I as [A B C D E]. destruct OK as [Ot [Oa Ob]].
      assert (R: forall w, F w = true -> w < hn h) by (intros w Hw; apply C in Hw; lia).
      assert (Rp: forall w, F w = true -> p <= w) by (intros w Hw; apply C in Hw; lia).
      assert (Lp: lin (Pc (hn h) F) args) by (eapply Forall_impl; [|exact Oa]; intros t0; apply (@tprog_Pc p (hn h) F t0 E Rp)).
      assert (Fl: Forall (fact_cells F) (hdb h (name, length args))) by (apply Forall_forall; intros f Hf; apply (B _ f Hf)).
      destruct (hall_t (hs h) (hn h) tmpl args (hdb h (name, length args))) as [[rs n']|] eqn:HA; [|discriminate].
      pose proof (hall_t_mono _ _ _ _ _ HA) as L.
      pose proof (@hall_t_out F tmpl args _ _ _ _ _ A R Lp (@tprog_Pc p (hn h) F tmpl E Rp Ot) Fl HA) as Lr.
      destruct (@unify_frame (Pc n' F) fuel (hs h) bag (mk_list rs) (good_closed (good_grow L A))
                  (tin_grow L (@tprog_Pc p (hn h) F bag E Rp Ob)) (mk_list_tin Lr)) as [_ Po].
      destruct (unify fuel (hs h) bag (mk_list rs)) as [s'| | |]; try discriminate; injection H as <- <-;
        exists F; (split; [|split; [auto|split; [auto|split; [exact L|constructor]]]]).
      + destruct Po as [nw [-> G]].
        apply (inv_set I L); [apply good_app; [exact G|apply (good_grow L A)]|].
        constructor; [exact Logic.I|apply (stack_grow L D)].
      + apply (inv_grow I L).
  Qed.

  (* the retained answers stay over existing cells that no stored fact owns, whatever happens later *)
  Theorem rrun_inv : forall ops p F h h' outs K, inv p F h -> Forall (lin (Pc (hn h) F)) K -> Forall (rop_ok p) ops ->
    rrun h ops = Some (h', outs) ->
    exists F', inv p F' h' /\ (forall w, F w = true -> F' w = true) /\ Forall (lin (Pc (hn h') F')) (K ++ kept outs).
  Proof.
    induction ops as [|o r IH]; intros p F h h' outs K I HK OK H; simpl in H.
    - injection H as <- <-. exists F. unfold kept. simpl. rewrite app_nil_r. auto.
    - inversion OK as [|? ? O1 O2]; subst.
      destruct (rstep h o) as [[h1 x]|] eqn:ES; [|discriminate].
      destruct (rrun h1 r) as [[h2 xs]|] eqn:ER; [|discriminate]. injection H as -> <-.
      destruct (@rstep_inv p F h o h1 x I O1 ES) as [F1 [I1 [M1 [M2 [Mo Ho]]]]].
      assert (HK1: Forall (lin (Pc (hn h1) F1)) (K ++ answers_of x)).
      { apply Forall_app. split; [|exact Ho].
        eapply Forall_impl; [|exact HK]. intros a. apply lin_mono. intros v. apply (@Pc_after (hn h) (hn h1) F F1 v Mo M2). }
      destruct (IH p F1 h1 h' xs _ I1 HK1 O2 ER) as [F2 [I2 [M3 HK2]]]. exists F2. split; [exact I2|]. split; [auto|].
      unfold kept in *. simpl. rewrite app_assoc. exact HK2.
  Qed.

  Lemma outside_answers p F h K w : inv p F h -> Forall (lin (Pc (hn h) F)) K -> Pc (hn h) F w = false ->
    (forall a t, In a K -> In t a -> occurs w t = false /\ occurs w (den (hs h) t) = false) /\
    (forall v u, In (v, u) (hs h) -> v <> w /\ occurs w u = false) /\
    (forall t, tprog p t -> occurs w (den (hs h) t) = false).
  Proof.
    intros [A B C D E] HK NP. destruct (outside_Pc w A NP) as [Xb Xt]. split; [|split; [exact Xb|]].
    - intros a t Ha Ht. apply Xt. rewrite Forall_forall in HK. specialize (HK a Ha).
      unfold lin in HK. rewrite Forall_forall in HK. exact (HK t Ht).
    - intros t Ht. apply Xt. apply (@tprog_Pc p (hn h) F t E); [|exact Ht]. intros w0 Hw0. apply C in Hw0. lia.
  Qed.

  (* C13 over time.  In the state h reached by ANY history (unifications, asserts, goals, findall, LIFO resumption and
     closing, reads), let c be a cell of the copy that the next use of a stored fact f unifies with.  Then c does not
     exist yet (hn h <= c), and therefore c occurs
       - in no answer that was ever handed out, neither as it was then nor in its value under the current bindings,
       - in no binding of the heap (so in no list built by findall and in no value of a program variable).
     Moreover no answer ever handed out mentions a cell of a stored fact: the variables of a fact never escape. *)
  Theorem sequential_uses_fresh : forall p ops h outs,
    Forall (rop_ok p) ops -> rrun (hinit p) ops = Some (h, outs) ->
    forall k f goal, In f (hdb h k) ->
      answer_match fuel (hs h) (hn h) goal (fargs f) =
        (unify_arrays fuel (hs h) goal (fst (copy_args [] (fargs f) (hn h))), snd (copy_args [] (fargs f) (hn h))) /\
      forall c w, In c (fst (copy_args [] (fargs f) (hn h))) -> occurs w c = true ->
        hn h <= w /\
        (forall a t, In a (kept outs) -> In t a -> occurs w t = false /\ occurs w (den (hs h) t) = false) /\
        (forall v u, In (v, u) (hs h) -> v <> w /\ occurs w u = false) /\
        (forall t, tprog p t -> occurs w (den (hs h) t) = false).
  Proof.
    intros p ops h outs OK H k f goal Hf.
    destruct (@rrun_inv ops p _ _ _ _ [] (inv_init p) (Forall_nil _) OK H) as [F [I [_ HK]]]. simpl in HK.
    destruct (@inv_use fuel p F h k f goal I Hf) as [U New]. split; [exact U|].
    intros c w Hc Hw. pose proof (New c w Hc Hw) as Y.
    split; [exact Y|]. apply (outside_answers w I HK (@Pc_new (hn h) F w Y)).
  Qed.

  (* the variables of stored facts never escape into an answer, a findall result or a program variable *)
  Theorem fact_vars_never_escape : forall p ops h outs,
    Forall (rop_ok p) ops -> rrun (hinit p) ops = Some (h, outs) ->
    forall k f u w, In f (hdb h k) -> In u (fargs f) -> occurs w u = true ->
      (forall a t, In a (kept outs) -> In t a -> occurs w t = false /\ occurs w (den (hs h) t) = false) /\
      (forall t, tprog p t -> occurs w (den (hs h) t) = false).
  Proof.
    intros p ops h outs OK H k f u w Hf Hu Hw.
    destruct (@rrun_inv ops p _ _ _ _ [] (inv_init p) (Forall_nil _) OK H) as [F [I [_ HK]]]. simpl in HK.
    assert (Fw: F w = true).
    { pose proof (inv_facts I k f Hf) as B. unfold fact_cells, lin in B. rewrite Forall_forall in B. exact (B u Hu w Hw). }
    destruct (outside_answers w I HK (@Pc_fact (hn h) F w Fw)) as [Xa [_ Xt]]. auto.
  Qed.
End Ret.

(* p = number of program variables (cells 0..p-1) *)
Definition run_heap_ret (fuel : nat) (p : nat) (ops : list rop) : obs := OL (rrun_obs fuel (hinit p) [] ops).

(* what the executable prints is what the theorems speak about: a final RKept prints `kept outs` of the run (after the
   answers K retained before it), each answer under the bindings of the final state *)
Lemma kept_obs_den s K :
  map (fun a => args_obs (map (den_fast s) a)) K = map (fun a => args_obs (map (den s) a)) K.
Proof. apply map_ext. intros a. f_equal. apply map_ext. intros t. apply den_fast_eq. Qed.

Lemma rrun_obs_kept fuel : forall ops h K h' outs, rrun fuel h ops = Some (h', outs) ->
  rrun_obs fuel h K (ops ++ [RKept]) =
  rrun_obs fuel h K ops ++ [otag "kept"%string [OL (map (fun a => args_obs (map (den (hs h')) a)) (K ++ kept outs))]].
Proof.
  induction ops as [|o r IH]; intros h K h' outs H; simpl in H.
  - injection H as <- <-. unfold kept. simpl. rewrite app_nil_r. rewrite kept_obs_den. reflexivity.
  - destruct (rstep fuel h o) as [[h1 x]|] eqn:ES; [|discriminate].
    destruct (rrun fuel h1 r) as [[h2 xs]|] eqn:E; [|discriminate]. injection H as -> <-.
    cbn [app rrun_obs]. rewrite ES. cbn [app]. f_equal.
    rewrite (IH h1 (K ++ answers_of x)%list h' xs E). unfold kept. simpl. rewrite app_assoc. reflexivity.
Qed.
