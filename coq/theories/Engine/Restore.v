(* Restoration theorems for the frame machine of GenMachine.v (property C03), proved
   compositionally over ANY leaf iterator that satisfies the restoring contract, and the
   instance of the contract for the unification generators of UnifyGen.v. *)
From Coq Require Import List Arith Bool Lia.
Import ListNotations.
From YP Require Import Base.Str Term.Term Unify.UnifyGen Engine.GenMachine.
Set Implicit Arguments.

Section Restore.
  Variable L X E P : Type.
  Variable mkleaf : X -> heap -> L.
  Variable lnext : nat -> heap -> L -> option (heap * L * res).
  Variable lclose : heap -> L -> heap.
  Variable prog : P -> code X E P * E.
  Variable gho : E -> nat.

  (* THE RESTORING CONTRACT of a leaf iterator.  LInv h0 l hc: "l was created under the heap h0
     and, with the heap now being hc, is consistent with it". *)
  Variable LInv : heap -> L -> heap -> Prop.
  Hypothesis L_new : forall x h, LInv h (mkleaf x h) h.
  Hypothesis L_next : forall n h0 l hc h' l' r, LInv h0 l hc -> lnext n hc l = Some (h', l', r) ->
      LInv h0 l' h' /\ (r = RStop -> h' = h0).
  Hypothesis L_close : forall h0 l hc, LInv h0 l hc -> lclose hc l = h0.
  Hypothesis L_ext : forall h0 l hc, LInv h0 l hc -> exists nw, hc = nw ++ h0.

  Notation iter := (iter L X E P).
  Notation kont := (kont L X E P).
  Notation code := (code X E P).
  Notation iclose := (iclose lclose).
  Notation unwind := (unwind lclose).
  Notation exec := (exec mkleaf lnext lclose prog gho).
  Notation cont := (cont mkleaf lnext lclose prog gho).
  Notation loop := (loop mkleaf lnext lclose prog gho).
  Notation inext := (inext mkleaf lnext lclose prog gho).
  Notation nexts := (nexts mkleaf lnext lclose prog gho).

  (* the same notion for every iterator and for a frame's stack of open loops: each open
     iterator was created under the heap at which the enclosing one is suspended *)
  Inductive Inv : heap -> iter -> heap -> Prop :=
  | Inv_leaf h0 l hc : LInv h0 l hc -> Inv h0 (ILeaf l) hc
  | Inv_fresh h0 c e : Inv h0 (IFresh c e) h0
  | Inv_done h0 : Inv h0 (IDone) h0
  | Inv_susp h0 k e hc : KInv h0 k hc -> Inv h0 (ISusp k e) hc
  with KInv : heap -> kont -> heap -> Prop :=
  | KInv_nil h0 : KInv h0 (KNil) h0
  | KInv_seq h0 c k hc : KInv h0 k hc -> KInv h0 (KSeq c k) hc
  | KInv_loop h0 k h1 it body hc : KInv h0 k h1 -> Inv h1 it hc -> KInv h0 (KLoop it body k) hc.

  Scheme Inv_mut := Induction for Inv Sort Prop
  with KInv_mut := Induction for KInv Sort Prop.
  Combined Scheme Inv_KInv_ind from Inv_mut, KInv_mut.

  (* close() / drop / an exception passing through: back to the heap of creation *)
  Lemma close_restores_both :
    (forall h0 it hc, Inv h0 it hc -> iclose hc it = h0) /\
    (forall h0 k hc, KInv h0 k hc -> unwind hc k = h0).
  Proof.
    apply Inv_KInv_ind.
    - intros h0 l hc Hl. change (lclose hc l = h0). eapply L_close; eauto.
    - reflexivity.
    - reflexivity.
    - intros h0 k e hc K IH. exact IH.
    - reflexivity.
    - intros h0 c k hc K IH. exact IH.
    - intros h0 k h1 it body hc K IHk I IHi. change (unwind (iclose hc it) k = h0).
      rewrite IHi. exact IHk.
  Qed.
  Definition iclose_restores := proj1 close_restores_both.
  Definition unwind_restores := proj2 close_restores_both.

  (* at every suspension the heap is the heap of creation plus newer bindings on top *)
  Lemma ext_both :
    (forall h0 it hc, Inv h0 it hc -> exists nw, hc = nw ++ h0) /\
    (forall h0 k hc, KInv h0 k hc -> exists nw, hc = nw ++ h0).
  Proof.
    apply Inv_KInv_ind; intros; try (exists []; reflexivity); auto.
    - eapply L_ext; eauto.
    - destruct H as [n1 E1]. destruct H0 as [n2 E2]. exists (n2 ++ n1). subst. apply app_assoc.
  Qed.

  Lemma pop_loop_inv h0 k hc it k' : KInv h0 k hc -> pop_loop k = Some (it, k') ->
    exists h1, KInv h0 k' h1 /\ Inv h1 it hc.
  Proof.
    induction 1 as [h0|h0 c k hc K IH|h0 k h1 it0 body hc K _ I]; cbn [pop_loop]; intros H.
    - discriminate.
    - auto.
    - injection H as <- <-. eauto.
  Qed.
  Lemma pop_loop_none h0 k hc : KInv h0 k hc -> pop_loop k = None -> hc = h0.
  Proof.
    induction 1 as [h0|h0 c k hc K IH|h0 k h1 it0 body hc K _ I]; cbn [pop_loop]; intros H; auto. discriminate.
  Qed.

  (* outcome of running a frame: suspended consistently, or finished/raised with the heap of creation *)
  Definition is_frame (it:iter) : Prop := match it with ILeaf _ => False | _ => True end.
  Definition post_frame (h0:heap) (r:heap * iter * res) : Prop :=
    let '(h', it', rr) := r in
    Inv h0 it' h' /\ is_frame it' /\ (rr <> RYield -> h' = h0 /\ it' = IDone).
  (* outcome of __next__ on any iterator *)
  Definition post_next (h0:heap) (r:heap * iter * res) : Prop :=
    let '(h', it', rr) := r in
    Inv h0 it' h' /\ (rr = RStop -> h' = h0).

  Lemma post_frame_next h0 r : post_frame h0 r -> post_next h0 r.
  Proof.
    destruct r as [[h' it'] rr]. intros [A [_ B]]. split; auto. intros ->. apply B. discriminate.
  Qed.

  Definition step_ok (n:nat) : Prop :=
    (forall d h c k e h0 r, KInv h0 k h -> exec n d h c k e = Some r -> post_frame h0 r) /\
    (forall d h k e h0 r, KInv h0 k h -> cont n d h k e = Some r -> post_frame h0 r) /\
    (forall d h it body k e h0 h1 r, KInv h0 k h1 -> Inv h1 it h ->
        loop n d h it body k e = Some r -> post_frame h0 r) /\
    (forall d h it h0 r, Inv h0 it h -> inext n d h it = Some r -> post_next h0 r) /\
    (forall d h it h0 r, Inv h0 it h -> is_frame it -> d <> 0 ->
        inext n d h it = Some r -> post_frame h0 r).

  Lemma done_post h0 rr : post_frame h0 (h0, IDone, rr).
  Proof. split; [constructor|split; [exact I|auto]]. Qed.

  Lemma machine_step n : step_ok n.
  Proof.
    induction n as [|n [IHe [IHc [IHl [IHn IHf]]]]].
    { repeat split; intros; discriminate. }
    assert (He: forall d h c k e h0 r, KInv h0 k h -> exec (S n) d h c k e = Some r -> post_frame h0 r).
    { intros d h c k e h0 r K H. rewrite exec_S in H. destruct c as [| |a b|ex body| | | |f|c a].
      - exact (IHc _ _ _ _ _ _ K H).
      - injection H as <-. split; [constructor; exact K|split; [exact I|intros N; congruence]].
      - exact (IHe _ _ _ _ _ _ _ (KInv_seq b K) H).
      - eapply IHl; [exact K| |exact H]. unfold mkiter. destruct (ex (knxt gho k e) e h); constructor. apply L_new.
      - destruct (pop_loop k) as [[it k']|] eqn:Pk.
        + destruct (pop_loop_inv K Pk) as [h1 [K1 I1]].
          rewrite (iclose_restores I1) in H. exact (IHc _ _ _ _ _ _ K1 H).
        + injection H as <-. rewrite (pop_loop_none K Pk). apply done_post.
      - injection H as <-. rewrite (unwind_restores K). apply done_post.
      - injection H as <-. rewrite (unwind_restores K). apply done_post.
      - exact (IHc _ _ _ _ _ _ K H).
      - destruct (c e); [exact (IHe _ _ _ _ _ _ _ K H)|exact (IHc _ _ _ _ _ _ K H)]. }
    assert (Hc: forall d h k e h0 r, KInv h0 k h -> cont (S n) d h k e = Some r -> post_frame h0 r).
    { intros d h k e h0 r K H. rewrite cont_S in H. inversion K as [|? ? ? ? K'|? ? ? ? ? ? K' I']; subst.
      - injection H as <-. apply done_post.
      - exact (IHe _ _ _ _ _ _ _ K' H).
      - exact (IHl _ _ _ _ _ _ _ _ _ K' I' H). }
    assert (Hl: forall d h it body k e h0 h1 r, KInv h0 k h1 -> Inv h1 it h ->
        loop (S n) d h it body k e = Some r -> post_frame h0 r).
    { intros d h it body k e h0 h1 r K I H. rewrite loop_S in H.
      destruct (inext n d h it) as [[[h' it'] rr]|] eqn:N; [|discriminate].
      destruct (IHn _ _ _ _ _ I N) as [I' S'].
      destruct rr.
      - exact (IHe _ _ _ _ _ _ _ (KInv_loop body K I') H).
      - rewrite (S' eq_refl) in H. exact (IHc _ _ _ _ _ _ K H).
      - injection H as <-. rewrite (iclose_restores I'), (unwind_restores K). apply done_post. }
    assert (Hf: forall d h it h0 r, Inv h0 it h -> is_frame it -> d <> 0 ->
        inext (S n) d h it = Some r -> post_frame h0 r).
    { intros d h it h0 r I NL ND H. rewrite inext_S in H. destruct d as [|d']; [congruence|].
      inversion I as [| | |? ? ? ? K']; subst.
      - contradiction.
      - exact (IHe _ _ _ _ _ _ _ (KInv_nil _) H).
      - injection H as <-. apply done_post.
      - exact (IHc _ _ _ _ _ _ K' H). }
    (* a frame at recursion limit 0 raises without being entered; IDone does not look at the limit *)
    assert (Hn0: forall d h it h0 r, Inv h0 it h -> is_frame it -> inext (S n) d h it = Some r -> post_next h0 r).
    { intros d h it h0 r I NL H. destruct d as [|d'].
      - rewrite inext_S in H. destruct it as [l|c e|k e|].
        + contradiction.
        + injection H as <-. split; [exact I|discriminate].
        + injection H as <-. split; [exact I|discriminate].
        + injection H as <-. split; [exact I|]. intros _. inversion I. reflexivity.
      - apply post_frame_next. exact (Hf (S d') _ _ _ r I NL (Nat.neq_succ_0 d') H). }
    repeat split; auto.
    intros d h it h0 r I H. destruct it as [l|c e|k e|].
    - inversion I as [? ? ? Il| | |]; subst. rewrite inext_S in H.
      destruct (lnext n h l) as [[[h' l'] rr]|] eqn:N; [|discriminate]. injection H as <-.
      destruct (L_next Il N) as [A B]. split; [constructor; exact A|exact B].
    - exact (Hn0 d h _ h0 r I Logic.I H).
    - exact (Hn0 d h _ h0 r I Logic.I H).
    - exact (Hn0 d h _ h0 r I Logic.I H).
  Qed.

  Lemma frame_step n d h0 it h r :
    Inv h0 it h -> is_frame it -> d <> 0 -> inext n d h it = Some r -> post_frame h0 r.
  Proof. apply (machine_step n). Qed.

  (* one __next__ of any iterator (a query, a call, a builtin, a user predicate, a unification),
     under any fuel and recursion limit for which it returns:
     - it stays consistent with the heap h0 of its creation (so that closing or dropping it, now
       or later, gives back h0 - iclose_restores);
     - if it is exhausted, the heap is h0 again;
     - if it raised (a `raise` in a user predicate at any step, at any depth; a leaf that raises;
       the recursion limit) and is then dropped, the heap is h0 again. *)
  Theorem frame_next_restores n d h0 it h h' it' r :
    Inv h0 it h -> inext n d h it = Some (h', it', r) ->
    Inv h0 it' h' /\ (r = RStop -> h' = h0) /\ iclose h' it' = h0.
  Proof.
    intros I H. destruct (machine_step n) as [_ [_ [_ [A _]]]].
    destruct (A _ _ _ _ _ I H) as [I' S']. repeat split; auto. apply (iclose_restores I').
  Qed.

  (* the consumer throws an exception into a suspended (or not yet started) generator object:
     every open loop is unwound on the way out, the heap is h0 when the exception comes back *)
  Theorem consumer_throw_restores h0 it hc : Inv h0 it hc -> ithrow lclose hc it = (h0, IDone, RRaise).
  Proof. intros I. unfold ithrow. rewrite (iclose_restores I). reflexivity. Qed.

  (* ANY consumer behaviour: after an arbitrary sequence of next / close / throw operations the
     generator object is still consistent with the heap h0 of its creation, so closing or dropping it
     gives back h0; directly after a close or throw the heap IS h0 *)
  Theorem fdrive_restores n d : forall ops h0 it h hf itf rs,
    Inv h0 it h -> fdrive mkleaf lnext lclose prog gho n d h it ops = Some (hf, itf, rs) ->
    Inv h0 itf hf /\ iclose hf itf = h0 /\
    (match rev ops with (FClose | FThrow) :: _ => hf = h0 | _ => True end).
  Proof.
    induction ops as [|o r IH]; intros h0 it h hf itf rs I H; cbn [fdrive] in H.
    - injection H as <- <- <-. repeat split; auto. apply (iclose_restores I).
    - (* the last operation of o :: r is that of r, or o itself when r is empty *)
      assert (T: forall x, match rev r with (FClose | FThrow) :: _ => x = h0 | _ => True end ->
                 (r = [] -> match o with FNext => True | _ => x = h0 end) ->
                 match rev (o :: r) with (FClose | FThrow) :: _ => x = h0 | _ => True end).
      { intros x A B. cbn [rev]. destruct (rev r) as [|y ys] eqn:Er; [|exact A].
        assert (r = []) by (destruct r; auto; cbn in Er; destruct (rev r); discriminate).
        destruct o; auto; apply B; auto. }
      assert (C: forall tag, match fdrive mkleaf lnext lclose prog gho n d (iclose h it) IDone r with
                             | None => None | Some (hf, itf, rs) => Some (hf, itf, tag :: rs) end = Some (hf, itf, rs) ->
                 Inv h0 itf hf /\ iclose hf itf = h0 /\ (r = [] -> hf = h0) /\
                 match rev r with (FClose | FThrow) :: _ => hf = h0 | _ => True end).
      { intros tag H'. rewrite (iclose_restores I) in H'.
        destruct (fdrive mkleaf lnext lclose prog gho n d h0 IDone r) as [[[hf' itf'] rs']|] eqn:D; [|discriminate].
        injection H' as <- <- <-. destruct (IH _ _ _ _ _ _ (Inv_done h0) D) as [A [B B']]. repeat split; auto.
        intros ->. cbn [fdrive] in D. injection D as <- _ _. reflexivity. }
      destruct o.
      + destruct (inext n d h it) as [[[h' it'] rr]|] eqn:N; [|discriminate].
        destruct (fdrive mkleaf lnext lclose prog gho n d h' it' r) as [[[hf' itf'] rs']|] eqn:D; [|discriminate].
        injection H as <- <- <-. destruct (frame_next_restores _ _ I N) as [I' _].
        destruct (IH _ _ _ _ _ _ I' D) as [A [B B']]. repeat split; auto. apply T; auto.
      + destruct (C _ H) as [A [B [B0 B']]]. repeat split; auto. apply T; auto.
      + destruct (C _ H) as [A [B [B0 B']]]. repeat split; auto. apply T; auto.
  Qed.

  (* a frame (not a leaf) that is entered (recursion limit not yet reached) and does not yield
     has ALREADY restored the heap when it returns or when the exception leaves it: every
     enclosing loop was unwound on the way out *)
  Theorem throw_restores n d h0 it h h' it' r :
    Inv h0 it h -> is_frame it -> d <> 0 ->
    inext n d h it = Some (h', it', r) -> r <> RYield -> h' = h0 /\ it' = IDone.
  Proof.
    intros I NL ND H NY. destruct (frame_step _ I NL ND H) as [_ [_ B]]. auto.
  Qed.

  (* a consumer that takes up to k answers and then stops in any way *)
  Theorem frame_restores n d : forall k h0 it h hf itf ys r,
    Inv h0 it h -> nexts n d k h it = Some (hf, itf, ys, r) ->
    Inv h0 itf hf
    /\ iclose hf itf = h0                                   (* close(), del, consumer raises and drops *)
    /\ (r = RStop -> hf = h0)                               (* run to exhaustion *)
    /\ Forall (fun y => exists nw, y = nw ++ h0) ys          (* at every answer: h0 untouched underneath *)
    /\ length ys <= k.
  Proof.
    induction k as [|k IH]; intros h0 it h hf itf ys r I H; cbn [GenMachine.nexts] in H.
    - injection H as <- <- <- <-. repeat split; auto. + apply (iclose_restores I). + discriminate.
    - destruct (inext n d h it) as [[[h' it'] rr]|] eqn:N; [|discriminate].
      destruct (frame_next_restores _ _ I N) as [I' [S' C']].
      destruct rr.
      + destruct (nexts n d k h' it') as [[[[hf' itf'] ys'] r']|] eqn:D; [|discriminate].
        injection H as <- <- <- <-. destruct (IH _ _ _ _ _ _ _ I' D) as [A [B [C [F Ln]]]].
        repeat split; auto.
        * constructor; auto. exact (proj1 ext_both _ _ _ I').
        * simpl. lia.
      + injection H as <- <- <- <-. repeat split; auto; simpl; lia.
      + injection H as <- <- <- <-. repeat split; auto; try discriminate; simpl; lia.
  Qed.

  Lemma nexts_frame n d : d <> 0 -> forall k h0 it h hf itf ys r,
    Inv h0 it h -> is_frame it -> nexts n d k h it = Some (hf, itf, ys, r) -> r <> RYield ->
    hf = h0 /\ itf = IDone.
  Proof.
    intros ND. induction k as [|k IH]; intros h0 it h hf itf ys r I F H NY; cbn [GenMachine.nexts] in H.
    - injection H as <- <- <- <-. congruence.
    - destruct (inext n d h it) as [[[h' it'] rr]|] eqn:N; [|discriminate].
      destruct (frame_step _ I F ND N) as [I' [F' B]].
      destruct rr.
      + destruct (nexts n d k h' it') as [[[[hf' itf'] ys'] r']|] eqn:D; [|discriminate].
        injection H as <- <- <- <-. exact (IH _ _ _ _ _ _ _ I' F' D NY).
      + injection H as <- <- <- <-. apply B. discriminate.
      + injection H as <- <- <- <-. apply B. discriminate.
  Qed.

  (* a query = a fresh generator object of a call, started under h: however it ends - exhausted,
     raised (anywhere below it), or abandoned after k answers and closed/dropped - the heap is h *)
  Corollary query_restores n d k h c e hf itf ys r :
    nexts n d k h (IFresh c e) = Some (hf, itf, ys, r) ->
    iclose hf itf = h /\ (r <> RYield -> hf = h)
    /\ Forall (fun y => exists nw, y = nw ++ h) ys.
  Proof.
    intros H. destruct (frame_restores _ _ _ (Inv_fresh h c e) H) as [I' [C [S' [F _]]]].
    repeat split; auto. intros NY. destruct d as [|d'].
    - (* recursion limit reached before the frame is entered: nothing happened *)
      destruct k as [|k]; cbn [GenMachine.nexts] in H; [injection H as _ _ _ <-; congruence|].
      destruct n as [|n']; [discriminate|]. rewrite inext_S in H. injection H as <- _ _ _. reflexivity.
    - eapply nexts_frame; [apply Nat.neq_succ_0|apply Inv_fresh|exact Logic.I|exact H|exact NY].
  Qed.

  Corollary query_restores_throw n d k h c e hf itf ys r :
    nexts n d k h (IFresh c e) = Some (hf, itf, ys, r) ->
    iclose hf itf = h /\ ithrow lclose hf itf = (h, IDone, RRaise) /\ (r <> RYield -> hf = h)
    /\ Forall (fun y => exists nw, y = nw ++ h) ys.
  Proof.
    intros H. destruct (query_restores _ _ _ _ _ _ H) as [A [B C]]. repeat split; auto.
    unfold ithrow. rewrite A. reflexivity.
  Qed.

  (* re-running the same query on the heap it left gives the same answers again
     (the machine is a function of heap and generator object, and the heap is restored) *)
  Corollary rerun_same n d k h c e hf itf ys r :
    r <> RYield ->
    nexts n d k h (IFresh c e) = Some (hf, itf, ys, r) ->
    nexts n d k hf (IFresh c e) = Some (hf, itf, ys, r).
  Proof.
    intros NY H. destruct (query_restores _ _ _ _ _ _ H) as [_ [A _]].
    pose proof (A NY) as Eh. subst hf. exact H.
  Qed.
End Restore.

(* The unification generators of UnifyGen.v satisfy the contract. *)
Definition ulnext (n:nat) (h:heap) (g:gen) : option (heap * gen * res) :=
  match next n h g with
  | None => None
  | Some (h', g', y) => Some (h', g', if y then RYield else RStop)
  end.
Definition ulclose (h:heap) (g:gen) : heap := fst (close h g).
Definition umkleaf (x:term * term) (h:heap) : gen := mk_unify h (fst x) (snd x).

Lemma U_new x h : inv h (umkleaf x h) h.
Proof. left. split; [apply mk_unify_fresh|reflexivity]. Qed.

Lemma U_next n h0 l hc h' l' r : inv h0 l hc -> ulnext n hc l = Some (h', l', r) ->
  inv h0 l' h' /\ (r = RStop -> h' = h0).
Proof.
  unfold ulnext. intros J H. destruct (next n hc l) as [[[h1 g1] y]|] eqn:N; [|discriminate].
  injection H as <- <- <-. destruct J as [[F Eh]|Ho].
  - subst hc. pose proof (@next_fresh n h0 l _ F N) as [Ho Hn]. split; [right; exact Ho|].
    destruct y; [discriminate|]. intros _. apply Hn. reflexivity.
  - destruct (@held_over_next n _ _ _ _ _ _ Ho N) as [Y [Eh Ho']]. subst. split; [right; exact Ho'|auto].
Qed.

Lemma U_close h0 l hc : inv h0 l hc -> ulclose hc l = h0.
Proof. intros J. apply (close_state J). Qed.

Lemma U_ext h0 l hc : inv h0 l hc -> exists nw, hc = nw ++ h0.
Proof.
  intros [[F Eh]|[Q [nw [Eh _]]]]; [exists []; subst; reflexivity|exists nw; exact Eh].
Qed.

(* The machine whose leaves are unification generators: every query of every program, under
   every heap, fuel, recursion limit and abandonment point k. *)
Section UnifyMachine.
  Variable E P : Type.
  Variable prog : P -> code (term * term) E P * E.
  Variable gho : E -> nat.
  Notation unexts := (nexts umkleaf ulnext ulclose prog gho).
  Notation uinext := (inext umkleaf ulnext ulclose prog gho).
  Notation uiclose := (iclose (L:=gen) (X:=term*term) (E:=E) (P:=P) ulclose).

  Theorem query_restores_unify n d k h c e hf itf ys r :
    unexts n d k h (IFresh c e) = Some (hf, itf, ys, r) ->
    uiclose hf itf = h /\ (r <> RYield -> hf = h)
    /\ Forall (fun y => exists nw, y = nw ++ h) ys.
  Proof. apply (@query_restores gen _ E P umkleaf ulnext ulclose prog gho inv U_new U_next U_close U_ext). Qed.

  Theorem rerun_same_unify n d k h c e hf itf ys r :
    r <> RYield ->
    unexts n d k h (IFresh c e) = Some (hf, itf, ys, r) ->
    unexts n d k hf (IFresh c e) = Some (hf, itf, ys, r).
  Proof. apply (@rerun_same gen _ E P umkleaf ulnext ulclose prog gho inv U_new U_next U_close U_ext). Qed.

  Notation UInv := (@Inv gen (term*term) E P inv).

  Theorem frame_next_restores_unify n d h0 it h h' it' r :
    UInv h0 it h -> uinext n d h it = Some (h', it', r) ->
    UInv h0 it' h' /\ (r = RStop -> h' = h0) /\ uiclose h' it' = h0.
  Proof. apply (@frame_next_restores gen _ E P umkleaf ulnext ulclose prog gho inv U_new U_next U_close). Qed.

  Theorem throw_restores_unify n d h0 it h h' it' r :
    UInv h0 it h -> is_frame it -> d <> 0 ->
    uinext n d h it = Some (h', it', r) -> r <> RYield -> h' = h0 /\ it' = IDone.
  Proof. apply (@throw_restores gen _ E P umkleaf ulnext ulclose prog gho inv U_new U_next U_close). Qed.
End UnifyMachine.
