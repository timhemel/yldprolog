(* C03: the ORDER in which suspended generator objects are finalised does not matter.

   In CPython a generator object that sits in a LOCAL of a frame an exception leaves (findall: `q`; unify_arrays:
   `iterators`) is not finalised while the exception travels: the traceback keeps the frame, the frame keeps the local.
   It is finalised when the exception object dies - AFTER the enclosing generators have been closed by the unwinding.
   The frame machine (GenMachine.exec, CRaise: `unwind`) closes it first, innermost first.

   For the engine instance (leaves = the unification generators of UnifyGen.v) closing a generator object removes exactly
   the cells that its leaves own (`icells`), wherever they are in the heap and whatever else is bound:
       iclose h it = rm (icells it) h            unwind h k = rm (kcells k) h
   Hence closing commutes: the heap after "outer continuation first, the suspended generator later" is the heap after
   "the suspended generator first" - which the restoration theorems (Restore.v, IRMachine.v, FindallRaise.v) are about. *)
From Coq Require Import List Arith Bool Lia.
Import ListNotations.
From YP Require Import Base.Str Term.Term Unify.UnifyGen Engine.GenMachine Engine.Restore Engine.IRMachine.

Notation miter := (iter leaf lx fr callp).
Notation mkont := (kont leaf lx fr callp).

Fixpoint icells (it : miter) : list nat :=
  match it with
  | ILeaf (LGen g) => cells g
  | ISusp k _ => kcells k
  | _ => []
  end
with kcells (k : mkont) : list nat :=
  match k with
  | KNil => []
  | KSeq _ k' => kcells k'
  | KLoop it _ k' => icells it ++ kcells k'
  end.

Fixpoint iclose_rm (it : miter) : forall h, iclose lclose h it = rm (icells it) h
with unwind_rm (k : mkont) : forall h, unwind lclose h k = rm (kcells k) h.
Proof.
  - destruct it as [l|c e|k e|]; intros h; rewrite iclose_eq; cbn [icells].
    + destruct l as [g|]; cbn [lclose]; [apply close_rm|symmetry; apply rm_nil].
    + symmetry; apply rm_nil.
    + apply unwind_rm.
    + symmetry; apply rm_nil.
  - destruct k as [|c k'|it body k']; intros h; rewrite unwind_eq; cbn [kcells].
    + symmetry; apply rm_nil.
    + apply unwind_rm.
    + rewrite (iclose_rm it h). rewrite (unwind_rm k' _). symmetry. apply rm_app.
Qed.

Lemma rm_comm a b h : rm a (rm b h) = rm b (rm a h).
Proof.
  unfold rm. induction h as [|p h IH]; cbn [filter]; [reflexivity|].
  destruct (negb (existsb (Nat.eqb (fst p)) b)) eqn:B; destruct (negb (existsb (Nat.eqb (fst p)) a)) eqn:A;
    cbn [filter]; rewrite ?A, ?B, IH; reflexivity.
Qed.

(* finalising the suspended generator `it` AFTER the enclosing continuation k was unwound (CPython, when the traceback
   dies) = finalising it first (the machine's CRaise), from ANY heap *)
Theorem delayed_close_commutes (it : miter) (k : mkont) h :
  iclose lclose (unwind lclose h k) it = unwind lclose (iclose lclose h it) k.
Proof. rewrite !iclose_rm, !unwind_rm. apply rm_comm. Qed.

(* any two generator objects, closed in either order *)
Theorem close_order_irrelevant (it1 it2 : miter) h :
  iclose lclose (iclose lclose h it1) it2 = iclose lclose (iclose lclose h it2) it1.
Proof. rewrite !iclose_rm. apply rm_comm. Qed.

(* the raise inside the body of a loop over `it` (findall's copy): the machine's heap `unwind h (KLoop it body k)` is
   what CPython has after unwinding k with `it` still alive and finalising `it` afterwards *)
Corollary raise_in_loop_delayed (it : miter) body (k : mkont) h :
  unwind lclose h (KLoop it body k) = iclose lclose (unwind lclose h k) it.
Proof. rewrite unwind_eq. symmetry. apply delayed_close_commutes. Qed.
