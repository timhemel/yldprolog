(* C04, same engine, generators whose clause bodies write the fact store: a run that satisfies the footprint condition
   (foot_ok, the hypothesis of Slots.slots_alone_K) while the store is really written, and the refutation of the statement
   without that condition. *)
From Coq Require Import String.
From Coq Require Import List Arith Bool Lia ZArith Cantor.
Import ListNotations.
From YP Require Import Base.Str Term.Term Term.Show Unify.Unify Engine.Deref Engine.Frame Engine.Db Engine.World Engine.CursorFrame
  Engine.Isolation Engine.Footprint Engine.Slots Engine.SlotsReach Engine.IsolationExamples.
Local Open Scope string_scope.

Definition xq := of_string "q".
Definition xw := of_string "w".
Definition xF (f : string) (args : list term) := TFun (of_string f) args.

(* w(X) :- p(X), assertz(q(X)), retract(q(c)).     reads p/1, writes q/1 *)
Definition wscript : list (str * nat * list clause) :=
  [ (xw, 1, [ ([TVar 0], [(xp, [TVar 0]); (of_string "assertz", [TFun xq [TVar 0]]); (of_string "retract", [TFun xq [xA "c"]])]) ]) ].

(* p(a). p(b). q(c). q(c).  slot 0: p(X0) (a reader of p/1);  slot 1: w(X1) (reads p/1, writes q/1) *)
Definition wprep : list op :=
  [ OAssert true xp [xA "a"]; OAssert true xp [xA "b"]; OAssert true xq [xA "c"]; OAssert true xq [xA "c"];
    OLoad true wscript; OStart 0 xp [TVar 0]; OStart 1 xw [TVar 1] ].
Definition we : engine := fst (fst (erun 1 0 80 wprep init_engine [])).
Definition wops : list op := [ONext 1; ONext 0; ONext 1; ONext 0; ONext 1; ONext 0; ONext 1].
Definition wK (k : fkey) : bool := fkey_eqb k (xp, 1).

Lemma ex_hist_ok_w : hist_ok 1 0 80 wprep init_engine [].
Proof. apply hist_okb_ok. vm_compute. reflexivity. Qed.

(* the writer's steps assert q(a), retract the two q(c) (one per answer: retract leaves a choice point that is resumed
   on backtracking), assert q(b) and find no q(c) any more, while the reader is suspended between them; the reader sees a, b, done; the footprint
   condition holds for the reader (K = {p/1}); the fact store was really written *)
Lemma ex_foot :
  hist_ok 1 0 80 wprep init_engine [] /\ Forall qop wops
  /\ foot_ok 1 0 wK 0 80 wops we []
  /\ pick 0 wops (snd (erun 1 0 80 wops we [])) = [xans "a"; xans "b"; otag "done" []]
  /\ pick 1 wops (snd (erun 1 0 80 wops we [])) = [xans "a"; xans "a"; otag "done" []; otag "done" []]
  /\ map fargs (find_facts (edb we) xq 1) = [[xA "c"]; [xA "c"]]
  /\ map fargs (find_facts (edb (fst (fst (erun 1 0 80 wops we [])))) xq 1) = [[xA "a"]; [xA "b"]]
  /\ pick 0 wops (snd (erun 1 0 80 wops we [])) = snd (erun 1 0 80 (filter (is_slot 0) wops) we []).
Proof.
  split; [exact ex_hist_ok_w|]. split; [repeat constructor; discriminate|].
  split; [apply foot_okb_ok; vm_compute; reflexivity|].
  vm_compute. repeat split; reflexivity.
Qed.

(* p(a).  slot 0: p(X0);  slot 1: assertz(p(b)) called as a query.  Advancing slot 1 before slot 0 is resumed for the
   first time (the snapshot of p/1 is taken when the call starts) shows the reader a, b; alone it sees a. *)
Definition rprep : list op :=
  [ OAssert true xp [xA "a"]; OStart 0 xp [TVar 0]; OStart 1 (of_string "assertz") [TFun xp [xA "b"]] ].
Definition rops : list op := [ONext 1; ONext 0; ONext 0; ONext 0].

Lemma ex_hist_ok_r : hist_ok 1 0 50 rprep init_engine [].
Proof. apply hist_okb_ok. vm_compute. reflexivity. Qed.

Lemma disjoint_queries_alone_writes_refuted :
  exists n i fuel pre ops e h bs0 q, i < n /\
    hist_ok n i fuel pre init_engine [] /\ erun n i fuel pre init_engine [] = (e, h, bs0) /\ Forall qop ops /\
    pick q ops (snd (erun n i fuel ops e h))
    <> snd (erun n i fuel (filter (is_slot q) ops) e (fP (PQ_of n i e q) h)).
Proof.
  exists 1, 0, 50, rprep, rops.
  exists (fst (fst (erun 1 0 50 rprep init_engine []))), (snd (fst (erun 1 0 50 rprep init_engine []))),
    (snd (erun 1 0 50 rprep init_engine [])), 0.
  split; [lia|]. split; [exact ex_hist_ok_r|]. split; [apply erun_eta|].
  split; [repeat constructor; discriminate|].
  vm_compute. discriminate.
Qed.

(* what the two runs show *)
Lemma ex_refuted_values :
  let e := fst (fst (erun 1 0 50 rprep init_engine [])) in
  pick 0 rops (snd (erun 1 0 50 rops e [])) = [xans "a"; xans "b"; otag "done" []]
  /\ snd (erun 1 0 50 (filter (is_slot 0) rops) e []) = [xans "a"; otag "done" []; otag "done" []].
Proof. vm_compute. split; reflexivity. Qed.

(* the read-only hypothesis of same_engine_slots is inhabited by the run of IsolationExamples.ex_slots *)
Lemma ex_nowrite : nowrite 1 0 50 xops xe [] /\ Forall qop xops /\ sinv 1 0 xPQ xe [].
Proof.
  split; [|split; [repeat constructor; discriminate|exact ex_sinv]].
  apply nowriteb_ok. vm_compute. reflexivity.
Qed.
