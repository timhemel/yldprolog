(* C17: YP.evaluate_bounded (engine.py) as a state machine over
     - the interpreter's recursion limit (global state, sys.get/setrecursionlimit),
     - the query generator (fresh / suspended after k answers / finished),
     - the outcome of the projection function at the k-th answer (a value or an exception).

       old_recursionlimit = sys.getrecursionlimit()
       result = []
       try:
           sys.setrecursionlimit(recursion_limit)
           result = []
           for x in query:
               result.append(projection_function(x))
       except RuntimeError:        # RecursionError is a subclass
           pass
       except StopIteration:
           pass
       finally:
           sys.setrecursionlimit(old_recursionlimit)
           if hasattr(query, 'close'):
               query.close()
       return result

   A query is modelled abstractly as a depth-indexed answer sequence  ans : nat -> list A * fin
   (fin = Norm: the search ended; Err: after those answers the recursion limit was hit, or an exception of a
   registered Python predicate came up through the generator - gexc says which) that is
   prefix-monotone in the depth.  This is what a step-indexed semantics of the engine gives:
   Engine/BoundedQuery.v defines such a semantics (depth-first SLD resolution over the C02
   unification model, indexed by call depth) and PROVES that it is prefix-monotone.

   NOT modelled (partial): how many Python frames one unit of depth costs, i.e. the exact frame
   count at which RecursionError strikes.  `budget limit cur` (recursion limit, current interpreter
   depth |-> depth units available to the query) is an arbitrary function: every theorem holds for
   all of them. *)
From Coq Require Import List Arith Bool Lia.
Import ListNotations.
Set Implicit Arguments.

Inductive fin := Norm | Err.
Definition res (A : Type) : Type := (list A * fin)%type.

Definition prefix {A} (l m : list A) : Prop := exists r, m = l ++ r.

Lemma prefix_refl {A} (l : list A) : prefix l l.
Proof. exists []. rewrite app_nil_r. reflexivity. Qed.
Lemma prefix_trans {A} (a b c : list A) : prefix a b -> prefix b c -> prefix a c.
Proof. intros [x ->] [y ->]. exists (x ++ y). rewrite app_assoc. reflexivity. Qed.
Lemma prefix_nil {A} (l : list A) : prefix [] l.
Proof. exists l. reflexivity. Qed.
Lemma prefix_app {A} (a b c : list A) : prefix b c -> prefix (a ++ b) (a ++ c).
Proof. intros [x ->]. exists x. rewrite app_assoc. reflexivity. Qed.
Lemma prefix_app_l {A} (a b : list A) : prefix a (a ++ b).
Proof. exists b. reflexivity. Qed.

(* r2 is what a deeper search delivers: if the shallower search r1 ended normally nothing changes,
   if it hit the limit its answers are a prefix *)
Definition res_le {A} (r1 r2 : res A) : Prop :=
  match snd r1 with Norm => r2 = r1 | Err => prefix (fst r1) (fst r2) end.

Lemma res_le_refl {A} (r : res A) : res_le r r.
Proof. unfold res_le. destruct (snd r); [reflexivity | apply prefix_refl]. Qed.

Lemma res_le_prefix {A} (r1 r2 : res A) : res_le r1 r2 -> prefix (fst r1) (fst r2).
Proof. unfold res_le. destruct (snd r1); [intros ->; apply prefix_refl | auto]. Qed.

Lemma res_le_trans {A} (a b c : res A) : res_le a b -> res_le b c -> res_le a c.
Proof.
  unfold res_le. destruct a as [la fa], b as [lb fb], c as [lc fc]; simpl.
  destruct fa.
  - intros E. injection E as -> ->. auto.
  - intros P. destruct fb.
    + intros E. injection E as -> ->. exact P.
    + intros Q. eapply prefix_trans; eauto.
Qed.

(* ERuntime: RuntimeError and its subclasses (RecursionError); EStop: StopIteration;
   EOther: every other exception class (ValueError, KeyError, YPException, ...) *)
Inductive exc := ERuntime | EStop | EOther (tag : nat).
Definition caught (e : exc) : bool := match e with ERuntime | EStop => true | EOther _ => false end.

Inductive pout (B : Type) := PVal (b : B) | PRaise (e : exc).
Arguments PRaise {B} e.

(* the generator object: not finished and k answers delivered so far (Susp 0 = fresh), or finished
   (exhausted, ended by an exception that went through it, or closed) *)
Inductive gstate := Susp (k : nat) | Done.

Record istate := { rl : nat; gs : gstate }.

Inductive outcome (B : Type) := Return (r : list B) | Propagate (e : exc).
Arguments Propagate {B} e.

Definition value_error : exc := EOther 0.

Section EvaluateBounded.
  Variables A B : Type.
  (* the query *)
  Variable ans : nat -> res A.
  Hypothesis ans_mono : forall n m, n <= m -> res_le (ans n) (ans m).
  (* the exception that ends the enumeration at depth d when snd (ans d) = Err: RecursionError (ERuntime) for a search
     that the limit cuts short, or the exception of a registered Python predicate that came up through the generator *)
  Variable gexc : nat -> exc.
  (* projection function at the k-th answer (k from 0), called when the recursion limit is r:
     a value or an exception, and the recursion limit it leaves behind (a well-behaved projection
     leaves r; one that calls evaluate_bounded itself does so by rlimit_restored) *)
  Variable proj : nat -> A -> nat -> pout B * nat.
  Variable budget : nat -> nat -> nat.
  (* interpreter depth of the evaluate_bounded frame: constant during the call *)
  Variable cur : nat.
  (* hasattr(query, 'close'): true for every generator, in particular for YP.query *)
  Variable has_close : bool.

  (* sys.setrecursionlimit(new) at depth cur: ValueError below 1, RecursionError when the current
     depth does not fit under the new limit, otherwise the limit is new *)
  Definition setrl (new : nat) : exc + nat :=
    if new <? 1 then inl value_error else if new <=? cur then inl ERuntime else inr new.

  (* for x in query: result.append(projection_function(x))
     l, f: what the generator still has to deliver under the depth available; k: index of the next
     answer; r: recursion limit; acc: result so far.
     Returns (exception leaving the loop, result, recursion limit, generator state). *)
  Fixpoint loop (x : exc) (l : list A) (f : fin) (k : nat) (r : nat) (acc : list B) : option exc * list B * nat * gstate :=
    match l with
    | [] => match f with
            | Norm => (None, acc, r, Done)                   (* StopIteration ends the for loop *)
            | Err => (Some x, acc, r, Done)                  (* the exception x came up through the generator *)
            end
    | a :: l' => match proj k a r with
                 | (PVal b, r') => loop x l' f (S k) r' (acc ++ [b])
                 | (PRaise e, r') => (Some e, acc, r', Susp (S k))    (* generator stays suspended *)
                 end
    end.

  (* the except clauses *)
  Definition handle (e : option exc) (acc : list B) : outcome B :=
    match e with
    | None => Return acc
    | Some e => if caught e then Return acc else Propagate e
    end.

  (* the finally block, entered with recursion limit r, generator g and pending outcome o.
     An exception raised in it replaces the pending outcome and skips the close. *)
  Definition finally_ (old : nat) (r : nat) (g : gstate) (o : outcome B) : outcome B * istate :=
    match setrl old with
    | inl e => (Propagate e, {| rl := r; gs := g |})
    | inr r' => (o, {| rl := r'; gs := if has_close then Done else g |})
    end.

  Definition depth_of (limit : nat) : nat := budget limit cur.

  Definition evaluate_bounded (st : istate) (limit : nat) : outcome B * istate :=
    let old := rl st in
    match setrl limit with
    | inl e => finally_ old (rl st) (gs st) (handle (Some e) [])
    | inr r1 =>
        match gs st with
        | Done => finally_ old r1 Done (Return [])         (* a finished generator: StopIteration at once *)
        | Susp k0 =>
            let d := depth_of limit in
            match loop (gexc d) (skipn k0 (fst (ans d))) (snd (ans d)) k0 r1 [] with
            | (e, acc, r2, g2) => finally_ old r2 g2 (handle e acc)
            end
        end
    end.

  (* the try block with its except clauses: the recursion limit and the generator state it leaves,
     and the pending outcome *)
  Definition try_part (st : istate) (limit : nat) : nat * gstate * outcome B :=
    match setrl limit with
    | inl e => (rl st, gs st, handle (Some e) [])
    | inr r1 =>
        match gs st with
        | Done => (r1, Done, Return [])
        | Susp k0 =>
            let d := depth_of limit in
            match loop (gexc d) (skipn k0 (fst (ans d))) (snd (ans d)) k0 r1 [] with
            | (e, acc, r2, g2) => (r2, g2, handle e acc)
            end
        end
    end.

  Lemma evaluate_bounded_try st limit :
    evaluate_bounded st limit = let '(r, g, o) := try_part st limit in finally_ (rl st) r g o.
  Proof.
    unfold evaluate_bounded, try_part. destruct (setrl limit); [reflexivity|].
    destruct (gs st); [|reflexivity].
    destruct (loop _ _ _ _ _ _) as [[[e acc] r2] g2]. reflexivity.
  Qed.

  Theorem prefix_mono n m : n <= m ->
    prefix (fst (ans n)) (fst (ans m)) /\ (snd (ans n) = Norm -> ans m = ans n).
  Proof.
    intros L. specialize (ans_mono L). split; [apply res_le_prefix; exact ans_mono|].
    unfold res_le in ans_mono. intros E. rewrite E in ans_mono. exact ans_mono.
  Qed.

  (* a running interpreter is below its recursion limit *)
  Definition running (st : istate) : Prop := cur < rl st.

  Lemma setrl_old st : running st -> setrl (rl st) = inr (rl st).
  Proof.
    unfold running, setrl. intros R.
    destruct (rl st <? 1) eqn:E1; [apply Nat.ltb_lt in E1; lia|].
    destruct (rl st <=? cur) eqn:E2; [apply Nat.leb_le in E2; lia|]. reflexivity.
  Qed.

  Lemma finally_running st r g o : running st ->
    finally_ (rl st) r g o = (o, {| rl := rl st; gs := if has_close then Done else g |}).
  Proof. intros R. unfold finally_. rewrite (setrl_old R). reflexivity. Qed.

  Lemma evaluate_bounded_running st limit : running st ->
    evaluate_bounded st limit =
    let '(r, g, o) := try_part st limit in (o, {| rl := rl st; gs := if has_close then Done else g |}).
  Proof.
    intros R. rewrite evaluate_bounded_try. destruct (try_part st limit) as [[r g] o].
    apply finally_running. exact R.
  Qed.

  Lemma outcome_running st limit : running st ->
    fst (evaluate_bounded st limit) = snd (try_part st limit).
  Proof.
    intros R. rewrite (evaluate_bounded_running limit R).
    destruct (try_part st limit) as [[r g] o]. reflexivity.
  Qed.

  (* the recursion limit is afterwards what it was before the call: on EVERY branch (limit rejected
     with ValueError or RecursionError, finished generator, loop ended normally, by RecursionError,
     by an exception of the projection function of any class at any k, and whatever the
     projection function did to the limit) *)
  Theorem rlimit_restored st limit : running st -> rl (snd (evaluate_bounded st limit)) = rl st.
  Proof.
    intros R. rewrite (evaluate_bounded_running limit R).
    destruct (try_part st limit) as [[r g] o]. reflexivity.
  Qed.

  (* the query object is closed on every branch *)
  Theorem generator_closed_on_every_branch st limit : running st -> has_close = true ->
    gs (snd (evaluate_bounded st limit)) = Done.
  Proof.
    intros R C. rewrite (evaluate_bounded_running limit R), C.
    destruct (try_part st limit) as [[r g] o]. reflexivity.
  Qed.

  Lemma loop_gen x0 l f : forall k r acc e acc' r' g', loop x0 l f k r acc = (e, acc', r', g') ->
    g' = Done \/ (exists j a r0 r1 x, g' = Susp (S j) /\ proj j a r0 = (PRaise x, r1) /\ e = Some x).
  Proof.
    induction l as [|a l IH]; intros k r acc e acc' r' g' H; simpl in H.
    - destruct f; injection H as <- <- <- <-; left; reflexivity.
    - destruct (proj k a r) as [[b|x] r1] eqn:P.
      + eapply IH; exact H.
      + injection H as <- <- <- <-. right. exists k, a, r, r1, x. auto.
  Qed.

  (* Restoring contract of the generator (C03: frame_restores): a finished generator holds no
     binding; holds g = the bindings made by the frames of the generator in state g *)
  Section Heap.
    Variable Hp : Type.
    Variable h0 : Hp.
    Variable holds : gstate -> Hp.
    Hypothesis Restoring : holds Done = h0.
    Corollary vars_unbound_after st limit : running st -> has_close = true ->
      holds (gs (snd (evaluate_bounded st limit))) = h0.
    Proof. intros R C. rewrite generator_closed_on_every_branch; auto. Qed.
  End Heap.

  (* what leaves the loop *)
  Lemma loop_exc x0 l f : forall k r acc e acc' r' g', loop x0 l f k r acc = (Some e, acc', r', g') ->
    (e = x0 /\ g' = Done /\ f = Err) \/ (exists j a r0 r1, proj j a r0 = (PRaise e, r1)).
  Proof.
    induction l as [|a l IH]; intros k r acc e acc' r' g' H; simpl in H.
    - destruct f; [discriminate|]. injection H as <- <- <- <-. left; auto.
    - destruct (proj k a r) as [[b|x] r1] eqn:P.
      + eapply IH; exact H.
      + injection H as <- <- <- <-. right. exists k, a, r, r1. exact P.
  Qed.

  (* no recursion-depth error (no RuntimeError at all, no StopIteration) escapes; what does escape is
     the ValueError of setrecursionlimit for a limit below 1, an exception of another class raised
     by the projection function, or an exception of another class that ended the enumeration itself
     (raised by a registered Python predicate) *)
  Theorem no_depth_error_escapes st limit e : running st ->
    fst (evaluate_bounded st limit) = Propagate e ->
    caught e = false /\
    ((limit < 1 /\ e = value_error) \/ (exists k a r0 r1, proj k a r0 = (PRaise e, r1)) \/
     (e = gexc (depth_of limit) /\ snd (ans (depth_of limit)) = Err)).
  Proof.
    intros R. rewrite (outcome_running limit R). unfold try_part.
    destruct (setrl limit) as [x|r1] eqn:S1.
    - simpl. unfold setrl in S1.
      destruct (limit <? 1) eqn:E1.
      + injection S1 as <-. simpl. intros H; injection H as <-. split; auto. left. apply Nat.ltb_lt in E1. auto.
      + destruct (limit <=? cur); [|discriminate]. injection S1 as <-. simpl. discriminate.
    - destruct (gs st) as [k0|]; [|discriminate].
      destruct (loop _ _ _ _ _ _) as [[[x acc] r2] g2] eqn:L. simpl.
      destruct x as [x|]; simpl; [|discriminate].
      destruct (caught x) eqn:Cx; [discriminate|]. intros H; injection H as <-. split; auto.
      destruct (loop_exc _ _ _ _ _ _ L) as [[-> [_ Hf]]|Hp]; [right; right; split; [reflexivity|exact Hf] | right; left; exact Hp].
  Qed.

  (* r is, element by element and in order, what the projection function returned for the answers l,
     the first of which has index k *)
  Inductive projected : nat -> list A -> list B -> Prop :=
  | projected_nil k : projected k [] []
  | projected_cons k a l b r r0 r1 : proj k a r0 = (PVal b, r1) -> projected (S k) l r -> projected k (a :: l) (b :: r).

  Lemma projected_app k l1 r1 l2 r2 : projected k l1 r1 -> projected (k + length l1) l2 r2 ->
    projected k (l1 ++ l2) (r1 ++ r2).
  Proof.
    induction 1 as [k|k a l b r r0 r1' P H IH]; simpl; intros H2.
    - rewrite Nat.add_0_r in H2. exact H2.
    - econstructor; [exact P|]. apply IH. replace (S k + length l) with (k + S (length l)) by lia. exact H2.
  Qed.

  Lemma loop_result x0 l f : forall k r acc e acc' r' g', loop x0 l f k r acc = (e, acc', r', g') ->
    exists l0 res0, acc' = acc ++ res0 /\ prefix l0 l /\ projected k l0 res0 /\
                    (e = None -> l0 = l /\ f = Norm) /\
                    (g' = Done -> l0 = l).
  Proof.
    induction l as [|a l IH]; intros k r acc e acc' r' g' H; simpl in H.
    - exists [], []. rewrite app_nil_r.
      destruct f; injection H as <- <- <- <-.
      + split; [reflexivity|]. split; [apply prefix_refl|]. split; [constructor|]. split; auto.
      + split; [reflexivity|]. split; [apply prefix_refl|]. split; [constructor|]. split; [discriminate | auto].
    - destruct (proj k a r) as [[b|x] r1] eqn:P.
      + destruct (IH _ _ _ _ _ _ _ H) as [l0 [res0 [E [Pf [Pj [N D]]]]]].
        exists (a :: l0), (b :: res0). rewrite E, <- app_assoc. simpl. split; [reflexivity|]. split.
        * destruct Pf as [x ->]. exists x. reflexivity.
        * split; [econstructor; eauto|]. split.
          -- intros En. destruct (N En) as [-> ->]. auto.
          -- intros Dn. rewrite (D Dn). reflexivity.
      + injection H as <- <- <- <-. exists [], []. rewrite app_nil_r.
        split; [reflexivity|]. split; [apply prefix_nil|]. split; [constructor|]. split; discriminate.
  Qed.

  (* whatever happens, a returned result is the projection, in order, of a prefix of the answers -
     of the answer sequence at EVERY depth m at least the one the interpreter's limit corresponds to,
     hence of the true (unbounded) sequence *)
  Theorem result_is_prefix st limit res_ : gs st = Susp 0 ->
    fst (evaluate_bounded st limit) = Return res_ -> running st ->
    forall m, depth_of limit <= m ->
    exists l0, prefix l0 (fst (ans m)) /\ projected 0 l0 res_.
  Proof.
    intros G H R m Lm. rewrite (outcome_running limit R) in H. unfold try_part in H. rewrite G in H.
    destruct (setrl limit) as [x|r1].
    - simpl in H. exists []. split; [apply prefix_nil|].
      destruct (caught x); [injection H as <-; constructor | discriminate].
    - destruct (loop _ _ _ _ _ _) as [[[x acc] r2] g2] eqn:L. simpl in H.
      destruct (loop_result _ _ _ _ _ _ L) as [l0 [res0 [E [Pf [Pj _]]]]]. simpl in E. subst acc.
      assert (res_ = res0).
      { destruct x as [x|]; simpl in H; [destruct (caught x); [|discriminate]|]; injection H as <-; reflexivity. }
      subst res0. exists l0. split; auto.
      eapply prefix_trans; [exact Pf|]. apply (prefix_mono Lm).
  Qed.

  Lemma loop_total x0 : (forall k a r, exists b, proj k a r = (PVal b, r)) ->
    forall l k r acc, exists res0, loop x0 l Norm k r acc = (None, acc ++ res0, r, Done) /\ projected k l res0.
  Proof.
    intros T. induction l as [|a l IH]; intros k r acc; simpl.
    - exists []. rewrite app_nil_r. split; [reflexivity | constructor].
    - destruct (T k a r) as [b P]. rewrite P. destruct (IH (S k) r (acc ++ [b])) as [res0 [E Pj]].
      exists (b :: res0). rewrite E, <- app_assoc. split; [reflexivity|]. econstructor; eauto.
  Qed.

  (* a finite search within the limit, a projection function that returns: the projection of every
     answer in order *)
  Theorem complete_when_shallow st limit : gs st = Susp 0 -> running st ->
    setrl limit = inr limit ->
    snd (ans (depth_of limit)) = Norm ->
    (forall k a r, exists b, proj k a r = (PVal b, r)) ->
    exists res_, fst (evaluate_bounded st limit) = Return res_ /\
      forall m, depth_of limit <= m -> projected 0 (fst (ans m)) res_ /\ snd (ans m) = Norm.
  Proof.
    intros G R S1 N T. rewrite (outcome_running limit R). unfold try_part. rewrite G, S1, N. cbn [skipn].
    destruct (loop_total (gexc (depth_of limit)) T (fst (ans (depth_of limit))) 0 limit []) as [res0 [E Pj]].
    rewrite E. exists res0. split; [reflexivity|].
    intros m Lm. destruct (prefix_mono Lm) as [_ Eq]. rewrite (Eq N). auto.
  Qed.

  (* the result is exactly what the projection function returned: nothing is dropped when the loop is
     left by an exception (the result collected so far is returned) *)
  Theorem result_collected_so_far st limit k0 : gs st = Susp k0 ->
    running st -> forall r1, setrl limit = inr r1 ->
    let d := depth_of limit in
    forall e acc r2 g2, loop (gexc d) (skipn k0 (fst (ans d))) (snd (ans d)) k0 r1 [] = (e, acc, r2, g2) ->
    fst (evaluate_bounded st limit) = handle e acc.
  Proof.
    intros G R r1 S1 d e acc r2 g2 L. rewrite (outcome_running limit R). unfold try_part.
    rewrite G, S1. fold d. rewrite L. reflexivity.
  Qed.
End EvaluateBounded.

(* evaluate_bounded used inside a projection function (nested): by rlimit_restored it leaves the
   limit alone, so it is a well-behaved projection for the outer call.  The inner call has its own
   query, projection, depth (deeper than the outer frame) and limit. *)
Definition nested_projection {A A' B'} (ans' : A -> nat -> res A') (proj' : nat -> A' -> nat -> pout B' * nat)
  (budget : nat -> nat -> nat) (cur' : nat) (limit' : nat) : nat -> A -> nat -> pout (list B') * nat :=
  fun _ a r =>
    match evaluate_bounded (ans' a) (fun _ => ERuntime) proj' budget cur' true {| rl := r; gs := Susp 0 |} limit' with
    | (Return x, st') => (PVal x, rl st')
    | (Propagate e, st') => (PRaise e, rl st')
    end.

Theorem nested_keeps_rlimit {A A' B'} (ans' : A -> nat -> res A') proj' budget cur' limit' k a r :
  cur' < r -> snd (@nested_projection A A' B' ans' proj' budget cur' limit' k a r) = r.
Proof.
  intros R. unfold nested_projection.
  pose proof (@rlimit_restored A' B' (ans' a) (fun _ => ERuntime) proj' budget cur' true {| rl := r; gs := Susp 0 |} limit' R) as H.
  destruct (evaluate_bounded _ _ _ _ _ _ _) as [[x|e] st']; simpl in *; exact H.
Qed.

(* the statement as Properties/C17.v quotes it *)
Lemma generator_closed_every_generator (A B : Type) (ans : nat -> res A) (gexc : nat -> exc)
  (proj : nat -> A -> nat -> pout B * nat) budget cur st limit :
  running cur st -> gs (snd (evaluate_bounded ans gexc proj budget cur true st limit)) = Done.
Proof. intros R. apply generator_closed_on_every_branch; auto. Qed.
