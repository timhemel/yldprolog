(* Proofs about the resolution model: big-step reading of the generators (the engine does not
   change while a query runs), lookup, chains, loading. *)
From Coq Require Import String.
From Coq Require Import List Arith NArith Bool Lia.
Import ListNotations.
From YP Require Import Base.Str Engine.Resolve.

Lemma aget_aset {A} (c : list (str * A)) k v k2 :
  aget (aset c k v) k2 = if str_eqb k2 k then Some v else aget c k2.
Proof.
  induction c as [|[k' v'] c IH]; simpl.
  - reflexivity.
  - destruct (str_eqb_spec k k') as [->|Hne]; simpl.
    + destruct (str_eqb k2 k'); reflexivity.
    + rewrite IH. destruct (str_eqb_spec k2 k') as [->|Hne2]; [|reflexivity].
      destruct (str_eqb_spec k' k) as [->|]; [congruence | reflexivity].
Qed.

Lemma aget_adel {A} (c : list (str * A)) k k2 :
  aget (adel c k) k2 = if str_eqb k2 k then None else aget c k2.
Proof.
  induction c as [|[k' v'] c IH]; simpl.
  - destruct (str_eqb k2 k); reflexivity.
  - destruct (str_eqb_spec k k') as [->|Hne]; simpl.
    + rewrite IH. destruct (str_eqb k2 k'); reflexivity.
    + rewrite IH. destruct (str_eqb_spec k2 k') as [->|Hne2]; [|reflexivity].
      destruct (str_eqb_spec k' k) as [->|]; [congruence | reflexivity].
Qed.

Lemma aget_in {A} (c : list (str * A)) k v : aget c k = Some v -> In k (map fst c).
Proof.
  induction c as [|[k' v'] c IH]; simpl; [discriminate|].
  destruct (str_eqb_spec k k') as [->|Hne]; [left; reflexivity | right; auto].
Qed.

Lemma existsb_str_eqb k l : existsb (str_eqb k) l = true <-> In k l.
Proof.
  rewrite existsb_exists. split.
  - intros [x [Hin Heq]]. apply str_eqb_eq in Heq. subst. exact Hin.
  - intros Hin. exists k. split; [exact Hin | apply str_eqb_refl].
Qed.

Lemma ctx_val_set c k v k2 :
  ctx_val (ctx_set c k v) k2 = if str_eqb k2 k then Some v else ctx_val c k2.
Proof. apply aget_aset. Qed.

Lemma ctx_get_set c k v k2 :
  ctx_get (ctx_set c k v) k2 = if str_eqb k2 k then Some (members v) else ctx_get c k2.
Proof. unfold ctx_get. rewrite ctx_val_set. destruct (str_eqb k2 k); reflexivity. Qed.

Lemma ctx_get_set_same c k v : ctx_get (ctx_set c k v) k = Some (members v).
Proof. rewrite ctx_get_set, str_eqb_refl. reflexivity. Qed.

Lemma ctx_get_set_other c k v k2 : k2 <> k -> ctx_get (ctx_set c k v) k2 = ctx_get c k2.
Proof. intros Hne. rewrite ctx_get_set. apply str_eqb_neq in Hne. rewrite Hne. reflexivity. Qed.

Definition res := (list store * fin)%type.

Definition res_app (r : res) (after : fin -> res) : res :=
  let (l, f) := r in let (l2, f2) := after f in (l ++ l2, f2).

Fixpoint res_bind (l : list store) (f : store -> res) (fi : fin) : res :=
  match l with
  | [] => ([], fi)
  | s :: r =>
      let (a, fa) := f s in
      match fa with
      | Norm => let (b, fb) := res_bind r f fi in (a ++ b, fb)
      | x => (a, x)
      end
  end.

Lemma drain_append st : forall after e,
  drain e (append st after e) = res_app (drain e st) (fun fi => drain e (after fi e)).
Proof.
  induction st as [f | s k IH]; intros after e; simpl.
  - destruct (drain e (after f e)); reflexivity.
  - rewrite IH. destruct (drain e (k e)) as [l f]. simpl.
    destruct (drain e (after f e)); reflexivity.
Qed.

Lemma drain_bind st : forall f e,
  drain e (bind st f e) = let (l, fi) := drain e st in res_bind l (fun s => drain e (f s e)) fi.
Proof.
  induction st as [fi | s k IH]; intros f e; simpl.
  - reflexivity.
  - rewrite drain_append. destruct (drain e (k e)) as [l fi] eqn:Ek. simpl.
    destruct (drain e (f s e)) as [a fa]. simpl.
    destruct fa; simpl; try (rewrite app_nil_r; reflexivity).
    rewrite IH. rewrite Ek. destruct (res_bind l _ fi). reflexivity.
Qed.

Lemma drain_smap h st : forall e, drain e (smap h st) = (map h (fst (drain e st)), snd (drain e st)).
Proof.
  induction st as [f | s k IH]; intros e; simpl.
  - reflexivity.
  - rewrite IH. destruct (drain e (k e)); reflexivity.
Qed.

Lemma res_bind_ext l f g fi : (forall s, f s = g s) -> res_bind l f fi = res_bind l g fi.
Proof.
  intros H. induction l as [|s l IH]; simpl; [reflexivity|].
  rewrite H, IH. reflexivity.
Qed.

Lemma res_app_ext r f g : (forall fi, f fi = g fi) -> res_app r f = res_app r g.
Proof. intros H. destruct r as [l fi]. simpl. rewrite H. reflexivity. Qed.

Lemma res_app_assoc r f g :
  res_app (res_app r f) g = res_app r (fun fi => res_app (f fi) g).
Proof.
  destruct r as [l fi]. simpl. destruct (f fi) as [l2 f2]. simpl.
  destruct (g f2) as [l3 f3]. rewrite app_assoc. reflexivity.
Qed.

Definition fact_answers (fs : list fact) (args : list nat) (s : store) : list store :=
  flat_map (fun f => match match_fact s args f with Some s' => [s'] | None => [] end) fs.

Lemma drain_facts_gen fs : forall args s after e,
  drain e (facts_gen fs args s after e) =
  (fact_answers fs args s ++ fst (drain e (after e)), snd (drain e (after e))).
Proof.
  induction fs as [|f fs IH]; intros args s after e; simpl.
  - destruct (drain e (after e)); reflexivity.
  - destruct (match_fact s args f) as [s'|]; simpl.
    + rewrite IH. reflexivity.
    + apply IH.
Qed.

Definition defs_of (c : ctx) (name : str) (n : nat) : list def :=
  match resolve c name n with Some ds => ds | None => [] end.

Lemma resolve_defs_of c name n ds : resolve c name n = Some ds -> defs_of c name n = ds.
Proof. unfold defs_of. intros ->. reflexivity. Qed.

Section BigStep.
  Variable call : str -> list nat -> nat -> store -> gen.

  (* one member of a chain, then the others: a cut (return) in d is local to d *)
  Lemma drain_chain_cons d r args nx s e :
    drain e (chain_gen call (d :: r) args nx s e) =
    res_app (drain e (def_gen call d args nx s e))
            (fun fi => match fi with
                       | Norm | Cut => drain e (chain_gen call r args nx s e)
                       | x => ([], x)
                       end).
  Proof.
    simpl. rewrite drain_append. apply res_app_ext. intros [| | |]; reflexivity.
  Qed.

  Lemma chain_cut_local d r args nx s e l fi :
    drain e (def_gen call d args nx s e) = (l, fi) -> fi = Norm \/ fi = Cut ->
    drain e (chain_gen call (d :: r) args nx s e) =
    (l ++ fst (drain e (chain_gen call r args nx s e)), snd (drain e (chain_gen call r args nx s e))).
  Proof.
    intros Hd Hfi. rewrite drain_chain_cons, Hd. simpl.
    destruct (drain e (chain_gen call r args nx s e)) as [l2 f2].
    destruct Hfi; subst fi; reflexivity.
  Qed.

  (* an exception in a member ends the call: the later members are not consulted *)
  Lemma chain_raise_stops d r args nx s e l :
    drain e (def_gen call d args nx s e) = (l, Raise) ->
    drain e (chain_gen call (d :: r) args nx s e) = (l, Raise).
  Proof.
    intros Hd. rewrite drain_chain_cons, Hd. simpl. rewrite app_nil_r. reflexivity.
  Qed.

  (* the chain of definitions whose members all end normally or by cut: concatenation in chain order *)
  Lemma chain_concat ds args nx s e :
    Forall (fun d => snd (drain e (def_gen call d args nx s e)) = Norm \/
                     snd (drain e (def_gen call d args nx s e)) = Cut) ds ->
    drain e (chain_gen call ds args nx s e) =
    (flat_map (fun d => fst (drain e (def_gen call d args nx s e))) ds, Norm).
  Proof.
    induction 1 as [|d ds Hd _ IH]; [reflexivity|].
    destruct (drain e (def_gen call d args nx s e)) as [l fi] eqn:Ed.
    rewrite (chain_cut_local d ds args nx s e l fi Ed Hd), IH. simpl. rewrite Ed. reflexivity.
  Qed.

  Lemma chain_app ds1 ds2 args nx s e :
    drain e (chain_gen call (ds1 ++ ds2) args nx s e) =
    res_app (drain e (chain_gen call ds1 args nx s e))
            (fun fi => match fi with
                       | Norm => drain e (chain_gen call ds2 args nx s e)
                       | x => ([], x)
                       end).
  Proof.
    induction ds1 as [|d ds1 IH].
    - simpl. destruct (drain e (chain_gen call ds2 args nx s e)); reflexivity.
    - rewrite <- app_comm_cons. rewrite !drain_chain_cons. rewrite res_app_assoc.
      apply res_app_ext. intros [| | |]; try exact IH; reflexivity.
  Qed.

  (* the function half of a call *)
  Lemma drain_fun_phase name args nx s e :
    drain e (fun_phase call name args nx s e) =
    if reserved name then ([], Norm)
    else if forallb (params_ok (length args)) (defs_of (e_ctx e) name (length args))
         then drain e (chain_gen call (defs_of (e_ctx e) name (length args)) args nx s e)
         else ([], Raise).
  Proof.
    unfold fun_phase, lookup_phase, call_phase, defs_of. destruct (reserved name); [reflexivity|].
    destruct (resolve (e_ctx e) name (length args)) as [ds|]; simpl; [|reflexivity].
    destruct (forallb (params_ok (length args)) ds); reflexivity.
  Qed.

  Lemma drain_query_body name args nx s e :
    drain e (query_body call name args nx s e) =
    let r := drain e (fun_phase call name args nx s e) in
    (map (prune nx) (fact_answers (db_get (e_db e) (name, length args)) args s ++ fst r), snd r).
  Proof.
    unfold query_body. rewrite drain_smap, drain_facts_gen. reflexivity.
  Qed.
End BigStep.

(* C08, first sentence: facts of name/N in order, then the definitions registered for exactly N
   (the variadic one only when there is none), all in chain order. *)
Theorem lookup_spec f name args nx s e :
  reserved name = false ->
  let n := length args in
  let facts := fact_answers (db_get (e_db e) (name, n)) args s in
  let ds := match ctx_get (e_ctx e) (mkkey name (AFix n)) with
            | Some ds => ds
            | None => match ctx_get (e_ctx e) (mkkey name AVar) with Some ds => ds | None => [] end
            end in
  drain e (query_gen (S f) name args nx s e) =
  if forallb (params_ok n) ds
  then let r := drain e (chain_gen (query_gen f) ds args nx s e) in
       (map (prune nx) (facts ++ fst r), snd r)
  else (map (prune nx) facts, Raise).
Proof.
  intros Hres n facts ds. cbn [query_gen]. rewrite drain_query_body, drain_fun_phase, Hres.
  assert (Hds : defs_of (e_ctx e) name (length args) = ds).
  { unfold defs_of, resolve, ds, n. destruct (ctx_get (e_ctx e) (mkkey name (AFix (length args)))); reflexivity. }
  rewrite Hds. fold n. destruct (forallb (params_ok n) ds); cbn [fst snd]; [reflexivity|].
  rewrite app_nil_r. reflexivity.
Qed.

(* an unknown predicate simply fails *)
Theorem unknown_fails f name args nx s e :
  db_get (e_db e) (name, length args) = [] ->
  ctx_get (e_ctx e) (mkkey name (AFix (length args))) = None ->
  ctx_get (e_ctx e) (mkkey name AVar) = None ->
  drain e (query_gen (S f) name args nx s e) = ([], Norm).
Proof.
  intros Hdb H1 H2. cbn [query_gen]. rewrite drain_query_body, drain_fun_phase.
  rewrite Hdb. unfold defs_of, resolve. rewrite H1, H2. simpl.
  destruct (reserved name); reflexivity.
Qed.

(* API names: the facts, and nothing else, whatever the context holds *)
Theorem reserved_only_facts f name args nx s e :
  reserved name = true ->
  drain e (query_gen (S f) name args nx s e) =
  (map (prune nx) (fact_answers (db_get (e_db e) (name, length args)) args s), Norm).
Proof.
  intros Hres. cbn [query_gen]. rewrite drain_query_body, drain_fun_phase, Hres.
  cbn [fst snd]. rewrite app_nil_r. reflexivity.
Qed.

(* a key bound to something that is not callable (a module constant), directly or inside a chain:
   every call that resolves to it raises, after the facts and before any definition answers *)
Theorem noncallable_member_raises f name args nx s e ds d z :
  reserved name = false ->
  resolve (e_ctx e) name (length args) = Some ds -> In d ds -> d_const d = Some z ->
  drain e (query_gen (S f) name args nx s e) =
  (map (prune nx) (fact_answers (db_get (e_db e) (name, length args)) args s), Raise).
Proof.
  intros Hres Hr Hin Hc. cbn [query_gen].
  rewrite drain_query_body, drain_fun_phase, Hres, (resolve_defs_of _ _ _ _ Hr).
  assert (Hf : forallb (params_ok (length args)) ds = false).
  { apply not_true_is_false. intros E. rewrite forallb_forall in E. specialize (E d Hin).
    unfold params_ok in E. rewrite Hc in E. discriminate. }
  rewrite Hf. cbn [fst snd]. rewrite app_nil_r. reflexivity.
Qed.

Lemma reserved_iff name : reserved name = true <-> In name api_names.
Proof. apply existsb_str_eqb. Qed.

(* the call made with N arguments never reaches a definition filed under another key *)
Theorem resolve_only_two_keys c1 c2 name n :
  ctx_get c1 (mkkey name (AFix n)) = ctx_get c2 (mkkey name (AFix n)) ->
  ctx_get c1 (mkkey name AVar) = ctx_get c2 (mkkey name AVar) ->
  resolve c1 name n = resolve c2 name n.
Proof. intros H1 H2. unfold resolve. rewrite H1, H2. reflexivity. Qed.

Theorem exact_over_variadic c name n ds :
  ctx_get c (mkkey name (AFix n)) = Some ds -> resolve c name n = Some ds.
Proof. intros H. unfold resolve. rewrite H. reflexivity. Qed.

Theorem variadic_only_without_exact c name n :
  ctx_get c (mkkey name (AFix n)) = None -> resolve c name n = ctx_get c (mkkey name AVar).
Proof. intros H. unfold resolve. rewrite H. reflexivity. Qed.

(* does the script run to its end?  It depends on the context only through WHICH keys are
   bound (del / self-assignment of an unbound name raise NameError) *)
Fixpoint exec_ok (ss : list stmt) (pres : str -> bool) : bool :=
  match ss with
  | [] => true
  | SDef k _ :: r | SNone k :: r => exec_ok r (fun x => str_eqb x k || pres x)
  | SDel k :: r => pres k && exec_ok r (fun x => negb (str_eqb x k) && pres x)
  | SSelf k :: r => pres k && exec_ok r pres
  | SFail :: _ => false
  end.

Lemma exec_ok_local ss : forall p1 p2,
  (forall x, In x (bound_keys ss) -> p1 x = p2 x) -> exec_ok ss p1 = exec_ok ss p2.
Proof.
  induction ss as [|st ss IH]; intros p1 p2 H; [reflexivity|].
  destruct st as [k d|k|k|k|]; simpl in *; try reflexivity.
  - apply IH. intros x Hx. rewrite H by (right; exact Hx). reflexivity.
  - apply IH. intros x Hx. rewrite H by (right; exact Hx). reflexivity.
  - rewrite (H k) by (left; reflexivity). f_equal.
    apply IH. intros x Hx. rewrite H by (right; exact Hx). reflexivity.
  - rewrite (H k) by (left; reflexivity). f_equal.
    apply IH. intros x Hx. apply H. right. exact Hx.
Qed.

Definition bound_in {A} (c : list (str * A)) (k : str) : bool :=
  match aget c k with Some _ => true | None => false end.

Lemma exec_stmts_ok ss : forall nc,
  (exists nc', exec_stmts ss nc = Some nc') <-> exec_ok ss (bound_in nc) = true.
Proof.
  induction ss as [|st ss IH]; intros nc; simpl.
  - split; [reflexivity | eauto].
  - destruct st as [k d|k|k|k|].
    + rewrite IH. erewrite exec_ok_local; [reflexivity|]. intros x _. unfold bound_in.
      rewrite aget_aset. destruct (str_eqb x k); reflexivity.
    + rewrite IH. erewrite exec_ok_local; [reflexivity|]. intros x _. unfold bound_in.
      rewrite aget_aset. destruct (str_eqb x k); reflexivity.
    + unfold bound_in at 1. destruct (aget nc k) eqn:E; simpl.
      * rewrite IH. erewrite exec_ok_local; [reflexivity|]. intros x _. unfold bound_in.
        rewrite aget_adel. destruct (str_eqb x k); reflexivity.
      * split; [intros [? H]; discriminate | discriminate].
    + unfold bound_in at 1. destruct (aget nc k) eqn:E; simpl.
      * apply IH.
      * split; [intros [? H]; discriminate | discriminate].
    + split; [intros [? H]; discriminate | discriminate].
Qed.

Lemma aget_copy c k : aget (copy_ctx c) k = match ctx_val c k with Some _ => Some NOld | None => None end.
Proof.
  unfold copy_ctx, ctx_val. induction c as [|[k' v'] c IH]; simpl; [reflexivity|].
  destruct (str_eqb k k'); [reflexivity | exact IH].
Qed.

Lemma bound_in_copy c k : bound_in (copy_ctx c) k = bound_in c k.
Proof. unfold bound_in. rewrite aget_copy. unfold ctx_val. destruct (aget c k); reflexivity. Qed.

(* when does a load return?  exactly when the text compiles and every statement runs *)
Theorem load_ok_iff c sc ow :
  (exists c', load c sc ow = Some c') <-> (s_broken sc = false /\ exec_ok (s_stmts sc) (bound_in c) = true).
Proof.
  unfold load. destruct (s_broken sc).
  - split; [intros [? H]; discriminate | intros [H _]; discriminate].
  - rewrite (exec_ok_local _ _ _ (fun x _ => eq_sym (bound_in_copy c x))), <- exec_stmts_ok.
    split.
    + intros [c' H]. split; [reflexivity|]. destruct (exec_stmts (s_stmts sc) (copy_ctx c)); [eauto | discriminate].
    + intros [_ [nc' ->]]. eauto.
Qed.

Lemma exec_ok_no_fail ss pres : exec_ok ss pres = true -> ~ In SFail ss.
Proof.
  revert pres. induction ss as [|st ss IH]; intros pres H Hin; [exact Hin|].
  destruct Hin as [->|Hin]; [discriminate|].
  destruct st as [k d|k|k|k|]; simpl in H; try discriminate.
  - exact (IH _ H Hin).
  - exact (IH _ H Hin).
  - apply andb_true_iff in H. destruct H as [_ H]. exact (IH _ H Hin).
  - apply andb_true_iff in H. destruct H as [_ H]. exact (IH _ H Hin).
Qed.

(* a load that raises (compile error, or any statement raising while the script runs,
   whatever was defined before it) leaves the context unchanged: there is no new context *)
Theorem load_fail_atomic c sc ow :
  s_broken sc = true \/ In SFail (s_stmts sc) -> load c sc ow = None.
Proof.
  intros H. destruct (load c sc ow) as [c'|] eqn:E; [|reflexivity].
  destruct (proj1 (load_ok_iff c sc ow) (ex_intro _ c' E)) as [Hb Hok].
  destruct H as [H|H]; [congruence|]. destruct (exec_ok_no_fail _ _ Hok H).
Qed.

(* scripts of definitions and raising statements only (what the compiler emits, plus failures) *)
Definition plain_stmt (st : stmt) : bool :=
  match st with SDef _ d => match d_const d with None => true | Some _ => false end | SFail => true | _ => false end.

Definition is_fail (st : stmt) : bool := match st with SFail => true | _ => false end.

Lemma exec_ok_plain ss : forallb plain_stmt ss = true -> forall pres,
  exec_ok ss pres = negb (existsb is_fail ss).
Proof.
  induction ss as [|st ss IH]; intros Hp pres; [reflexivity|].
  simpl in Hp. apply andb_true_iff in Hp. destruct Hp as [H1 H2].
  destruct st as [k d|k|k|k|]; simpl in *; try discriminate; [apply IH; exact H2 | reflexivity].
Qed.

(* the last thing a script does to key k: None = nothing (not mentioned, or only `k = k`),
   Some None = deleted from the copy, Some (Some v) = bound to the new value v *)
Definition stmt_eff (st : stmt) (k : str) : option (option cval) :=
  match st with
  | SDef k' d => if str_eqb k k' then Some (Some (VObj d)) else None
  | SNone k' => if str_eqb k k' then Some (Some VNone) else None
  | SDel k' => if str_eqb k k' then Some None else None
  | SSelf _ | SFail => None
  end.

Fixpoint last_eff (ss : list stmt) (k : str) : option (option cval) :=
  match ss with
  | [] => None
  | st :: r => match last_eff r k with Some e => Some e | None => stmt_eff st k end
  end.

(* the (last) object a script binds k to *)
Definition last_def (ss : list stmt) (k : str) : option def :=
  match last_eff ss k with Some (Some (VObj d)) => Some d | _ => None end.

Lemma last_eff_none ss k : ~ In k (bound_keys ss) -> last_eff ss k = None.
Proof.
  induction ss as [|st ss IH]; intros Hn; [reflexivity|].
  simpl. rewrite IH.
  - destruct st as [k' d|k'|k'|k'|]; simpl; try reflexivity;
      (destruct (str_eqb_spec k k') as [->|Hne]; [|reflexivity]; exfalso; apply Hn; simpl; left; reflexivity).
  - intros Hi. apply Hn. unfold bound_keys in *. simpl. apply in_or_app. right. exact Hi.
Qed.

Lemma last_def_none ss k : ~ In k (bound_keys ss) -> last_def ss k = None.
Proof. intros H. unfold last_def. rewrite last_eff_none by exact H. reflexivity. Qed.

Lemma last_def_some_in ss k d : last_def ss k = Some d -> In k (bound_keys ss).
Proof.
  intros H. destruct (in_dec (list_eq_dec N.eq_dec) k (bound_keys ss)) as [Hi|Hi]; [exact Hi|].
  rewrite last_def_none in H by exact Hi. discriminate.
Qed.

Definition apply_eff (e : option (option cval)) (cur : option nval) : option nval :=
  match e with None => cur | Some None => None | Some (Some v) => Some (NNew v) end.

Lemma exec_stmts_get ss : forall nc nc' k,
  exec_stmts ss nc = Some nc' -> aget nc' k = apply_eff (last_eff ss k) (aget nc k).
Proof.
  induction ss as [|st ss IH]; intros nc nc' k H; simpl in *.
  - injection H as <-. reflexivity.
  - destruct st as [k' d|k'|k'|k'|]; simpl.
    + rewrite (IH _ _ k H). destruct (last_eff ss k) as [e|]; [reflexivity|]. simpl.
      rewrite aget_aset. destruct (str_eqb k k'); reflexivity.
    + rewrite (IH _ _ k H). destruct (last_eff ss k) as [e|]; [reflexivity|]. simpl.
      rewrite aget_aset. destruct (str_eqb k k'); reflexivity.
    + destruct (aget nc k') eqn:E; [|discriminate].
      rewrite (IH _ _ k H). destruct (last_eff ss k) as [e|]; [reflexivity|]. simpl.
      rewrite aget_adel. destruct (str_eqb k k'); reflexivity.
    + destruct (aget nc k') eqn:E; [|discriminate].
      rewrite (IH _ _ k H). destruct (last_eff ss k) as [e|]; reflexivity.
    + discriminate.
Qed.

Lemma dedup_in ks k : In k (dedup ks) <-> In k ks.
Proof.
  induction ks as [|x ks IH]; simpl; [tauto|].
  destruct (existsb (str_eqb x) ks) eqn:E.
  - rewrite IH. split; [auto|]. intros [->|H]; [|exact H]. apply existsb_str_eqb. exact E.
  - simpl. rewrite IH. tauto.
Qed.

Lemma dedup_nodup ks : NoDup (dedup ks).
Proof.
  induction ks as [|x ks IH]; simpl; [constructor|].
  destruct (existsb (str_eqb x) ks) eqn:E; [exact IH|].
  constructor; [|exact IH]. rewrite dedup_in, <- existsb_str_eqb, E. discriminate.
Qed.

Lemma old_members_ext c c' k : ctx_val c k = ctx_val c' k -> old_members c k = old_members c' k.
Proof. intros H. unfold old_members, ctx_get. rewrite H. reflexivity. Qed.

(* what the round of key k leaves under k when the copy holds n there: a function of what k was bound to *)
Definition merged (c : ctx) (k : str) (ow : bool) (n : option nval) : option cval :=
  match n with
  | Some (NNew v) =>                                        (* bound by the script to the new value v *)
      if same_value (ctx_val c k) v then ctx_val c k        (* `!=` is False: skipped *)
      else if ow then Some v                                (* overwrite: exactly the new one *)
      else Some (VChain (old_members c k ++ members v))     (* combine: old members, then the new *)
  | _ => ctx_val c k                                        (* still the old object, or not a key of the copy *)
  end.

Lemma merged_ext c c' k ow n : ctx_val c k = ctx_val c' k -> merged c k ow n = merged c' k ow n.
Proof. intros H. unfold merged. rewrite H, (old_members_ext _ _ _ H). reflexivity. Qed.

Lemma merge_key_val nc ow c k : ctx_val (merge_key nc ow c k) k = merged c k ow (aget nc k).
Proof.
  unfold merge_key, merged. destruct (aget nc k) as [[|v]|]; try reflexivity.
  destruct (same_value (ctx_val c k) v); [reflexivity|].
  destruct ow; rewrite ctx_val_set, str_eqb_refl; reflexivity.
Qed.

Lemma merge_key_other nc ow c k0 k : k <> k0 -> ctx_val (merge_key nc ow c k0) k = ctx_val c k.
Proof.
  intros Hne. unfold merge_key. destruct (aget nc k0) as [[|v]|]; try reflexivity.
  destruct (same_value (ctx_val c k0) v); [reflexivity|].
  apply str_eqb_neq in Hne. destruct ow; rewrite ctx_val_set, Hne; reflexivity.
Qed.

(* the rounds of the merge are independent: the outcome for key k is that of its own round *)
Lemma merge_val keys : forall nc ow c k, NoDup keys ->
  ctx_val (merge keys nc ow c) k =
  if existsb (str_eqb k) keys then merged c k ow (aget nc k) else ctx_val c k.
Proof.
  induction keys as [|k0 keys IH]; intros nc ow c k Hnd; simpl; [reflexivity|].
  apply NoDup_cons_iff in Hnd. destruct Hnd as [Hnotin Hnd'].
  rewrite IH by exact Hnd'.
  destruct (str_eqb_spec k k0) as [->|Hne]; simpl.
  - rewrite <- existsb_str_eqb in Hnotin. apply not_true_is_false in Hnotin. rewrite Hnotin.
    apply merge_key_val.
  - rewrite (merged_ext _ c k ow _ (merge_key_other nc ow c k0 k Hne)), (merge_key_other nc ow c k0 k Hne).
    reflexivity.
Qed.

(* THE description of a load that returns, for every key k, at the level of what the key is bound to *)
Theorem load_val c sc ow c' k :
  load c sc ow = Some c' ->
  ctx_val c' k =
  match last_eff (s_stmts sc) k with
  | Some (Some v) => merged c k ow (Some (NNew v))
  | _ => ctx_val c k
  end.
Proof.
  unfold load. destruct (s_broken sc); [discriminate|].
  destruct (exec_stmts (s_stmts sc) (copy_ctx c)) as [nc|] eqn:Ex; [|discriminate].
  intros H. injection H as <-.
  rewrite merge_val by apply dedup_nodup.
  pose proof (exec_stmts_get _ _ _ k Ex) as Hg. rewrite aget_copy in Hg.
  destruct (last_eff (s_stmts sc) k) as [[v|]|]; simpl in Hg; rewrite Hg.
  - (* bound by the script to v: k is a key of the copy *)
    assert (Hin : existsb (str_eqb k) (dedup (map fst nc)) = true).
    { apply existsb_str_eqb, dedup_in. exact (aget_in _ _ _ Hg). }
    rewrite Hin. reflexivity.
  - destruct (existsb _ _); reflexivity.
  - (* not touched: still the old object if k was bound *)
    destruct (existsb _ _); [|reflexivity]. unfold merged. destruct (ctx_val c k); reflexivity.
Qed.

Theorem load_get c sc ow c' k :
  load c sc ow = Some c' ->
  ctx_get c' k =
  match last_eff (s_stmts sc) k with
  | Some (Some v) =>
      if same_value (ctx_val c k) v then ctx_get c k
      else if ow then Some (members v)
      else Some (old_members c k ++ members v)
  | _ => ctx_get c k
  end.
Proof.
  intros H. unfold ctx_get at 1. rewrite (load_val _ _ _ _ k H).
  destruct (last_eff (s_stmts sc) k) as [[v|]|]; try reflexivity. unfold merged.
  destruct (same_value (ctx_val c k) v); [reflexivity|]. destruct ow; reflexivity.
Qed.

Lemma same_value_fun old d : d_const d = None -> same_value old (VObj d) = false.
Proof. intros H. simpl. rewrite H. reflexivity. Qed.

(* ... for a script-made FUNCTION d (the case of the property text) *)
Theorem load_get_def c sc ow c' k d :
  load c sc ow = Some c' -> last_def (s_stmts sc) k = Some d -> d_const d = None ->
  ctx_get c' k = if ow then Some [d] else Some (old_members c k ++ [d]).
Proof.
  intros H Hl Hd. rewrite (load_get _ _ _ _ k H). unfold last_def in Hl.
  destruct (last_eff (s_stmts sc) k) as [[[|d'|]|]|]; try discriminate.
  injection Hl as ->. rewrite same_value_fun by exact Hd. reflexivity.
Qed.

Theorem load_overwrite_exact c sc c' k d :
  load c sc true = Some c' -> last_def (s_stmts sc) k = Some d -> d_const d = None -> ctx_get c' k = Some [d].
Proof. intros H Hl Hd. rewrite (load_get_def _ _ _ _ k d H Hl Hd). reflexivity. Qed.

Theorem load_frame c sc ow c' k :
  load c sc ow = Some c' -> ~ In k (bound_keys (s_stmts sc)) -> ctx_val c' k = ctx_val c k.
Proof.
  intros H Hn. rewrite (load_val _ _ _ _ k H). rewrite last_eff_none by exact Hn. reflexivity.
Qed.

(* deleting a key in the script, or assigning it to itself, does nothing to the engine *)
Theorem load_del_unaffected c sc ow c' k :
  load c sc ow = Some c' -> last_eff (s_stmts sc) k = Some None -> ctx_val c' k = ctx_val c k.
Proof. intros H Hl. rewrite (load_val _ _ _ _ k H), Hl. reflexivity. Qed.

Theorem load_combine_appends c sc c' k d :
  load c sc false = Some c' -> last_def (s_stmts sc) k = Some d -> d_const d = None ->
  ctx_get c' k = Some (old_members c k ++ [d]).
Proof. intros H Hl Hd. rewrite (load_get_def _ _ _ _ k d H Hl Hd). reflexivity. Qed.

(* any number of combining loads: the chain of k is the old chain followed by the scripts'
   definitions of k in load order *)
Fixpoint load_all (c : ctx) (scs : list script) : option ctx :=
  match scs with
  | [] => Some c
  | sc :: r => match load c sc false with Some c' => load_all c' r | None => None end
  end.

Definition chain_of (c : ctx) (k : str) : list def := match ctx_get c k with Some l => l | None => [] end.

Lemma old_members_chain_of c k : old_members c k = chain_of c k.
Proof. reflexivity. Qed.

Definition plain_script (sc : script) : bool := forallb plain_stmt (s_stmts sc).

Lemma plain_last_eff ss k : forallb plain_stmt ss = true ->
  last_eff ss k = match last_def ss k with Some d => Some (Some (VObj d)) | None => None end /\
  (forall d, last_def ss k = Some d -> d_const d = None).
Proof.
  induction ss as [|st ss IH]; intros Hp; [split; [reflexivity | discriminate]|].
  simpl in Hp. apply andb_true_iff in Hp. destruct Hp as [H1 H2]. destruct (IH H2) as [IHa IHb].
  unfold last_def in *. simpl. destruct (last_eff ss k) as [e|] eqn:El.
  - split; [exact IHa | exact IHb].
  - destruct st as [k' d|k'|k'|k'|]; simpl in *; try discriminate.
    + destruct (str_eqb k k'); [|split; [reflexivity | discriminate]].
      split; [reflexivity|]. intros d0 Hd0. injection Hd0 as <-. destruct (d_const d); [discriminate | reflexivity].
    + split; [reflexivity | discriminate].
Qed.

Lemma load_get_plain c sc ow c' k : plain_script sc = true -> load c sc ow = Some c' ->
  ctx_get c' k = match last_def (s_stmts sc) k with
                 | Some d => Some (if ow then [d] else chain_of c k ++ [d])
                 | None => ctx_get c k
                 end.
Proof.
  intros Hp H. rewrite (load_get _ _ _ _ k H), old_members_chain_of.
  destruct (plain_last_eff (s_stmts sc) k Hp) as [He Hfun]. rewrite He.
  destruct (last_def (s_stmts sc) k) as [d|]; [|reflexivity].
  rewrite (same_value_fun _ d (Hfun d eq_refl)). destruct ow; reflexivity.
Qed.

Theorem load_chain_order scs : forall c c' k,
  forallb plain_script scs = true ->
  load_all c scs = Some c' ->
  chain_of c' k = chain_of c k ++ flat_map (fun sc => match last_def (s_stmts sc) k with Some d => [d] | None => [] end) scs.
Proof.
  induction scs as [|sc scs IH]; intros c c' k Hp H; simpl in *.
  - injection H as <-. rewrite app_nil_r. reflexivity.
  - apply andb_true_iff in Hp. destruct Hp as [Hp1 Hp2].
    destruct (load c sc false) as [c1|] eqn:El; [|discriminate].
    rewrite (IH _ _ k Hp2 H). unfold chain_of at 1. rewrite (load_get_plain _ _ _ _ k Hp1 El).
    destruct (last_def (s_stmts sc) k) as [d|]; simpl.
    + rewrite <- app_assoc. reflexivity.
    + reflexivity.
Qed.

(* register_function: plain assignment of one key *)
Theorem register_get c name st d k :
  ctx_get (register c name st d) k =
  if str_eqb k (mkkey name (reg_arity st d)) then Some [d] else ctx_get c k.
Proof. unfold register. apply ctx_get_set. Qed.

Lemma params_ok_const n z : params_ok n (mkConst z) = false.
Proof. reflexivity. Qed.

(* `k = None` under overwrite: the key stays BOUND (to None): nothing to call, and the variadic
   registration of the same name is not consulted any more *)
Lemma load_none_binds_none c sc c' name n :
  load c sc true = Some c' -> last_eff (s_stmts sc) (mkkey name (AFix n)) = Some (Some VNone) ->
  ctx_get c (mkkey name (AFix n)) <> None -> resolve c' name n = Some [].
Proof.
  intros H Hl Hb. unfold resolve. rewrite (load_get _ _ _ _ _ H), Hl.
  unfold ctx_get in *. destruct (ctx_val c (mkkey name (AFix n))) as [[|d|ds]|]; simpl in *; try reflexivity; congruence.
Qed.

Theorem load_none_hides_variadic c sc c' name n :
  load c sc true = Some c' -> last_eff (s_stmts sc) (mkkey name (AFix n)) = Some (Some VNone) ->
  ctx_get c (mkkey name (AFix n)) <> None -> ctx_get c (mkkey name (AFix n)) <> Some [] ->
  resolve c' name n = Some [].
Proof. intros H Hl Hb _. exact (load_none_binds_none _ _ _ _ _ H Hl Hb). Qed.

(* `k = None` for a key that is not bound: the load does not bind it *)
Theorem load_none_unbound c sc ow c' k :
  load c sc ow = Some c' -> last_eff (s_stmts sc) k = Some (Some VNone) -> ctx_val c k = None ->
  ctx_val c' k = None.
Proof. intros H Hl Hc. rewrite (load_val _ _ _ _ k H), Hl. unfold merged. rewrite Hc. reflexivity. Qed.

Lemma dbkey_eqb_eq a b : dbkey_eqb a b = true <-> a = b.
Proof.
  destruct a as [n1 a1], b as [n2 a2]. unfold dbkey_eqb. simpl.
  rewrite andb_true_iff, str_eqb_eq, Nat.eqb_eq. split.
  - intros [-> ->]. reflexivity.
  - intros H. injection H as -> ->. auto.
Qed.

Lemma dbkey_eqb_refl a : dbkey_eqb a a = true.
Proof. apply dbkey_eqb_eq. reflexivity. Qed.

Lemma db_get_set m k v k2 :
  db_get (db_set m k v) k2 = if dbkey_eqb k2 k then v else db_get m k2.
Proof.
  induction m as [|[k' v'] m IH]; simpl.
  - reflexivity.
  - destruct (dbkey_eqb k k') eqn:E; simpl.
    + apply dbkey_eqb_eq in E. subst k'. destruct (dbkey_eqb k2 k); reflexivity.
    + rewrite IH. destruct (dbkey_eqb k2 k') eqn:E2; [|reflexivity].
      apply dbkey_eqb_eq in E2. subst k'.
      destruct (dbkey_eqb k2 k) eqn:E3; [|reflexivity].
      apply dbkey_eqb_eq in E3. subst k2. rewrite dbkey_eqb_refl in E. discriminate.
Qed.

(* assert_fact: the new fact goes to the end (append) or to the front of name/N, nothing else changes *)
Theorem assert_fact_get m name vals app k :
  db_get (assert_fact m name vals app) k =
  if dbkey_eqb k (name, length vals)
  then (if app then db_get m (name, length vals) ++ [vals] else vals :: db_get m (name, length vals))
  else db_get m k.
Proof. unfold assert_fact. apply db_get_set. Qed.

Lemma match_fact_extends vals : forall args s s',
  match_fact s args vals = Some s' -> forall x b, slookup s x = Some b -> slookup s' x = Some b.
Proof.
  induction vals as [|a vals IH]; intros args s s' H x b Hx; destruct args as [|v args]; simpl in H; try discriminate.
  - injection H as <-. exact Hx.
  - unfold unify_atom in H. destruct (slookup s v) as [c|] eqn:El.
    + destruct (str_eqb a c); [|discriminate]. exact (IH _ _ _ H x b Hx).
    + apply (IH _ _ _ H). simpl. destruct (Nat.eqb_spec x v) as [->|]; [congruence | exact Hx].
Qed.

(* all-variable query of the facts: a stored fact of matching length answers, binding the
   i-th variable to its i-th value *)
Lemma match_fact_fresh vals : forall args s,
  length args = length vals -> NoDup args -> (forall v, In v args -> slookup s v = None) ->
  exists s', match_fact s args vals = Some s' /\ map (slookup s') args = map Some vals.
Proof.
  induction vals as [|a vals IH]; intros args s Hl Hnd Hfree; destruct args as [|v args]; try discriminate.
  - exists s. split; reflexivity.
  - simpl. unfold unify_atom. rewrite (Hfree v (or_introl eq_refl)).
    apply NoDup_cons_iff in Hnd. destruct Hnd as [Hnotin Hnd'].
    destruct (IH args ((v, a) :: s)) as [s' [Hm Hs']].
    + simpl in Hl. congruence.
    + exact Hnd'.
    + intros w Hw. simpl. destruct (Nat.eqb_spec w v) as [->|Hne]; [contradiction|].
      apply Hfree. right. exact Hw.
    + exists s'. split; [exact Hm|]. rewrite Hs'. f_equal.
      eapply match_fact_extends; [exact Hm|]. simpl. rewrite Nat.eqb_refl. reflexivity.
Qed.

(* the fact answers of a call with distinct unbound variables, read through these variables,
   are exactly the stored facts of name/N in their stored order *)
Theorem fact_answers_fresh fs args s :
  Forall (fun f => length f = length args) fs -> NoDup args ->
  (forall v, In v args -> slookup s v = None) ->
  map (fun s' => map (slookup s') args) (fact_answers fs args s) = map (map Some) fs.
Proof.
  intros Hlen Hnd Hfree. induction Hlen as [|f fs Hf _ IH]; [reflexivity|].
  unfold fact_answers in *. cbn [flat_map map].
  destruct (match_fact_fresh f args s (eq_sym Hf) Hnd Hfree) as [s' [Hm Hs']].
  rewrite Hm. cbn [app map]. rewrite IH, Hs'. reflexivity.
Qed.
