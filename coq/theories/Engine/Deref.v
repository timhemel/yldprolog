(* The same dereference and unification as Term.den / Unify.unify, written so that evaluation inside
   Coq does not resolve the value of a binding that is not needed (den resolves both the value and
   the term under every binding, which doubles the work per binding under call-by-value evaluation).
   den2 = den and unify2 = unify are proved below without side conditions, so everything proved about
   Unify.unify holds for what the world model executes. *)
From Coq Require Import List Arith Bool ZArith.
Import ListNotations.
From YP Require Import Base.Str Term.Term Term.Fast Unify.Unify Unify.Fast.

Fixpoint den2 (s : store) (u : term) : term :=
  match s with
  | [] => u
  | (v, t) :: s' => let x := den2 s' u in if occurs v x then subst1 v (den2 s' t) x else x
  end.

(* den2 is Term.Fast.den_fast written out again *)
Lemma den2_den s : forall u, den2 s u = den s u.
Proof. exact (den_fast_eq s). Qed.

Fixpoint unify2 (n : nat) (s : store) (t1 t2 : term) : ures :=
  match n with O => UOof | S n =>
    let a1 := den2 s t1 in let a2 := den2 s t2 in
    match a1, a2 with
    | TVar v, TVar w => if Nat.eqb v w then UOk s else UOk ((v,a2)::s)
    | TVar v, _ => bind s v a2
    | _, TVar w => bind s w a1
    | TAtom x, TAtom y => if str_eqb x y then UOk s else UFail
    | TInt x, TInt y => if Z.eqb x y then UOk s else UFail
    | TStr x, TStr y => if str_eqb x y then UOk s else UFail
    | TFun f xs, TFun g ys =>
        if str_eqb f g then (if Nat.eqb (length xs) (length ys) then arr (unify2 n) xs ys s else UFail) else UFail
    | _, _ => UFail
    end end.

Definition unify_arrays2 (n : nat) (s : store) (xs ys : list term) : ures :=
  if Nat.eqb (length xs) (length ys) then arr (unify2 n) xs ys s else UFail.

Lemma unify2_eq n : forall s a b, unify2 n s a b = unify n s a b.
Proof. exact (unify_fast_eq n). Qed.

Lemma unify_arrays2_eq n s xs ys : unify_arrays2 n s xs ys = unify_arrays n s xs ys.
Proof. exact (unify_arrays_fast_eq n s xs ys). Qed.
