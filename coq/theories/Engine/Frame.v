(* Frame property of dereferencing and unification over the shared heap.
   P is a set of cells ("mine").  A heap is [closed] when the value of every cell of P mentions only
   cells of P.  Then dereferencing a term over P and unifying two terms over P never reads a binding of
   a cell outside P, binds only cells of P to values over P, and leaves every other binding where it
   is: running on the heap and running on the heap restricted to P give the same result. *)
From Coq Require Import List Arith Bool Lia ZArith.
Import ListNotations.
From YP Require Import Base.Str Term.Term Unify.Unify Engine.Deref.
Set Implicit Arguments.

Section Frame.
Variable P : nat -> bool.

Definition tin (t : term) : Prop := forall w, occurs w t = true -> P w = true.
Definition closed (s : store) : Prop := forall v t, In (v, t) s -> P v = true -> tin t.
Definition good (s : store) : Prop := forall v t, In (v, t) s -> P v = true /\ tin t.
Definition fP (s : store) : store := filter (fun e : nat * term => P (fst e)) s.
Definition fN (s : store) : store := filter (fun e : nat * term => negb (P (fst e))) s.

Lemma tin_fun f args : tin (TFun f args) <-> Forall tin args.
Proof.
  split.
  - intros H. apply Forall_forall. intros x Hx w Hw. apply H. simpl.
    apply existsb_exists. exists x. auto.
  - intros H w Hw. simpl in Hw. apply existsb_exists in Hw as [x [Hx Ho]].
    rewrite Forall_forall in H. exact (H x Hx w Ho).
Qed.
Lemma tin_var v : tin (TVar v) <-> P v = true.
Proof.
  split.
  - intros H. apply H. simpl. apply Nat.eqb_refl.
  - intros H w Hw. simpl in Hw. apply Nat.eqb_eq in Hw. subst. exact H.
Qed.
Lemma tin_atom a : tin (TAtom a). Proof. intros w Hw; discriminate. Qed.
Lemma tin_int a : tin (TInt a). Proof. intros w Hw; discriminate. Qed.
Lemma tin_str a : tin (TStr a). Proof. intros w Hw; discriminate. Qed.

Lemma tin_subst1 v r x : tin x -> (occurs v x = true -> tin r) -> tin (subst1 v r x).
Proof.
  intros Hx Hr. destruct (occurs v x) eqn:O.
  - intros w Hw. destruct (occurs_subst1 _ _ _ _ Hw) as [[A _]|A]; [apply Hx; exact A|apply (Hr eq_refl); exact A].
  - rewrite subst1_noocc by exact O. exact Hx.
Qed.

Lemma closed_tail e s : closed (e :: s) -> closed s.
Proof. intros C v t H. apply C. right. exact H. Qed.

Lemma den_tin s : closed s -> forall t, tin t -> tin (den s t).
Proof.
  induction s as [|[v t0] s IH]; simpl; intros C t Ht; auto.
  pose proof (closed_tail C) as C'.
  apply tin_subst1; [apply IH; auto|].
  intros O. apply IH; auto. apply (C v t0); [left; reflexivity|].
  exact (IH C' t Ht v O).
Qed.

Lemma den_filter s : closed s -> forall t, tin t -> den (fP s) t = den s t.
Proof.
  induction s as [|[v t0] s IH]; simpl; intros C t Ht; auto.
  pose proof (closed_tail C) as C'.
  destruct (P v) eqn:Pv; simpl.
  - rewrite (IH C' t Ht). rewrite (IH C' t0); auto. apply (C v t0); [left; reflexivity|exact Pv].
  - rewrite (IH C' t Ht). symmetry. apply subst1_noocc.
    destruct (occurs v (den s t)) eqn:O; auto.
    pose proof (den_tin C' Ht v O) as H. congruence.
Qed.

Lemma good_closed s : good s -> closed s.
Proof. intros G v t H _. apply (G v t H). Qed.
Lemma good_app a b : good a -> good b -> good (a ++ b).
Proof. intros A B v t H. apply in_app_or in H as [H|H]; auto. Qed.
Lemma good_nil : good []. Proof. intros v t []. Qed.
Lemma closed_app a b : closed a -> closed b -> closed (a ++ b).
Proof. intros A B v t H. apply in_app_or in H as [H|H]; eauto. Qed.
Lemma fP_app a b : fP (a ++ b) = fP a ++ fP b. Proof. apply filter_app. Qed.
Lemma fN_app a b : fN (a ++ b) = fN a ++ fN b. Proof. apply filter_app. Qed.
Lemma fP_good s : good s -> fP s = s.
Proof.
  induction s as [|[v t] s IH]; simpl; intros G; auto.
  destruct (G v t (or_introl eq_refl)) as [Pv _]. rewrite Pv. f_equal. apply IH.
  intros v' t' H. apply G. right. exact H.
Qed.
Lemma fN_good s : good s -> fN s = [].
Proof.
  induction s as [|[v t] s IH]; simpl; intros G; auto.
  destruct (G v t (or_introl eq_refl)) as [Pv _]. rewrite Pv. simpl. apply IH.
  intros v' t' H. apply G. right. exact H.
Qed.
Lemma closed_fP s : closed s -> closed (fP s).
Proof. intros C v t H. apply filter_In in H as [H _]. eauto. Qed.

Definition umap (r : ures) : ures := match r with UOk s => UOk (fP s) | x => x end.
Definition upost (s : store) (r : ures) : Prop :=
  match r with UOk s' => exists nw, s' = nw ++ s /\ good nw | _ => True end.
Definition uframe (U : store -> term -> term -> ures) : Prop :=
  forall s a b, closed s -> tin a -> tin b -> U (fP s) a b = umap (U s a b) /\ upost s (U s a b).

Lemma upost_refl s : upost s (UOk s).
Proof. exists []. split; [reflexivity|apply good_nil]. Qed.

Lemma bind_frame s v a : P v = true -> tin a ->
  bind (fP s) v a = umap (bind s v a) /\ upost s (bind s v a).
Proof.
  intros Pv Ha. unfold bind. destruct (occurs v a); simpl; [auto|].
  rewrite Pv. split; [reflexivity|]. exists [(v, a)]. split; [reflexivity|].
  intros v' t' [H|[]]. inversion H; subst. auto.
Qed.

Lemma arr_frame U : uframe U ->
  forall xs ys s, closed s -> Forall tin xs -> Forall tin ys ->
  arr U xs ys (fP s) = umap (arr U xs ys s) /\ upost s (arr U xs ys s).
Proof.
  intros HU. induction xs as [|a ar IH]; intros [|b br] s C Hx Hy; simpl;
    try (split; [reflexivity|first [exact I|apply upost_refl]]).
  pose proof (Forall_inv Hx) as H1. pose proof (Forall_inv_tail Hx) as H2.
  pose proof (Forall_inv Hy) as H3. pose proof (Forall_inv_tail Hy) as H4.
  destruct (HU s a b C H1 H3) as [E Po]. rewrite E.
  destruct (U s a b) as [s1| | |] eqn:E1; simpl; auto.
  destruct Po as [nw1 [-> G1]].
  assert (C1 : closed (nw1 ++ s)) by (apply closed_app; auto using good_closed).
  destruct (IH br _ C1 H2 H4) as [E2 Po2]. split; [exact E2|].
  destruct (arr U ar br (nw1 ++ s)) as [s2| | |]; simpl; auto.
  destruct Po2 as [nw2 [-> G2]]. exists (nw2 ++ nw1). rewrite app_assoc. split; auto using good_app.
Qed.

Lemma unify_frame n : uframe (unify n).
Proof.
  induction n as [|n IH]; intros s t1 t2 C H1 H2; [simpl; auto|].
  rewrite !unify_S, !(den_filter C) by assumption.
  pose proof (den_tin C H1) as D1. pose proof (den_tin C H2) as D2.
  remember (den s t1) as a1. remember (den s t2) as a2.
  destruct (kind_ofP a1 a2) as [a|v a|v a|a1 a2|f xs ys _].
  - split; [reflexivity|apply upost_refl].
  - apply bind_frame; auto. apply tin_var; exact D1.
  - apply bind_frame; auto. apply tin_var; exact D2.
  - split; [reflexivity|exact I].
  - apply tin_fun in D1. apply tin_fun in D2. apply arr_frame; auto.
Qed.

Lemma unify_arrays_frame n s xs ys : closed s -> Forall tin xs -> Forall tin ys ->
  unify_arrays n (fP s) xs ys = umap (unify_arrays n s xs ys) /\ upost s (unify_arrays n s xs ys).
Proof.
  intros C Hx Hy. unfold unify_arrays. destruct (Nat.eqb (length xs) (length ys)); simpl;
    [|split; [reflexivity|exact I]].
  apply arr_frame; auto using unify_frame.
Qed.

End Frame.
