(* Frame property of a suspended query (cursor): if everything the cursor holds is over its own set of
   cells P and the heap is closed for P, then resuming it on the shared heap and resuming it on the
   heap restricted to P give the same cursor, the same answer, the same access log (atoms) and the same new
   fact store (clause bodies may assert / retract); the bindings of all other cells stay exactly where they
   are.  Proved for one step of the frame machine (sstep_frame) and lifted to search / cnext.  Consequence
   (Engine/Slots.v): cursors over disjoint sets of cells influence each other through the fact store only. *)
From Coq Require Import String.
From Coq Require Import List Arith Bool Lia ZArith.
Import ListNotations.
From YP Require Import Base.Str Term.Term Unify.Unify Engine.Deref Engine.Frame Engine.Db Engine.World.
Set Implicit Arguments.

Lemma strip_app (a h : store) : strip (a ++ h) h = a.
Proof.
  unfold strip. rewrite app_length, Nat.add_sub.
  rewrite <- (Nat.add_0_r (length a)), firstn_app_2. simpl. apply app_nil_r.
Qed.

Lemma occurs_rn f v t : occurs v (rn f t) = true -> exists k, v = f k.
Proof.
  induction t as [a|z|s|w|g args IH] using term_ind'; simpl; try discriminate.
  - intros H. apply Nat.eqb_eq in H. exists w. congruence.
  - intros H. apply existsb_exists in H as [x [Hx Ho]]. apply in_map_iff in Hx as [y [<- Hy]].
    rewrite Forall_forall in IH. exact (IH y Hy Ho).
Qed.

Lemma Forall_map_all {A B} (Q : B -> Prop) (f : A -> B) l : (forall y, Q (f y)) -> Forall Q (map f l).
Proof. intros H. apply Forall_map, Forall_forall. intros y _. apply H. Qed.

Lemma filter_comm {A} (f g : A -> bool) l : filter f (filter g l) = filter g (filter f l).
Proof.
  induction l as [|x l IH]; simpl; auto.
  destruct (g x) eqn:G; destruct (f x) eqn:F; simpl; rewrite ?G, ?F, IH; auto.
Qed.
Lemma filter_filter_impl {A} (f g : A -> bool) l :
  (forall x, f x = true -> g x = true) -> filter f (filter g l) = filter f l.
Proof.
  intros H. induction l as [|x l IH]; simpl; auto.
  destruct (g x) eqn:G; simpl.
  - rewrite IH. reflexivity.
  - destruct (f x) eqn:F; auto. rewrite (H x F) in G. discriminate.
Qed.

Section CF.
Variable P : nat -> bool.

Lemma tin_rn f t : (forall k, P (f k) = true) -> tin P (rn f t).
Proof. intros Hf w Hw. destruct (occurs_rn f w t Hw) as [k ->]. apply Hf. Qed.
Lemma lin_rn f l : (forall k, P (f k) = true) -> Forall (tin P) (map (rn f) l).
Proof. intros Hf. apply Forall_map_all. intros y. apply tin_rn, Hf. Qed.

Definition gin (g : goal) : Prop := Forall (tin P) (snd g).

Inductive fgood : frame -> Prop :=
| FG1 tr cnt gs : good P tr -> Forall gin gs -> fgood (FGoals tr cnt gs)
| FG2 tr cnt args f rest : good P tr -> Forall (tin P) args -> Forall gin rest -> fgood (FFact tr cnt args f rest)
| FG3 tr cnt fn args rest : good P tr -> Forall (tin P) args -> Forall gin rest -> fgood (FFun tr cnt fn args rest)
| FG4 tr cnt args cl rest : good P tr -> Forall (tin P) args -> Forall gin rest -> fgood (FClause tr cnt args cl rest)
| FG5 tr cnt nm args f rest : good P tr -> Forall (tin P) args -> Forall gin rest -> fgood (FRet tr cnt nm args f rest)
| FG6 : fgood FBar
| FG7 tr cnt rest : good P tr -> Forall gin rest -> fgood (FNeg tr cnt rest)
| FG8 tr cnt bag acc nc rest : good P tr -> tin P bag -> Forall (tin P) acc -> Forall gin rest ->
    fgood (FColl tr cnt bag acc nc rest).

Lemma fgood_inv f : fgood f ->
  match f with
  | FGoals tr _ gs | FNeg tr _ gs => good P tr /\ Forall gin gs
  | FFact tr _ args _ gs | FFun tr _ _ args gs | FClause tr _ args _ gs | FRet tr _ _ args _ gs =>
      good P tr /\ Forall (tin P) args /\ Forall gin gs
  | FBar => True
  | FColl tr _ bag acc _ gs => good P tr /\ tin P bag /\ Forall (tin P) acc /\ Forall gin gs
  end.
Proof. intros H. destruct H; auto. Qed.

Local Hint Constructors fgood Forall : core.
Local Hint Extern 1 (gin _) => unfold gin; cbn [snd] : core.

Lemma gin_rn f l : (forall k, P (f k) = true) -> Forall gin (map (rn_goal f) l).
Proof.
  intros Hf. apply Forall_map_all. intros y. unfold gin, rn_goal. simpl. apply lin_rn; auto.
Qed.

Lemma own_heap tr h0 : good P tr -> closed P h0 -> tr ++ fP P h0 = fP P (tr ++ h0) /\ closed P (tr ++ h0).
Proof.
  intros G C. split; [rewrite fP_app, (fP_good G); reflexivity|apply closed_app; auto using good_closed].
Qed.

Definition onto (h : store) (r : ures) : ures := match r with UOk tr' => UOk (tr' ++ h) | x => x end.

Lemma ua_step tr h0 xs ys : good P tr -> closed P h0 -> Forall (tin P) xs -> Forall (tin P) ys ->
  exists r, unify_arrays2 UF (tr ++ h0) xs ys = onto h0 r
            /\ unify_arrays2 UF (tr ++ fP P h0) xs ys = onto (fP P h0) r
            /\ forall tr', r = UOk tr' -> good P tr'.
Proof.
  intros G C Hx Hy. destruct (own_heap G C) as [E0 C1]. rewrite !unify_arrays2_eq, E0.
  destruct (unify_arrays_frame UF C1 Hx Hy) as [E Po]. rewrite E.
  destruct (unify_arrays UF (tr ++ h0) xs ys) as [s'| | |]; cbn [umap].
  - destruct Po as [nw [-> Gn]]. exists (UOk (nw ++ tr)). cbn [onto].
    rewrite fP_app, (fP_good Gn), <- E0, !app_assoc. split; [reflexivity|]. split; [reflexivity|].
    intros tr' Et. injection Et as <-. apply good_app; assumption.
  - exists UFail. repeat split; discriminate.
  - exists UOof. repeat split; discriminate.
  - exists UCyc. repeat split; discriminate.
Qed.

Lemma den2_step tr h0 t : good P tr -> closed P h0 -> tin P t ->
  den2 (tr ++ fP P h0) t = den2 (tr ++ h0) t /\ tin P (den2 (tr ++ h0) t).
Proof.
  intros G C Ht. destruct (own_heap G C) as [E0 C1].
  rewrite !den2_den, E0. split; [apply den_filter; auto|apply den_tin; auto].
Qed.

Lemma callable_tin t nm fa : tin P t -> callable t = Some (nm, fa) -> Forall (tin P) fa.
Proof.
  destruct t as [a|z|q|v|g args]; simpl; intros Ht E; inversion E; subst; [constructor|].
  apply (proj1 (tin_fun P nm fa)). exact Ht.
Qed.

Lemma retract_list_frame h fr args fs : closed P h -> (forall k, P (fr k) = true) -> Forall (tin P) args ->
  retract_list (fP P h) fr args fs = retract_list h fr args fs.
Proof.
  intros C Hf Ha. induction fs as [|f r IH]; [reflexivity|].
  cbn [retract_list]. rewrite IH. rewrite !unify_arrays2_eq.
  destruct (@unify_arrays_frame P UF h args (map (rn fr) (fargs f)) C Ha (lin_rn fr (fargs f) Hf)) as [E _].
  rewrite E. destruct (unify_arrays UF h args (map (rn fr) (fargs f))); reflexivity.
Qed.

Variable fresh : nat -> nat.
Hypothesis Hfresh : forall k, P (fresh k) = true.
Variable newid : nat -> nat.

Definition kgood (r : kres) : Prop :=
  match r with
  | KGo m => Forall fgood (mfr m)
  | KAns tr m => good P tr /\ Forall fgood (mfr m)
  | _ => True
  end.
Definition mgood (x : mres) : Prop := match x with MGo fr => Forall fgood fr | MErr _ => True end.

Lemma cut_to_good p r : Forall fgood r -> Forall fgood (cut_to p r).
Proof.
  induction r as [|f r IH]; intros H; cbn [cut_to]; [constructor|].
  destruct (p f); [exact (Forall_inv_tail H)|apply IH; exact (Forall_inv_tail H)].
Qed.
Lemma collect_into_good t' r : Forall fgood r -> Forall fgood (collect_into fresh t' r).
Proof.
  induction r as [|f r IH]; intros H; cbn [collect_into]; [constructor|].
  pose proof (Forall_inv H) as Hf. pose proof (Forall_inv_tail H) as Hr.
  destruct f; try (constructor; [exact Hf|apply IH; exact Hr]).
  apply fgood_inv in Hf as [Gt [Gb [Ga Gg]]].
  constructor; [|exact Hr]. constructor; auto. apply Forall_app. split; [|exact Ga].
  apply lin_rn. intros k. apply Hfresh.
Qed.
Lemma mk_list_tin l : Forall (tin P) l -> tin P (mk_list l).
Proof.
  induction l as [|x l IH]; intros H; cbn [mk_list]; [apply tin_atom|].
  apply tin_fun. constructor; [exact (Forall_inv H)|]. constructor; [|constructor].
  apply IH. exact (Forall_inv_tail H).
Qed.

Lemma ctl_goal_frame h0 tr cnt nm args gs r : closed P h0 ->
  good P tr -> Forall (tin P) args -> Forall gin gs -> Forall fgood r ->
  ctl_goal (fP P h0) fresh tr cnt nm args gs r = ctl_goal h0 fresh tr cnt nm args gs r
  /\ match ctl_goal h0 fresh tr cnt nm args gs r with Some x => mgood x | None => True end.
Proof.
  intros C Gt Ga Gg Hr. unfold ctl_goal.
  destruct (str_eqb nm cut_mark).
  { split; [reflexivity|]. cbn [mgood]. auto using cut_to_good. }
  destruct (str_eqb nm neg_mark).
  { split; [reflexivity|]. cbn [mgood]. auto using cut_to_good. }
  destruct (str_eqb nm coll_mark); [|split; [reflexivity|exact I]].
  destruct args as [|t [|t2 args]]; try (split; [reflexivity|exact Hr]).
  destruct (den2_step Gt C (Forall_inv Ga)) as [E D]. rewrite E.
  split; [reflexivity|]. cbn [mgood]. apply collect_into_good. exact Hr.
Qed.

Lemma metastep_frame h0 b tr cnt args gs r : closed P h0 ->
  good P tr -> Forall (tin P) args -> Forall gin gs -> Forall fgood r ->
  metastep (fP P h0) b tr cnt args gs r = metastep h0 b tr cnt args gs r
  /\ mgood (metastep h0 b tr cnt args gs r).
Proof.
  intros C Gt Ga Gg Hr. unfold metastep.
  destruct b.
  - destruct args as [|x [|y [|z args]]]; try (split; [reflexivity|exact I]).
    split; [reflexivity|]. cbn [mgood]. auto 8.
  - destruct args as [|g extra]; [split; [reflexivity|exact I]|].
    destruct (den2_step Gt C (Forall_inv Ga)) as [E D]. rewrite E.
    destruct (callable (den2 (tr ++ h0) g)) as [[nm fa]|] eqn:Ec; [|split; [reflexivity|exact I]].
    assert (Forall (tin P) (fa ++ extra)).
    { apply Forall_app. split; [exact (callable_tin D Ec)|exact (Forall_inv_tail Ga)]. }
    split; [reflexivity|]. cbn [mgood]. auto 8.
  - destruct args as [|g [|g2 args]]; try (split; [reflexivity|exact I]).
    destruct (den2_step Gt C (Forall_inv Ga)) as [E D]. rewrite E.
    destruct (callable (den2 (tr ++ h0) g)) as [[nm fa]|] eqn:Ec; [|split; [reflexivity|exact I]].
    pose proof (callable_tin D Ec).
    split; [reflexivity|]. cbn [mgood]. auto 8.
  - destruct args as [|t [|g [|bag [|z args]]]]; try (split; [reflexivity|exact I]).
    apply Forall_cons_iff in Ga as [Ht Ga]. apply Forall_cons_iff in Ga as [Hg Ga]. apply Forall_cons_iff in Ga as [Hb _].
    destruct (den2_step Gt C Hg) as [E D]. rewrite E.
    destruct (callable (den2 (tr ++ h0) g)) as [[nm fa]|] eqn:Ec; [|split; [reflexivity|exact I]].
    pose proof (callable_tin D Ec).
    split; [reflexivity|]. cbn [mgood]. auto 9.
Qed.

Lemma coll_finish_frame h0 tr cnt bag acc nc gs r : closed P h0 ->
  good P tr -> tin P bag -> Forall (tin P) acc -> Forall gin gs -> Forall fgood r ->
  coll_finish (fP P h0) tr cnt bag acc nc gs r = coll_finish h0 tr cnt bag acc nc gs r
  /\ mgood (coll_finish h0 tr cnt bag acc nc gs r).
Proof.
  intros C Gt Gb Ga Gg Hr. unfold coll_finish.
  assert (Hx : Forall (tin P) [bag]) by (constructor; auto).
  assert (Hy : Forall (tin P) [mk_list (rev acc)]).
  { constructor; [|constructor]. apply mk_list_tin. apply Forall_rev. exact Ga. }
  destruct (ua_step Gt C Hx Hy) as [u [-> [-> Gu]]].
  destruct u as [tr'| | |]; cbn [onto]; rewrite ?strip_app; (split; [reflexivity|]); cbn [mgood]; auto.
Qed.

Lemma lift_m_frame m x y : x = y -> mgood y -> lift_m m x = lift_m m y /\ kgood (lift_m m y).
Proof. intros -> G. split; [reflexivity|]. destruct y; simpl; auto. Qed.


Lemma dbstep_frame h0 m b tr cnt t gs r : closed P h0 ->
  good P tr -> tin P t -> Forall gin gs -> Forall fgood r ->
  dbstep (fP P h0) fresh newid m b tr cnt t gs r = dbstep h0 fresh newid m b tr cnt t gs r
  /\ kgood (dbstep h0 fresh newid m b tr cnt t gs r).
Proof.
  intros C Gt Ht Gg Hr. unfold dbstep.
  destruct (den2_step Gt C Ht) as [E D]. rewrite E.
  destruct b as [app| |].
  - destruct (callable (den2 (tr ++ h0) t)) as [[nm fa]|]; cbn [kgood mfr]; auto.
  - destruct (callable (den2 (tr ++ h0) t)) as [[nm fa]|] eqn:Ec; cbn [kgood mfr]; auto.
    pose proof (callable_tin D Ec).
    split; [reflexivity|]. apply Forall_app. split; auto.
    apply Forall_map_all. auto.
  - destruct (callable (den2 (tr ++ h0) t)) as [[nm fa]|] eqn:Ec; cbn [kgood mfr]; auto.
    destruct (own_heap Gt C) as [E0 C1].
    rewrite E0, retract_list_frame; auto; [|eapply callable_tin; eauto].
    destruct (retract_list (tr ++ h0) (fun i => fresh (cnt + i)) fa (find_facts (mdb m) nm (length fa)));
      cbn [kgood mfr]; auto.
Qed.

Lemma sstep_frame h0 m : closed P h0 -> Forall fgood (mfr m) ->
  sstep (fP P h0) fresh newid m = sstep h0 fresh newid m /\ kgood (sstep h0 fresh newid m).
Proof.
  intros C Hfr. unfold sstep. destruct (mfr m) as [|f r]; [simpl; auto|].
  pose proof (Forall_inv Hfr) as Hf. pose proof (Forall_inv_tail Hfr) as Hr.
  destruct f as [tr cnt gs|tr cnt args f gs|tr cnt fn args gs|tr cnt args cl gs|tr cnt nm args f gs| |tr cnt gs
                 |tr cnt bag acc nc gs];
    apply fgood_inv in Hf.
  - destruct Hf as [Gt Gg]. destruct gs as [|[nm args] gs]; [simpl; auto|].
    apply Forall_cons_iff in Gg as [Ga Gg]. unfold gin in Ga. cbn [snd] in Ga.
    destruct (@ctl_goal_frame h0 tr cnt nm args gs r C Gt Ga Gg Hr) as [E G].
    rewrite E. destruct (ctl_goal h0 fresh tr cnt nm args gs r) as [x|].
    { apply lift_m_frame; auto. }
    split; [reflexivity|]. cbn [kgood mfr]. apply Forall_app. split; [|auto].
    apply Forall_map_all. auto.
  - destruct Hf as [Gt [Ga Gg]].
    destruct (ua_step Gt C Ga (lin_rn (fun i => fresh (cnt + i)) f (fun k => Hfresh _))) as [u [-> [-> Gu]]].
    destruct u as [tr'| | |]; cbn [onto]; rewrite ?strip_app; simpl; auto.
  - destruct Hf as [Gt [Ga Gg]]. destruct fn as [ds|]; [|simpl; auto].
    destruct (meta_builtin ds) as [mb|].
    { destruct (@metastep_frame h0 mb tr cnt args gs r C Gt Ga Gg Hr) as [E G]. apply lift_m_frame; auto. }
    destruct (db_builtin ds) as [b|].
    + destruct args as [|t [|t2 args]]; [simpl; auto| |simpl; auto].
      apply dbstep_frame; auto. exact (Forall_inv Ga).
    + destruct (clauses_of ds) as [cls|]; [|simpl; auto].
      split; [reflexivity|]. cbn [kgood mfr]. apply Forall_app. split; auto.
      apply Forall_map_all. auto.
  - destruct Hf as [Gt [Ga Gg]].
    destruct (ua_step Gt C Ga (lin_rn (fun i => fresh (cnt + i)) (fst cl) (fun k => Hfresh _))) as [u [E1 [E2 Gu]]].
    cbn [rn_clause fst snd]. rewrite E1, E2.
    destruct u as [tr'| | |]; cbn [onto]; rewrite ?strip_app; [|simpl; auto..].
    split; [reflexivity|]. cbn [kgood mfr]. constructor; auto. constructor; auto.
    apply Forall_app. split; auto using gin_rn.
  - destruct Hf as [Gt [Ga Gg]].
    destruct (ua_step Gt C Ga (lin_rn (fun i => fresh (cnt + i)) (fargs f) (fun k => Hfresh _))) as [u [-> [-> Gu]]].
    destruct u as [tr'| | |]; cbn [onto]; rewrite ?strip_app; [|simpl; auto..].
    split; [reflexivity|].
    destruct (has_id (fid f) (find_facts (mdb m) nm (length args))); cbn [kgood mfr]; auto.
  - apply lift_m_frame; [reflexivity|exact Hr].
  - destruct Hf as [Gt Gg]. apply lift_m_frame; [reflexivity|]. cbn [mgood]. auto.
  - destruct Hf as [Gt [Gb [Ga Gg]]].
    destruct (coll_finish_frame cnt nc C Gt Gb Ga Gg Hr) as [E G]. apply lift_m_frame; auto.
Qed.

Definition sgood (r : sres) : Prop :=
  match r with SAns tr m => good P tr /\ Forall fgood (mfr m) | _ => True end.

Lemma search_frame h0 : closed P h0 -> forall fuel m, Forall fgood (mfr m) ->
  search fuel (fP P h0) fresh newid m = search fuel h0 fresh newid m
  /\ sgood (search fuel h0 fresh newid m).
Proof.
  intros C. induction fuel as [|fuel IH]; intros m Hfr; [simpl; auto|].
  cbn [search]. destruct (sstep_frame m C Hfr) as [E G]. rewrite E.
  destruct (sstep h0 fresh newid m) as [m'|tr m'| |k m']; cbn [kgood] in G; simpl; auto.
Qed.

End CF.

Section CN.
Variable P : nat -> bool.
Variable fresh : nat -> nat.
Hypothesis Hfresh : forall k, P (fresh k) = true.

Definition cgood (c : cursor) : Prop :=
  Forall (tin P) (cargs c) /\ Forall (fgood P) (cfr c) /\ good P (ctrail c).
(* every binding of h' was already in h or binds a cell of P *)
Definition newP (h h' : store) : Prop := forall v t, In (v, t) h' -> In (v, t) h \/ P v = true.

Lemma unbind_fP tr h : unbind tr (fP P h) = fP P (unbind tr h).
Proof. unfold unbind, fP. apply filter_comm. Qed.
Lemma unbind_in tr h v t : In (v, t) (unbind tr h) -> In (v, t) h.
Proof. unfold unbind. intros H. apply filter_In in H. tauto. Qed.
Lemma unbind_closed tr h : closed P h -> closed P (unbind tr h).
Proof. intros C v t H. apply (C v t). eapply unbind_in; eauto. Qed.
Lemma good_notin tr v : good P tr -> P v = false -> existsb (Nat.eqb v) (map fst tr) = false.
Proof.
  intros G Pv. induction tr as [|[w t] tr IH]; simpl; auto.
  destruct (G w t (or_introl eq_refl)) as [Pw _].
  destruct (Nat.eqb_spec v w) as [->|N]; [congruence|]. simpl. apply IH.
  intros v' t' H. apply G. right. exact H.
Qed.
Lemma unbind_fN tr h : good P tr -> fN P (unbind tr h) = fN P h.
Proof.
  intros G. unfold unbind, fN. apply filter_filter_impl.
  intros [v t] H. simpl in *. apply negb_true_iff in H. rewrite (good_notin G H). reflexivity.
Qed.

Record framed (h : store) (c : cursor) (h' : store) (c' : cursor) : Prop := mkframed {
  fr_rest : fN P h' = fN P h;
  fr_good : cgood c';
  fr_closed : closed P h';
  fr_new : newP h h';
  fr_own : cown c' = cown c }.

Lemma newP_refl h : newP h h.
Proof. intros v t H. left. exact H. Qed.
Lemma newP_trans h1 h2 h3 : newP h1 h2 -> newP h2 h3 -> newP h1 h3.
Proof. intros A B v t H. destruct (B v t H) as [H'|H']; auto. Qed.

Lemma framed_refl h c : closed P h -> cgood c -> framed h c h c.
Proof. intros C G. split; [reflexivity|exact G|exact C|apply newP_refl|reflexivity]. Qed.
Lemma framed_trans h c h1 c1 h2 c2 : framed h c h1 c1 -> framed h1 c1 h2 c2 -> framed h c h2 c2.
Proof.
  intros [E1 _ _ N1 O1] [E2 G2 C2 N2 O2].
  split; [congruence|exact G2|exact C2|eapply newP_trans; eauto|congruence].
Qed.
Lemma framed_unbind h c nf : closed P h -> cgood c ->
  framed h c (unbind (ctrail c) h) (mkcur (cown c) (cargs c) [] [] nf).
Proof.
  intros C [Ga [_ Gt]]. split; [apply unbind_fN; exact Gt| |apply unbind_closed; exact C| |reflexivity].
  - split; [exact Ga|split; [constructor|apply good_nil]].
  - intros v t H. left. eapply unbind_in; eauto.
Qed.

Lemma cnext_frame fuel d h c c' h' r lg d' : closed P h -> cgood c ->
  cnext fuel d fresh h c = (c', h', r, lg, d') ->
  cnext fuel d fresh (fP P h) c = (c', fP P h', r, lg, d') /\ framed h c h' c'.
Proof.
  intros C G. pose proof G as [Ga [Gf Gt]]. unfold cnext. rewrite unbind_fP.
  pose proof (unbind_closed (ctrail c) C) as C0.
  destruct (@search_frame P fresh Hfresh (qfid (cown c)) _ C0 fuel (mkms d (cnf c) (cfr c) []) Gf) as [E S]. rewrite E.
  destruct (search fuel (unbind (ctrail c) h) fresh (qfid (cown c)) (mkms d (cnf c) (cfr c) [])) as [tr m|m|k m]; simpl in S;
    intros Q; inversion Q; subst; clear Q.
  - destruct S as [Gtr Gfr].
    assert (E1 : fP P (tr ++ unbind (ctrail c) h) = tr ++ fP P (unbind (ctrail c) h))
      by (rewrite fP_app, (fP_good Gtr); reflexivity).
    assert (Em : map (den2 (tr ++ fP P (unbind (ctrail c) h))) (cargs c)
                 = map (den2 (tr ++ unbind (ctrail c) h)) (cargs c)).
    { apply map_ext_in. intros a Ha. rewrite !den2_den, <- E1.
      apply den_filter; [apply closed_app; auto using good_closed|]. rewrite Forall_forall in Ga. auto. }
    split; [simpl; rewrite Em, E1; reflexivity|].
    pose proof (framed_unbind (mnf m) C G) as F0.
    split; [rewrite fN_app, (fN_good Gtr); exact (fr_rest F0)| |apply closed_app; auto using good_closed| |reflexivity].
    + split; [exact Ga|split; [exact Gfr|exact Gtr]].
    + intros v0 t0 Hi. apply in_app_or in Hi as [Hi|Hi]; [right; exact (proj1 (Gtr _ _ Hi))|exact (fr_new F0 _ _ Hi)].
  - split; [reflexivity|]. apply framed_unbind; assumption.
  - split; [reflexivity|]. apply framed_refl; assumption.
Qed.

Lemma cclose_frame h c : closed P h -> cgood c ->
  cclose (fP P h) c = (fst (cclose h c), fP P (snd (cclose h c))) /\ framed h c (snd (cclose h c)) (fst (cclose h c)).
Proof.
  intros C G. unfold cclose. cbn [fst snd]. rewrite unbind_fP. split; [reflexivity|]. apply framed_unbind; assumption.
Qed.

End CN.

Lemma family_step (PP : nat -> nat -> bool) i h h' :
  (forall j j' v, j <> j' -> PP j v = true -> PP j' v = false) ->
  (forall j, closed (PP j) h) -> closed (PP i) h' -> newP (PP i) h h' -> fN (PP i) h' = fN (PP i) h ->
  (forall j, closed (PP j) h') /\ (forall j, j <> i -> fP (PP j) h' = fP (PP j) h).
Proof.
  intros D C Ci Nw EN. split.
  - intros j. destruct (Nat.eq_dec j i) as [->|Nj]; [exact Ci|].
    intros v t H Pv. destruct (Nw v t H) as [H'|H']; [exact (C j v t H' Pv)|].
    rewrite (D i j v (not_eq_sym Nj) H') in Pv. discriminate.
  - intros j Nj. unfold fP, fN in *.
    assert (I : forall x : nat * term, PP j (fst x) = true -> negb (PP i (fst x)) = true).
    { intros x Hx. rewrite (D j i _ Nj Hx). reflexivity. }
    rewrite <- (filter_filter_impl _ _ h' I), EN. apply filter_filter_impl. exact I.
Qed.
