(* C04, one engine, a dynamic fact WITH a shared variable and three generators on it whose lifetimes do not nest:
   non-vacuity of SlotsReach.disjoint_queries_alone on the schedule class
       q0 starts and is suspended on the fact; q1 starts and is suspended on the same fact; q0 is closed FIRST;
       q2 is started while q1 is still suspended; q2's pattern clashes with q1's binding of the fact's variable.
   An implementation that shared the renamed copy of the fact between q1 and q2 would lose q2's answer. *)
From Coq Require Import String.
From Coq Require Import List Arith Bool Lia ZArith Cantor.
Import ListNotations.
From YP Require Import Base.Str Term.Term Term.Show Unify.Unify Engine.Deref Engine.Frame Engine.Db Engine.World Engine.CursorFrame
  Engine.Isolation Engine.Footprint Engine.Slots Engine.SlotsReach Engine.IsolationExamples Engine.SlotsExamples.
Local Open Scope string_scope.

(* p(X, X).    g0 = query p(V0, a); next g0; g1 = query p(V1, b); next g1; close g0; g2 = query p(V2, c) *)
Definition nprep : list op :=
  [ OAssert true xp [TVar 9; TVar 9];
    OStart 0 xp [TVar 0; xA "a"]; ONext 0;
    OStart 1 xp [TVar 1; xA "b"]; ONext 1;
    OClose 0;
    OStart 2 xp [TVar 2; xA "c"] ].
Definition ne : engine := fst (fst (erun 1 0 50 nprep init_engine [])).
Definition nh : store := snd (fst (erun 1 0 50 nprep init_engine [])).
(* the new generator runs to its end while g1 is suspended, then g1 goes on, then the new one is asked again *)
Definition nops : list op := [ONext 2; ONext 1; ONext 2; ONext 1].

Definition xans2 (s t : string) : obs := otag "ans" [term_obs (xA s); term_obs (xA t)].

Lemma ex_hist_ok_n : hist_ok 1 0 50 nprep init_engine [].
Proof. apply hist_okb_ok. vm_compute. reflexivity. Qed.

(* after the history g1 is suspended on its answer (its bindings are in the heap: V1 and the fact's variable), g0 is closed,
   g2 has not run yet; then: g2 answers V2 = c (NOT nothing, NOT b) and ends; g1 ends; no step writes the fact store; and
   the observations of g2 are those of the run in which only g2 is advanced *)
Lemma ex_nonlifo :
  hist_ok 1 0 50 nprep init_engine [] /\ Forall qop nops /\ nowrite 1 0 50 nops ne nh
  /\ snd (erun 1 0 50 nprep init_engine [])
     = [otag "ok" []; otag "started" []; xans2 "a" "a"; otag "started" []; xans2 "b" "b"; otag "closed" []; otag "started" []]
  /\ length nh = 2
  /\ pick 2 nops (snd (erun 1 0 50 nops ne nh)) = [xans2 "c" "c"; otag "done" []]
  /\ pick 1 nops (snd (erun 1 0 50 nops ne nh)) = [otag "done" []; otag "done" []]
  /\ pick 2 nops (snd (erun 1 0 50 nops ne nh))
     = snd (erun 1 0 50 (filter (is_slot 2) nops) ne (fP (PQ_of 1 0 ne 2) nh)).
Proof.
  assert (Q : Forall qop nops) by (repeat constructor; discriminate).
  assert (NW : nowrite 1 0 50 nops ne nh) by (apply nowriteb_ok; vm_compute; reflexivity).
  split; [exact ex_hist_ok_n|]. split; [exact Q|]. split; [exact NW|].
  split; [vm_compute; reflexivity|]. split; [vm_compute; reflexivity|].
  split; [vm_compute; reflexivity|]. split; [vm_compute; reflexivity|].
  exact (disjoint_queries_alone 1 0 (Nat.lt_0_1) 50 nprep nops ne nh _ 2 ex_hist_ok_n (erun_eta _ _ _ _ _ _) Q NW).
Qed.

(* n(z). n(s(X)) :- n(X).  c(a).   g0 = n(V0) advanced to its 3rd answer (two calls deep), g1 = n(V1) to its 2nd, g2 = n(V2)
   to its 3rd - all three suspended inside the recursion at the same time; g0 (the oldest) is closed; then the probe
   g3 = c(V3) is started.  Then: next g3; next g1; next g3; next g2. *)
Definition xn := of_string "n".
Definition xc := of_string "c".
Definition xS (t : term) : term := TFun (of_string "s") [t].
Definition dscript : list (str * nat * list clause) :=
  [ (xn, 1, [ ([xA "z"], []); ([xS (TVar 0)], [(xn, [TVar 0])]) ]) ].
Definition dprep : list op :=
  [ OAssert true xc [xA "a"]; OLoad true dscript;
    OStart 0 xn [TVar 0]; ONext 0; ONext 0; ONext 0;
    OStart 1 xn [TVar 1]; ONext 1; ONext 1;
    OStart 2 xn [TVar 2]; ONext 2; ONext 0; ONext 2; ONext 2;
    OClose 0;
    OStart 3 xc [TVar 3] ].
Definition de : engine := fst (fst (erun 1 0 80 dprep init_engine [])).
Definition dh : store := snd (fst (erun 1 0 80 dprep init_engine [])).
Definition dops : list op := [ONext 3; ONext 1; ONext 3; ONext 2].
Definition xobs1 (t : term) : obs := otag "ans" [term_obs t].

Lemma ex_hist_ok_d : hist_ok 1 0 80 dprep init_engine [].
Proof. apply hist_okb_ok. vm_compute. reflexivity. Qed.

Lemma ex_deep :
  hist_ok 1 0 80 dprep init_engine [] /\ Forall qop dops /\ nowrite 1 0 80 dops de dh
  /\ pick 3 dops (snd (erun 1 0 80 dops de dh)) = [xans "a"; otag "done" []]
  /\ pick 1 dops (snd (erun 1 0 80 dops de dh)) = [xobs1 (xS (xS (xA "z")))]
  /\ pick 2 dops (snd (erun 1 0 80 dops de dh)) = [xobs1 (xS (xS (xS (xA "z"))))]
  /\ 4 <= length dh
  /\ pick 3 dops (snd (erun 1 0 80 dops de dh))
     = snd (erun 1 0 80 (filter (is_slot 3) dops) de (fP (PQ_of 1 0 de 3) dh))
  /\ pick 1 dops (snd (erun 1 0 80 dops de dh))
     = snd (erun 1 0 80 (filter (is_slot 1) dops) de (fP (PQ_of 1 0 de 1) dh)).
Proof.
  assert (Q : Forall qop dops) by (repeat constructor; discriminate).
  assert (NW : nowrite 1 0 80 dops de dh) by (apply nowriteb_ok; vm_compute; reflexivity).
  assert (A : forall q, pick q dops (snd (erun 1 0 80 dops de dh))
                        = snd (erun 1 0 80 (filter (is_slot q) dops) de (fP (PQ_of 1 0 de q) dh))).
  { intros q. exact (disjoint_queries_alone 1 0 Nat.lt_0_1 80 dprep dops de dh _ q ex_hist_ok_d (erun_eta _ _ _ _ _ _) Q NW). }
  split; [exact ex_hist_ok_d|]. split; [exact Q|]. split; [exact NW|].
  split; [vm_compute; reflexivity|]. split; [vm_compute; reflexivity|]. split; [vm_compute; reflexivity|].
  split; [vm_compute; repeat constructor|].
  split; [exact (A 3)|exact (A 1)].
Qed.
