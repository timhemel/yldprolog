(* Several engine instances and ONE shared heap of variable cells (engine.py: class YP, class Variable).

   Per instance (YP.__init__, _set_default_eval_context, clear): the atom table _atom_store, the fact
   store _predicates_store : (name, arity) -> list of Answer, eval_context : '<name>_<arity>' / '<name>_n'
   -> function (here: the chain of definitions that chain_functions builds), eval_blacklist (reserved
   names).  Variables are NOT per instance: a Variable is a mutable cell; the heap below is the list of
   the cells that are bound right now with their values, newest binding first.  A suspended query
   generator is a cursor: a stack of frames (what is still to be tried, depth first), the bindings its
   current answer has made (they are in the heap while it is suspended, and are taken out again when it
   is resumed or closed: the try/finally of Variable.unify), and its allocation counter.

   What is followed literally: YP.query (the definition is looked up when the call starts, not when the facts are exhausted): when the goal is reached (first
   resumption of the call) the blacklist test and the lookup in eval_context under '<name>_<arity>', else
   '<name>_n', are done and atom(name) and the facts of (name, arity) are taken as they are AT THAT MOMENT
   (copy-on-write lists: a snapshot); the facts are matched first, then the function found at the start is run,
   whatever was loaded / registered / cleared in between; Answer.match = unify_arrays of the goal arguments with a copy of the fact that has new
   variables; a compiled function tries its clauses in order; dereferencing goes through the whole
   shared heap (Unify.unify on  own bindings ++ everything else that is bound; written unify_arrays2 / den2,
   which are proved equal to Unify.unify_arrays / Term.den in Engine/Deref.v and evaluate faster).
   The database builtins asserta/1, assertz/1, retract/1, retractall/1 are run as the code runs them (YP.asserta,
   assertz, retract, retractall after the repairs D3-D5, D14, D15; the same algorithm as Engine/DbProg.v, whose
   definitions fact / ins / has_id / del_id / callable of Engine/Db.v are reused): the argument is dereferenced; a compound
   term gives (name, args), an atom (name, []), anything else stores nothing (assert: succeeds; retract(all): fails);
   the stored arguments are a fully dereferenced copy with variables of its own (Answer.__init__ = copy_term; canonical
   variables 0..k-1 here, renamed at every match); every update builds a new list and publishes it under the key
   (copy-on-write: the lists held by frames of suspended calls are snapshots); an Answer object has an identity
   (fid); retract walks the snapshot taken when it was called and, for every fact that matches, removes THAT object
   from the list that is current then, if it is still there, and runs the rest of the body with the bindings of the
   match; retractall is one pass.  Database writes are never undone by backtracking: the fact store and the counter
   of the facts created by the generator are threaded through the search in execution order.  Every read and write of
   the fact store is entered in a log (key read / written), from which the atoms the code interns are taken and in
   which the footprint of a generator step can be read off (Engine/Footprint.v, Engine/Slots.v).
   What is abstracted: a compiled clause is (head arguments, list of goals) - conjunctions of calls
   only, head unification done with unify_arrays on a renamed copy (the compiler's aliasing of head
   variables is C01's business); the atoms a clause body creates while running are not entered into
   the atom table (not observable: atom() is idempotent until clear); a new cell gets the name
   (engine, number of the query, counter) and a new Answer the identity (number of the query, counter), so that
   allocation does not depend on the schedule; a definition chained (overwrite=False) onto one of the four database
   builtins is outside the model (error 3). *)
From Coq Require Import String.
From Coq Require Import List Arith Bool Lia ZArith NArith Cantor.
Import ListNotations.
From YP Require Import Base.Str Term.Term Term.Show Unify.Unify Engine.Deref Engine.Db.
Local Open Scope string_scope.
Local Open Scope list_scope.

(* ---------------------------------------------------------------- cells *)
(* In a world of n engines the cell number  m * n + e  belongs to engine e; m is the Cantor code of
   (0, u) for the u-th variable the user of that engine created, and of (S c, k) for the k-th
   variable allocated by the c-th query/update the engine started. *)
Definition cell (n e m : nat) : nat := m * n + e.
Definition eng_of (n v : nat) : nat := v mod n.
Definition owner (n v : nat) : nat := fst (Cantor.of_nat (v / n)).
Definition ucell (n e u : nat) : nat := cell n e (Cantor.to_nat (0, u)).
Definition ccell (n e c k : nat) : nat := cell n e (Cantor.to_nat (S c, k)).

Lemma eng_of_cell n e m : e < n -> eng_of n (cell n e m) = e.
Proof.
  intros H. unfold eng_of, cell. rewrite Nat.add_comm, Nat.mod_add by lia. apply Nat.mod_small; exact H.
Qed.
Lemma cell_div n e m : e < n -> cell n e m / n = m.
Proof.
  intros H. unfold cell. rewrite Nat.div_add_l by lia. rewrite (Nat.div_small e n H). apply Nat.add_0_r.
Qed.
Lemma owner_ucell n e u : e < n -> owner n (ucell n e u) = 0.
Proof. intros H. unfold owner, ucell. rewrite (cell_div _ _ _ H), Cantor.cancel_of_to. reflexivity. Qed.
Lemma owner_ccell n e c k : e < n -> owner n (ccell n e c k) = S c.
Proof. intros H. unfold owner, ccell. rewrite (cell_div _ _ _ H), Cantor.cancel_of_to. reflexivity. Qed.

(* ---------------------------------------------------------------- terms: renaming, canonical copies *)
Fixpoint rn (f : nat -> nat) (t : term) : term :=
  match t with
  | TVar v => TVar (f v)
  | TFun g args => TFun g (map (rn f) args)
  | _ => t
  end.

(* 1 + the largest variable index (facts and clauses are kept with variables 0..k-1) *)
Fixpoint tmax (t : term) : nat :=
  match t with
  | TVar v => S v
  | TFun _ args => fold_right Nat.max 0 (map tmax args)
  | _ => 0
  end.
Definition lmax (l : list term) : nat := fold_right Nat.max 0 (map tmax l).

Fixpoint index_of (v : nat) (m : list nat) : option nat :=
  match m with
  | [] => None
  | w :: r => if Nat.eqb v w then Some 0 else option_map S (index_of v r)
  end.

(* copy_term with a mapping: variables renamed 0,1,.. in order of first occurrence *)
Fixpoint canon_t (m : list nat) (t : term) : list nat * term :=
  match t with
  | TVar v => match index_of v m with
              | Some i => (m, TVar i)
              | None => (m ++ [v], TVar (length m))
              end
  | TFun f args =>
      let '(m', args') :=
        (fix go (m : list nat) (l : list term) : list nat * list term :=
           match l with
           | [] => (m, [])
           | x :: r => let '(m1, x') := canon_t m x in
                       let '(m2, r') := go m1 r in (m2, x' :: r')
           end) m args in
      (m', TFun f args')
  | _ => (m, t)
  end.
Fixpoint canon_l (m : list nat) (l : list term) : list nat * list term :=
  match l with
  | [] => (m, [])
  | x :: r => let '(m1, x') := canon_t m x in
              let '(m2, r') := canon_l m1 r in (m2, x' :: r')
  end.
Definition canon (l : list term) : list term := snd (canon_l [] l).

(* ---------------------------------------------------------------- per-engine dictionaries *)
Definition goal := (str * list term)%type.
Definition clause := (list term * list goal)%type.           (* head arguments, body goals *)
Inductive dbop := BAssert (append : bool) | BRetract | BRetractAll.
Inductive metaop := MNeq | MCall | MOnce | MFindall.    (* builtin_neq, YP.call, YP.once, YP.findall *)
Inductive defn := DClauses (cls : list clause) | DDb (b : dbop) | DMeta (b : metaop) | DOther.  (* DOther: a definition the model does not run *)

Definition gmax (g : goal) : nat := lmax (snd g).
Definition clmax (c : clause) : nat := Nat.max (lmax (fst c)) (fold_right Nat.max 0 (map gmax (snd c))).
Definition rn_goal (f : nat -> nat) (g : goal) : goal := (fst g, map (rn f) (snd g)).
Definition rn_clause (f : nat -> nat) (c : clause) : clause := (map (rn f) (fst c), map (rn_goal f) (snd c)).

Definition fkey := (str * nat)%type.
Definition fkey_eqb (a b : fkey) : bool := str_eqb (fst a) (fst b) && Nat.eqb (snd a) (snd b).

Section Assoc.
  Context {K V : Type} (eqb : K -> K -> bool).
  Fixpoint aget (k : K) (l : list (K * V)) : option V :=
    match l with [] => None | (k', v) :: r => if eqb k k' then Some v else aget k r end.
  Fixpoint aset (k : K) (v : V) (l : list (K * V)) : list (K * V) :=
    match l with
    | [] => [(k, v)]
    | (k', v') :: r => if eqb k k' then (k, v) :: r else (k', v') :: aset k v r
    end.
  Lemma aget_aset (spec : forall a b, reflect (a = b) (eqb a b)) k k' v l :
    aget k' (aset k v l) = if eqb k' k then Some v else aget k' l.
  Proof.
    induction l as [|[k2 v2] l IH]; cbn [aset aget]; [reflexivity|].
    destruct (spec k k2) as [->|N]; cbn [aget].
    - destruct (spec k' k2); reflexivity.
    - rewrite IH. destruct (spec k' k2) as [->|N2]; [|reflexivity].
      destruct (spec k2 k); [congruence|reflexivity].
  Qed.
End Assoc.

Record db := mkdb {
  facts : list (fkey * list fact);            (* _predicates_store; Db.fact = (identity of the Answer object, stored arguments) *)
  ctx : list (str * list defn);               (* eval_context: key -> chain of definitions *)
  reserved : list str;                        (* eval_blacklist *)
  nfid : nat }.                               (* Answer objects created by the caller's own assert operations so far *)

(* identities of Answer objects: (0, k) the k-th fact asserted by an operation of the caller, (S c, k) the k-th
   fact asserted by the c-th query the engine started *)
Definition ufid (k : nat) : nat := Cantor.to_nat (0, k).
Definition qfid (c k : nat) : nat := Cantor.to_nat (S c, k).

Definition key_fixed (nm : str) (ar : nat) : str := nm ++ 95%N :: dec_of_nat ar.
Definition key_var (nm : str) : str := nm ++ [95%N; 110%N].
Definition ctx_key (nm : str) (ar : option nat) : str :=
  match ar with Some k => key_fixed nm k | None => key_var nm end.

Definition find_facts (d : db) (nm : str) (ar : nat) : list fact :=
  match aget fkey_eqb (nm, ar) (facts d) with Some l => l | None => [] end.
(* _update_predicate: publish a new list under the key *)
Definition set_facts (k : fkey) (l : list fact) (d : db) : db :=
  mkdb (aset fkey_eqb k l (facts d)) (ctx d) (reserved d) (nfid d).

(* YP.query, second half *)
Definition find_function (d : db) (nm : str) (ar : nat) : option (list defn) :=
  if existsb (str_eqb nm) (reserved d) then None
  else match aget str_eqb (key_fixed nm ar) (ctx d) with
       | Some f => Some f
       | None => aget str_eqb (key_var nm) (ctx d)
       end.

Definition reserved_names : list str :=
  map of_string ["__builtins__"; "variable"; "atom"; "functor"; "functor1"; "functor2"; "functor3";
                 "listpair"; "makelist"; "ATOM_NIL"; "unify"; "match_dynamic"; "query"; "True"; "False"].

(* _set_builtin_predicates: '=' is  X = X ; the four database builtins; the others are outside this model *)
Definition builtin_ctx : list (str * list defn) :=
  [ (key_fixed (of_string "=") 2, [DClauses [ ([TVar 0; TVar 0], []) ] ]);
    (key_fixed [92%N; 61%N] 2, [DMeta MNeq]);
    (key_fixed (of_string "findall") 3, [DMeta MFindall]);
    (key_var (of_string "call"), [DMeta MCall]);
    (key_fixed (of_string "once") 1, [DMeta MOnce]);
    (key_fixed (of_string "assertz") 1, [DDb (BAssert true)]);
    (key_fixed (of_string "asserta") 1, [DDb (BAssert false)]);
    (key_fixed (of_string "retract") 1, [DDb BRetract]);
    (key_fixed (of_string "retractall") 1, [DDb BRetractAll]) ].

(* ---------------------------------------------------------------- cursors = suspended query generators *)
Inductive frame :=      (* tr: the bindings this query has made on the path to the frame; cnt: cells in use there *)
| FGoals (tr : store) (cnt : nat) (gs : list goal)                                     (* continue with these goals *)
| FFact (tr : store) (cnt : nat) (args : list term) (f : list term) (rest : list goal) (* next clause of a fact snapshot *)
| FFun (tr : store) (cnt : nat) (fn : option (list defn)) (args : list term) (rest : list goal) (* after the facts: the function that was looked up when the call started *)
| FClause (tr : store) (cnt : nat) (args : list term) (cl : clause) (rest : list goal) (* next clause of a called function *)
| FRet (tr : store) (cnt : nat) (nm : str) (args : list term) (f : fact) (rest : list goal) (* YP.retract: next Answer of its snapshot *)
| FBar                                                   (* YP.once: everything above belongs to the goal of the once *)
| FNeg (tr : store) (cnt : nat) (rest : list goal)       (* builtin_neq: reached when  query('=', [X, Y])  had no solution *)
| FColl (tr : store) (cnt : nat) (bag : term) (acc : list term) (nc : nat) (rest : list goal).
   (* YP.findall: reached when the goal is exhausted; acc = the copies of the template made so far (newest first), nc = the
      cells these copies use: the i-th new variable of the next copy is cell  fresh (cnt + nc + i)  of this generator *)

Record cursor := mkcur {
  cown : nat;             (* number of the query: names the cells it allocates and the facts it asserts *)
  cargs : list term;      (* the argument terms of the query: the answer is read from them *)
  cfr : list frame;       (* what is still to be tried; [] = finished or closed *)
  ctrail : store;         (* the bindings of the current answer (they are in the heap) *)
  cnf : nat }.            (* facts asserted by this generator so far *)

(* the log of a generator step: every access to the fact store.  ewr: the list under the key was replaced;
   eint: the code calls self.atom(name) at this point (the atom is interned) *)
Record ev := mkev { ewr : bool; eint : bool; ekey : fkey }.
Definition names_of (lg : list ev) : list str := map (fun e => fst (ekey e)) (filter eint lg).

(* what the search threads through in execution order: fact store, number of facts created, stack, log *)
Record mstate := mkms { mdb : db; mnf : nat; mfr : list frame; mlog : list ev }.

Inductive sres :=
| SAns (tr : store) (m : mstate)
| SDone (m : mstate)
| SErr (code : nat) (m : mstate). (* 0 search fuel, 1 unify fuel, 2 cyclic (unspecified), 9 a unification of retractall that was not decided (cyclic or out of fuel), 3 definition outside the model, 4 call of a term that is not callable (the code raises) *)

Definition UF : nat := 300.     (* fuel handed to Unify.unify_arrays *)

(* the bindings made on top of  tr ++ h0  plus tr: everything above h0 *)
Definition strip (s' h0 : store) : store := firstn (length s' - length h0) s'.

Definition clauses_of (ds : list defn) : option (list clause) :=
  fold_right (fun d acc => match d, acc with
                           | DClauses c, Some r => Some (c ++ r)
                           | _, _ => None end) (Some []) ds.
Definition db_builtin (ds : list defn) : option dbop :=
  match ds with [DDb b] => Some b | _ => None end.

(* which facts stay: Answer.match for each, bindings undone after each (retractall; retract run to exhaustion) *)
Fixpoint retract_list (h : store) (fresh : nat -> nat) (args : list term) (fs : list fact)
  : option (list fact) :=
  match fs with
  | [] => Some []
  | f :: r =>
      match unify_arrays2 UF h args (map (rn fresh) (fargs f)), retract_list h fresh args r with
      | UOk _, Some r' => Some r'
      | UFail, Some r' => Some (f :: r')
      | _, _ => None
      end
  end.

Inductive kres := KGo (m : mstate) | KAns (tr : store) (m : mstate) | KDone | KErr (code : nat) (m : mstate).

(* ---- the meta-call builtins  \= /2, call/N, once/1, findall/3  (engine.py: builtin_neq, YP.call, YP.once, YP.findall).
   They run a goal through self.query and do something when it succeeds: the goal is put on the goal list followed by a
   CONTROL GOAL (a name no script can contain: one code point 0, 1 or 2), and a frame below the goal's alternatives says where
   the construct began:
     once(G)        G, cut_mark  above FBar:  cut_mark drops the remaining alternatives of G (down to and including the nearest
                    FBar = the `break` of YP.once, which closes the generator of the goal) and goes on with the body;
     X \= Y         '='(X, Y), neg_mark  above FNeg:  neg_mark drops everything down to and including the nearest FNeg and
                    fails (the bindings of the solution are undone: they live in the dropped frame); FNeg on top of the stack
                    = no solution = succeed once with the bindings of the call;
     findall(T,G,B) G, coll_mark(T)  above FColl:  coll_mark puts copy_term(T) (full dereference, new variables) into the nearest
                    FColl and fails; FColl on top = G exhausted: unify(B, makelist(copies)).
   A construct has left the stack before the control goal of an enclosing construct can run, so the nearest frame of the kind
   is the right one.  call(G, A..) = self.query(name of G, args of G ++ A..).  A goal that is not callable makes YP.call raise
   (UnboundLocalError): model error 4. *)
Inductive mres := MGo (fr : list frame) | MErr (code : nat).
Definition lift_m (m : mstate) (x : mres) : kres :=
  match x with MGo fr => KGo (mkms (mdb m) (mnf m) fr (mlog m)) | MErr k => KErr k m end.

Definition cut_mark : str := [0%N].
Definition neg_mark : str := [1%N].
Definition coll_mark : str := [2%N].
Definition is_bar (f : frame) : bool := match f with FBar => true | _ => false end.
Definition is_neg (f : frame) : bool := match f with FNeg _ _ _ => true | _ => false end.
Fixpoint cut_to (p : frame -> bool) (r : list frame) : list frame :=
  match r with [] => [] | f :: r' => if p f then r' else cut_to p r' end.
(* results.append(copy_term(template, {})) *)
Fixpoint collect_into (fresh : nat -> nat) (t' : term) (r : list frame) : list frame :=
  match r with
  | [] => []
  | FColl tr cnt bag acc nc gs :: r' =>
      let c := canon [t'] in
      FColl tr cnt bag (map (rn (fun i => fresh (cnt + nc + i))) c ++ acc) (nc + lmax c) gs :: r'
  | f :: r' => f :: collect_into fresh t' r'
  end.
(* YP.makelist *)
Fixpoint mk_list (l : list term) : term :=
  match l with [] => TAtom (of_string "[]") | x :: r => TFun (of_string ".") [x; mk_list r] end.

Definition ctl_goal (h0 : store) (fresh : nat -> nat) (tr : store) (cnt : nat) (nm : str) (args : list term)
    (gs : list goal) (r : list frame) : option mres :=
  if str_eqb nm cut_mark then Some (MGo (FGoals tr cnt gs :: cut_to is_bar r))
  else if str_eqb nm neg_mark then Some (MGo (cut_to is_neg r))
  else if str_eqb nm coll_mark then
    Some (MGo (match args with [t] => collect_into fresh (den2 (tr ++ h0) t) r | _ => r end))
  else None.

Definition metastep (h0 : store) (b : metaop) (tr : store) (cnt : nat) (args : list term) (gs : list goal)
    (r : list frame) : mres :=
  match b, args with
  | MNeq, [x; y] => MGo (FGoals tr cnt [(of_string "=", [x; y]); (neg_mark, [])] :: FNeg tr cnt gs :: r)
  | MCall, g :: extra =>
      match callable (den2 (tr ++ h0) g) with
      | Some (nm, fa) => MGo (FGoals tr cnt ((nm, fa ++ extra) :: gs) :: r)
      | None => MErr 4
      end
  | MOnce, [g] =>
      match callable (den2 (tr ++ h0) g) with
      | Some (nm, fa) => MGo (FGoals tr cnt ((nm, fa) :: (cut_mark, []) :: gs) :: FBar :: r)
      | None => MErr 4
      end
  | MFindall, [t; g; bag] =>
      match callable (den2 (tr ++ h0) g) with
      | Some (nm, fa) => MGo (FGoals tr cnt [(nm, fa); (coll_mark, [t])] :: FColl tr cnt bag [] 0 gs :: r)
      | None => MErr 4
      end
  | _, _ => MErr 3
  end.

Definition coll_finish (h0 : store) (tr : store) (cnt : nat) (bag : term) (acc : list term) (nc : nat)
    (gs : list goal) (r : list frame) : mres :=
  match unify_arrays2 UF (tr ++ h0) [bag] [mk_list (rev acc)] with
  | UOk s' => MGo (FGoals (strip s' h0) (cnt + nc) gs :: r)
  | UFail => MGo r
  | UOof => MErr 1
  | UCyc => MErr 2
  end.
Definition meta_builtin (ds : list defn) : option metaop :=
  match ds with [DMeta b] => Some b | _ => None end.

Definition is_fun (t : term) : bool := match t with TFun _ _ => true | _ => false end.

(* one of the four database builtins called with the argument t under the bindings tr (YP.asserta / assertz / retract /
   retractall); r = the rest of the stack, gs = the rest of the body *)
Definition dbstep (h0 : store) (fresh newid : nat -> nat) (m : mstate) (b : dbop)
    (tr : store) (cnt : nat) (t : term) (gs : list goal) (r : list frame) : kres :=
  let d := mdb m in
  let t' := den2 (tr ++ h0) t in
  match b with
  | BAssert append =>
      match callable t' with
      | None => KGo (mkms d (mnf m) (FGoals tr cnt gs :: r) (mlog m))
      | Some (nm, fa) =>
          let k := (nm, length fa) in
          let f := mkfact (newid (mnf m)) (canon fa) in
          KGo (mkms (set_facts k (ins (negb append) f (find_facts d nm (length fa))) d) (S (mnf m))
                    (FGoals tr cnt gs :: r) (mkev true (is_fun t') k :: mlog m))
      end
  | BRetract =>
      match callable t' with
      | None => KGo (mkms d (mnf m) r (mlog m))
      | Some (nm, fa) =>
          KGo (mkms d (mnf m) (map (fun f => FRet tr cnt nm fa f gs) (find_facts d nm (length fa)) ++ r)
                    (mkev false false (nm, length fa) :: mlog m))
      end
  | BRetractAll =>
      match callable t' with
      | None => KGo (mkms d (mnf m) r (mlog m))
      | Some (nm, fa) =>
          match retract_list (tr ++ h0) (fun i => fresh (cnt + i)) fa (find_facts d nm (length fa)) with
          | None => KErr 9 (mkms d (mnf m) (mfr m) (mkev false false (nm, length fa) :: mlog m))
          | Some keep =>
              KGo (mkms (set_facts (nm, length fa) keep d) (mnf m) (FGoals tr cnt gs :: r)
                        (mkev true true (nm, length fa) :: mlog m))
          end
      end
  end.

(* one step of the resumed generator.  Cells allocated on a branch that has been left are unreachable (their
   Variable objects are gone), so the counter is per frame: the k-th cell in use on the current path has index k. *)
Definition sstep (h0 : store) (fresh newid : nat -> nat) (m : mstate) : kres :=
  let d := mdb m in
  match mfr m with
  | [] => KDone
  | FGoals tr cnt [] :: r => KAns tr (mkms d (mnf m) r (mlog m))
  | FGoals tr cnt ((nm, args) :: gs) :: r =>
      match ctl_goal h0 fresh tr cnt nm args gs r with
      | Some x => lift_m m x
      | None =>
      KGo (mkms d (mnf m)
                (map (fun f => FFact tr cnt args (fargs f) gs) (find_facts d nm (length args))
                   ++ FFun tr cnt (find_function d nm (length args)) args gs :: r)
                (mkev false true (nm, length args) :: mlog m))
      end
  | FFact tr cnt args f gs :: r =>
      let f' := map (rn (fun i => fresh (cnt + i))) f in
      match unify_arrays2 UF (tr ++ h0) args f' with
      | UOk s' => KGo (mkms d (mnf m) (FGoals (strip s' h0) (cnt + lmax f) gs :: r) (mlog m))
      | UFail => KGo (mkms d (mnf m) r (mlog m))
      | UOof => KErr 1 m
      | UCyc => KErr 2 m
      end
  | FFun tr cnt fn args gs :: r =>
      match fn with
      | None => KGo (mkms d (mnf m) r (mlog m))
      | Some ds =>
          match meta_builtin ds with
          | Some mb => lift_m m (metastep h0 mb tr cnt args gs r)
          | None =>
          match db_builtin ds with
          | Some b =>
              match args with
              | [t] => dbstep h0 fresh newid m b tr cnt t gs r
              | _ => KErr 3 m
              end
          | None =>
              match clauses_of ds with
              | None => KErr 3 m
              | Some cls => KGo (mkms d (mnf m) (map (fun c => FClause tr cnt args c gs) cls ++ r) (mlog m))
              end
          end
          end
      end
  | FClause tr cnt args cl gs :: r =>
      let cl' := rn_clause (fun i => fresh (cnt + i)) cl in
      match unify_arrays2 UF (tr ++ h0) args (fst cl') with
      | UOk s' => KGo (mkms d (mnf m) (FGoals (strip s' h0) (cnt + clmax cl) (snd cl' ++ gs) :: r) (mlog m))
      | UFail => KGo (mkms d (mnf m) r (mlog m))
      | UOof => KErr 1 m
      | UCyc => KErr 2 m
      end
  | FRet tr cnt nm args f gs :: r =>
      let f' := map (rn (fun i => fresh (cnt + i))) (fargs f) in
      match unify_arrays2 UF (tr ++ h0) args f' with
      | UOk s' =>
          let cur := find_facts d nm (length args) in
          if has_id (fid f) cur
          then KGo (mkms (set_facts (nm, length args) (del_id (fid f) cur) d) (mnf m)
                         (FGoals (strip s' h0) (cnt + lmax (fargs f)) gs :: r)
                         (mkev true true (nm, length args) :: mlog m))
          else KGo (mkms d (mnf m) r (mkev false false (nm, length args) :: mlog m))
      | UFail => KGo (mkms d (mnf m) r (mlog m))
      | UOof => KErr 1 m
      | UCyc => KErr 2 m
      end
  | FBar :: r => lift_m m (MGo r)
  | FNeg tr cnt gs :: r => lift_m m (MGo (FGoals tr cnt gs :: r))
  | FColl tr cnt bag acc nc gs :: r => lift_m m (coll_finish h0 tr cnt bag acc nc gs r)
  end.

(* resume the generator: depth first, until the next yield *)
Fixpoint search (fuel : nat) (h0 : store) (fresh newid : nat -> nat) (m : mstate) : sres :=
  match fuel with
  | O => SErr 0 m
  | S fuel =>
      match sstep h0 fresh newid m with
      | KGo m' => search fuel h0 fresh newid m'
      | KAns tr m' => SAns tr m'
      | KDone => SDone m
      | KErr k m' => SErr k m'
      end
  end.

(* the finally-blocks of the suspended unify generators of this cursor: its cells become unbound *)
Definition unbind (tr h : store) : store :=
  filter (fun e => negb (existsb (Nat.eqb (fst e)) (map fst tr))) h.

Inductive cres := RAns (vals : list term) | RDone | RErr (code : nat).

(* next(generator): new generator, new heap, result, log, new fact store.  A step that ends in a model error leaves
   everything as it was (such cases are outside the comparison) *)
Definition cnext (fuel : nat) (d : db) (fresh : nat -> nat) (h : store) (c : cursor)
  : cursor * store * cres * list ev * db :=
  let h0 := unbind (ctrail c) h in
  match search fuel h0 fresh (qfid (cown c)) (mkms d (cnf c) (cfr c) []) with
  | SAns tr m =>
      (mkcur (cown c) (cargs c) (mfr m) tr (mnf m), tr ++ h0, RAns (map (den2 (tr ++ h0)) (cargs c)), mlog m, mdb m)
  | SDone m => (mkcur (cown c) (cargs c) [] [] (mnf m), h0, RDone, mlog m, mdb m)
  | SErr k m => (c, h, RErr k, mlog m, d)
  end.

Definition cclose (h : store) (c : cursor) : cursor * store :=
  (mkcur (cown c) (cargs c) [] [] (cnf c), unbind (ctrail c) h).

Definition cstart (ow : nat) (nm : str) (args : list term) : cursor :=
  mkcur ow args [FGoals [] 0 [(nm, args)]] [] 0.

(* run to exhaustion, collecting the answers (at most n).  The option: None = exhausted, Some 0 = n answers and not
   exhausted, Some (S k) = stopped by the model error k *)
Fixpoint cdrain (n fuel : nat) (d : db) (fresh : nat -> nat) (h : store) (c : cursor) (acc : list (list term)) (lg : list ev)
  : cursor * store * list (list term) * option nat * list ev * db :=
  match n with
  | O => (c, h, rev acc, Some 0, lg, d)
  | S n =>
      match cnext fuel d fresh h c with
      | (c', h', RAns vals, l1, d') => cdrain n fuel d' fresh h' c' (vals :: acc) (l1 ++ lg)
      | (c', h', RDone, l1, d') => (c', h', rev acc, None, l1 ++ lg, d')
      | (c', h', RErr k, l1, d') => (c', h', rev acc, Some (S k), l1 ++ lg, d')
      end
  end.

(* ---------------------------------------------------------------- one engine *)
Record engine := mkeng {
  atoms : list (str * nat);      (* _atom_store: name -> identity of the Atom object *)
  natom : nat;                   (* Atom objects created so far *)
  edb : db;
  cursors : list (nat * cursor); (* the generators the caller holds, by slot *)
  nstart : nat }.                (* queries / updates started so far (for owner tags) *)

Definition init_engine : engine :=
  mkeng [(of_string "[]", 0)] 1 (mkdb [] builtin_ctx reserved_names 0) [] 0.

(* YP.atom: setdefault *)
Definition intern (nm : str) (a : list (str * nat) * nat) : list (str * nat) * nat :=
  match aget str_eqb nm (fst a) with
  | Some _ => a
  | None => (fst a ++ [(nm, snd a)], S (snd a))
  end.
Definition intern_all (names : list str) (a : list (str * nat) * nat) := fold_right intern a names.

Definition with_atoms (e : engine) (a : list (str * nat) * nat) : engine :=
  mkeng (fst a) (snd a) (edb e) (cursors e) (nstart e).
Definition with_db (e : engine) (d : db) : engine := mkeng (atoms e) (natom e) d (cursors e) (nstart e).
Definition with_cursors (e : engine) (cs : list (nat * cursor)) : engine :=
  mkeng (atoms e) (natom e) (edb e) cs (nstart e).
Definition bump (e : engine) : engine := mkeng (atoms e) (natom e) (edb e) (cursors e) (S (nstart e)).

Inductive op :=
| OAtom (nm : str)
| OAssert (append : bool) (nm : str) (args : list term)     (* assert_fact / assertz / asserta *)
| ORetract (nm : str) (args : list term)                     (* retract run to exhaustion, or retractall *)
| ORegister (nm : str) (ar : option nat) (rows : list (list term))
| OLoad (overwrite : bool) (script : list (str * nat * list clause))
| OClear
| OStart (q : nat) (nm : str) (args : list term)
| ONext (q : nat)
| OClose (q : nat)                                           (* close() or dropping the generator *)
| ODrain (q : nat)
| OPeek (ts : list term).                                     (* get_value of terms over the user's variables, at any moment *)

Definition load_one (overwrite : bool) (c : list (str * list defn)) (p : str * nat * list clause) :=
  let '(nm, ar, cls) := p in
  let k := key_fixed nm ar in
  if overwrite then aset str_eqb k [DClauses cls] c
  else aset str_eqb k ((match aget str_eqb k c with Some old => old | None => [] end) ++ [DClauses cls]) c.

(* obs (Base/Str.v; term_obs in Term/Show.v): the tree the harness compares with what the code shows *)
Definition res_obs (r : cres) : obs :=
  match r with
  | RAns vals => otag "ans" (map term_obs vals)
  | RDone => otag "done" []
  | RErr k => otag "err" [onat k]
  end.

(* one operation of engine number eid on its own dictionaries and the shared heap *)
Definition estep (fuel : nat) (n eid : nat) (o : op) (e : engine) (h : store) : engine * store * obs :=
  let u := rn (ucell n eid) in
  match o with
  | OAtom nm =>
      let a := intern nm (atoms e, natom e) in
      (with_atoms e a, h, otag "atom" [oopt onat (aget str_eqb nm (fst a))])
  | OAssert append nm args =>
      let f := mkfact (ufid (nfid (edb e))) (canon (map (den2 h) (map u args))) in
      let new := ins (negb append) f (find_facts (edb e) nm (length args)) in
      let d := mkdb (aset fkey_eqb (nm, length args) new (facts (edb e))) (ctx (edb e)) (reserved (edb e)) (S (nfid (edb e))) in
      (with_atoms (with_db e d) (intern nm (atoms e, natom e)), h, otag "ok" [])
  | ORetract nm args =>
      let old := find_facts (edb e) nm (length args) in
      match retract_list h (ccell n eid (nstart e)) (map u args) old with
      | None => (e, h, otag "err" [onat 9])
      | Some new =>
          let d := match aget fkey_eqb (nm, length args) (facts (edb e)) with
                   | Some _ => set_facts (nm, length args) new (edb e)
                   | None => edb e end in
          (bump (with_atoms (with_db e d) (intern nm (atoms e, natom e))), h, otag "ok" [])
      end
  | ORegister nm ar rows =>
      let d := mkdb (facts (edb e)) (aset str_eqb (ctx_key nm ar) [DClauses (map (fun r => (r, [])) rows)] (ctx (edb e)))
                    (reserved (edb e)) (nfid (edb e)) in
      (with_db e d, h, otag "ok" [])
  | OLoad overwrite script =>
      let d := mkdb (facts (edb e)) (fold_left (load_one overwrite) script (ctx (edb e))) (reserved (edb e)) (nfid (edb e)) in
      (with_db e d, h, otag "ok" [])
  | OClear =>
      (* clear(): new tables; ATOM_NIL = atom("[]") of the new atom table *)
      (mkeng [(of_string "[]", natom e)] (S (natom e)) (mkdb [] builtin_ctx (reserved (edb e)) (nfid (edb e))) (cursors e) (nstart e),
       h, otag "ok" [])
  | OStart q nm args =>
      let h1 := match aget Nat.eqb q (cursors e) with Some c => snd (cclose h c) | None => h end in
      let c := cstart (nstart e) nm (map u args) in
      (bump (with_cursors e (aset Nat.eqb q c (cursors e))), h1, otag "started" [])
  | ONext q =>
      match aget Nat.eqb q (cursors e) with
      | None => (e, h, otag "noslot" [])
      | Some c =>
          let '(c', h', r, lg, d') := cnext fuel (edb e) (ccell n eid (cown c)) h c in
          (with_atoms (with_db (with_cursors e (aset Nat.eqb q c' (cursors e))) d') (intern_all (names_of lg) (atoms e, natom e)),
           h', res_obs r)
      end
  | OClose q =>
      match aget Nat.eqb q (cursors e) with
      | None => (e, h, otag "noslot" [])
      | Some c =>
          let '(c', h') := cclose h c in
          (with_cursors e (aset Nat.eqb q c' (cursors e)), h', otag "closed" [])
      end
  | ODrain q =>
      match aget Nat.eqb q (cursors e) with
      | None => (e, h, otag "noslot" [])
      | Some c =>
          let '(c', h', answers, err, lg, d') := cdrain fuel fuel (edb e) (ccell n eid (cown c)) h c [] [] in
          (with_atoms (with_db (with_cursors e (aset Nat.eqb q c' (cursors e))) d') (intern_all (names_of lg) (atoms e, natom e)),
           h', otag "all" [OL (map (fun vals => OL (map term_obs vals)) answers); oopt onat err])
      end
  | OPeek ts => (e, h, otag "peek" (map term_obs (map (den2 h) (map u ts))))
  end.

(* ---------------------------------------------------------------- the world *)
Record world := mkworld { wn : nat; engs : list (nat * engine); heap : store }.

Definition wstep (fuel : nat) (w : world) (s : nat * op) : world * obs :=
  match aget Nat.eqb (fst s) (engs w) with
  | None => (w, otag "noengine" [])
  | Some e =>
      let '(e', h', o) := estep fuel (wn w) (fst s) (snd s) e (heap w) in
      (mkworld (wn w) (aset Nat.eqb (fst s) e' (engs w)) h', o)
  end.

(* a schedule is a list of (engine id, operation); the trace keeps who observed what *)
Fixpoint wrun (fuel : nat) (w : world) (sched : list (nat * op)) : world * list (nat * obs) :=
  match sched with
  | [] => (w, [])
  | s :: r =>
      let '(w1, o) := wstep fuel w s in
      let '(w2, tr) := wrun fuel w1 r in
      (w2, (fst s, o) :: tr)
  end.

Definition init_world (n : nat) : world := mkworld n (map (fun i => (i, init_engine)) (seq 0 n)) [].

(* what engine i saw *)
Definition proj (i : nat) (tr : list (nat * obs)) : list obs :=
  map snd (filter (fun x => Nat.eqb (fst x) i) tr).
Definition only (i : nat) (sched : list (nat * op)) : list (nat * op) :=
  filter (fun x => Nat.eqb (fst x) i) sched.
