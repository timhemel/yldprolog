(* Monotonicity of the engine model with registered Python predicates (Sem/Native.v) in the call depth AND in the
   predicates: if every predicate of w2 delivers at least as far as the one of w1 (le_b: the same, or w1's ended by an
   exception after a prefix), then so does every query.  Two consequences:

   C17  nquery is prefix-monotone in the call depth (evaluate_bounded over engines with Python predicates and
        dynamic facts);
   C20  exception_passthrough: making a predicate raise instead of delivering its j-th answer changes a query - any
        query, in any context - only by cutting it short: the answers delivered are a prefix of the answers without the
        exception, and then the query ends with the exception (or, if the exception point is never reached - under
        once/1, a condition, a cut - nothing changes at all).  Nothing in the engine or in the emitted code catches,
        replaces or delays an exception. *)
From Coq Require Import String.
From Coq Require Import List Arith Bool.
Import ListNotations.
From YP Require Import Base.Str Term.Term Term.Fast Unify.Unify Lang.Ast Comp.IR Comp.CompileBody Sem.IRSem Sem.ExecMono Sem.Machine
  Sem.Native Sem.NativeThms Engine.BoundedMachine.
Local Open Scope string_scope.
Local Open Scope list_scope.

Definition ofun_le (o1 o2 : option nfun) : Prop :=
  match o1, o2 with
  | Some f1, Some f2 => forall args s, le_b (drop (f1 args s)) (drop (f2 args s))
  | None, None => True
  | _, _ => False
  end.

Definition world_le (w1 w2 : world) : Prop :=
  w_ir w1 = w_ir w2 /\ (forall name k, w_dyn w1 name k = w_dyn w2 name k) /\
  (forall name k, ofun_le (w_fix w1 name k) (w_fix w2 name k)) /\ (forall name, ofun_le (w_var w1 name) (w_var w2 name)).

Lemma ofun_le_refl o : ofun_le o o.
Proof. destruct o; simpl; [intros; apply le_b_refl | exact I]. Qed.

Lemma world_le_refl w : world_le w w.
Proof. repeat split; intros; apply ofun_le_refl. Qed.

Lemma le_b_app_l {A} (ds : list A) (r1 r2 : list A * bool) : le_b r1 r2 -> le_b (ds ++ fst r1, snd r1) (ds ++ fst r2, snd r2).
Proof.
  destruct r1 as [l1 e1], r2 as [l2 e2]. unfold le_b; cbn [fst snd]. destruct e1.
  - apply prefixl_app.
  - intros E. injection E as -> ->. reflexivity.
Qed.

Lemma run_code_mono c1 c2 : call_le c1 c2 -> forall code args s, le_b (run_code c1 code args s) (run_code c2 code args s).
Proof.
  intros Hc code args s.
  pose proof (@run_function_mono cfg assign (iter c1) (iter c2) (@iter_mono c1 c2 Hc) code (bind_args 0 args, s)) as R.
  apply run_res_mono in R. unfold run_res in R. unfold run_code.
  destruct (run_function (iter c1) assign code (bind_args 0 args, s)) as [ys1 k1].
  destruct (run_function (iter c2) assign code (bind_args 0 args, s)) as [ys2 k2]. exact R.
Qed.

Lemma fallback_mono c1 c2 v1 v2 : call_le c1 c2 -> ofun_le v1 v2 ->
  forall name args s, le_b (fallback c1 v1 name args s) (fallback c2 v2 name args s).
Proof.
  intros Hc Hv name args s. unfold fallback.
  assert (V : le_b match v1 with Some f => drop (f args s) | None => ([], false) end
                   match v2 with Some f => drop (f args s) | None => ([], false) end).
  { destruct v1 as [g1|], v2 as [g2|]; cbn [ofun_le] in Hv; try contradiction; [apply Hv|apply le_b_refl]. }
  assert (B : forall r1 r2, le_b r1 r2 ->
              le_b match builtin c1 name args s with Some r => r | None => r1 end
                   match builtin c2 name args s with Some r => r | None => r2 end).
  { intros r1 r2 L. pose proof (@builtin_mono _ _ Hc name args s) as B.
    destruct (builtin c1 name args s), (builtin c2 name args s); simpl in B; try contradiction; [exact B|exact L]. }
  destruct (str_eqb name (s_ "call")).
  - destruct v1 as [g1|], v2 as [g2|]; cbn [ofun_le] in Hv; try contradiction; [exact V|]. apply B, le_b_refl.
  - apply B, V.
Qed.

Lemma dyn_first_mono rows name args s r1 r2 : le_b r1 r2 -> le_b (dyn_first rows name args s r1) (dyn_first rows name args s r2).
Proof.
  intros L. unfold dyn_first. destruct (match_rows rows args s) as [ds de]. destruct de; [apply le_b_refl|].
  destruct (Resolve.reserved name); [apply le_b_refl|].
  apply (le_b_app_l ds) in L. destruct r1 as [fs1 fe1], r2 as [fs2 fe2]. exact L.
Qed.

Lemma call_function_mono c1 c2 w1 w2 : call_le c1 c2 -> world_le w1 w2 ->
  forall name args s, le_b (call_function c1 w1 name args s) (call_function c2 w2 name args s).
Proof.
  intros Hc [Hir [_ [Hf Hv]]] name args s. rewrite !call_function_eq, Hir. specialize (Hf name (length args)).
  destruct (w_fix w1 name (length args)) as [f1|], (w_fix w2 name (length args)) as [f2|]; cbn [ofun_le] in Hf; try contradiction.
  - apply Hf.
  - destruct (find_func (w_ir w2) name (length args)) as [f|]; [apply run_code_mono, Hc|apply fallback_mono; [exact Hc|apply Hv]].
Qed.

Lemma nstep_mono c1 c2 w1 w2 : call_le c1 c2 -> world_le w1 w2 ->
  forall name args s, le_b (nstep c1 w1 name args s) (nstep c2 w2 name args s).
Proof.
  intros Hc Hw name args s. rewrite !nstep_eq, (proj1 (proj2 Hw)). apply dyn_first_mono, call_function_mono; assumption.
Qed.

Lemma fuel_mono (q1 q2 : nat -> callT) :
  (forall name args s, q1 0 name args s = ([], true)) ->
  (forall n m, call_le (q1 n) (q2 m) -> call_le (q1 (S n)) (q2 (S m))) ->
  forall n m, n <= m -> call_le (q1 n) (q2 m).
Proof.
  intros H0 HS. induction n as [|n IH]; intros m L.
  - intros name args s. rewrite H0. apply prefixl_nil.
  - destruct m as [|m]; [inversion L|]. apply HS, IH, le_S_n, L.
Qed.

(* deeper searches and further-reaching predicates deliver at least as far *)
Theorem nquery_mono w1 w2 n m : world_le w1 w2 -> n <= m -> call_le (nquery n w1) (nquery m w2).
Proof.
  intros Hw. apply (fuel_mono (fun n => nquery n w1) (fun m => nquery m w2)); [reflexivity|].
  intros n' m' H name args s. apply nstep_mono; assumption.
Qed.

Lemma nquery_mono_w w1 w2 : world_le w1 w2 -> forall n, call_le (nquery n w1) (nquery n w2).
Proof. intros Hw n. apply nquery_mono; [exact Hw|apply le_n]. Qed.

Corollary nquery_depth_mono w n m : n <= m -> call_le (nquery n w) (nquery m w).
Proof. apply nquery_mono. apply world_le_refl. Qed.

Lemma raising_le (f : nfun) j args s : le_b (drop (raising f j args s)) (drop (f args s)).
Proof.
  unfold raising, drop, le_b. destruct (f args s) as [xs e]. destruct (Nat.ltb j (length xs)); cbn [fst snd].
  - exists (map fst (skipn j xs)). rewrite <- map_app, firstn_skipn. reflexivity.
  - destruct e; [apply prefixl_refl | reflexivity].
Qed.

(* w with the fixed-arity predicate name/k raising instead of its j-th answer *)
Definition with_raising_fix (w : world) (name : str) (k j : nat) : world :=
  {| w_ir := w_ir w;
     w_fix := fun n0 k0 => if key_eq (n0, k0) (name, k) then option_map (fun f => raising f j) (w_fix w n0 k0) else w_fix w n0 k0;
     w_var := w_var w; w_dyn := w_dyn w |}.
Definition with_raising_var (w : world) (name : str) (j : nat) : world :=
  {| w_ir := w_ir w; w_fix := w_fix w;
     w_var := fun n0 => if str_eqb n0 name then option_map (fun f => raising f j) (w_var w n0) else w_var w n0;
     w_dyn := w_dyn w |}.

Lemma with_raising_fix_le w name k j : world_le (with_raising_fix w name k j) w.
Proof.
  repeat split; cbn [with_raising_fix w_ir w_dyn w_fix w_var]; intros; try apply ofun_le_refl.
  destruct (key_eq (name0, k0) (name, k)); [|apply ofun_le_refl].
  destruct (w_fix w name0 k0); cbn [option_map ofun_le]; [|exact I]. intros; apply raising_le.
Qed.
Lemma with_raising_var_le w name j : world_le (with_raising_var w name j) w.
Proof.
  repeat split; cbn [with_raising_var w_ir w_dyn w_fix w_var]; intros; try apply ofun_le_refl.
  destruct (str_eqb name0 name); [|apply ofun_le_refl].
  destruct (w_var w name0); cbn [option_map ofun_le]; [|exact I]. intros; apply raising_le.
Qed.

Lemma le_b_cut {A} (r' r : list A * bool) : le_b r' r ->
  (snd r' = false /\ r' = r) \/ (snd r' = true /\ prefixl (fst r') (fst r)).
Proof. unfold le_b. destruct (snd r'); intros H; [right|left]; split; auto. Qed.

(* every query, at every depth: either nothing changes, or the query ends with an exception after a prefix of its answers *)
Theorem exception_passthrough_fix w pname k j n name args s :
  let r' := nquery n (with_raising_fix w pname k j) name args s in
  let r := nquery n w name args s in
  (snd r' = false /\ r' = r) \/ (snd r' = true /\ prefixl (fst r') (fst r)).
Proof. exact (le_b_cut _ _ (nquery_mono_w _ _ (with_raising_fix_le w pname k j) n name args s)). Qed.

Theorem exception_passthrough_var w pname j n name args s :
  let r' := nquery n (with_raising_var w pname j) name args s in
  let r := nquery n w name args s in
  (snd r' = false /\ r' = r) \/ (snd r' = true /\ prefixl (fst r') (fst r)).
Proof. exact (le_b_cut _ _ (nquery_mono_w _ _ (with_raising_var_le w pname j) n name args s)). Qed.

(* at the predicate itself: the j answers before the exception, then the exception *)
Lemma raising_leaf (f : nfun) j args s : j < length (fst (f args s)) ->
  drop (raising f j args s) = (firstn j (fst (drop (f args s))), true).
Proof.
  intros H. unfold raising, drop. destruct (f args s) as [xs e]. cbn [fst snd] in *.
  apply Nat.ltb_lt in H. rewrite H. cbn [fst snd]. rewrite firstn_map. reflexivity.
Qed.
