(* C13 for compiled code, part 2: the configurations a run of DbProg.solve goes through.

   [visits n c c']: the evaluation of solve (at fuel n) started in configuration c reaches the activation
   c' of the search.  A configuration is (goals still to run, bindings, global state, stack of suspended
   goals); the stack is ghost information: for every goal that is suspended around the activation - a goal
   on dynamic facts or a retract in the middle of its snapshot, a call between two clauses - its arguments
   and the rest of its snapshot.  The relation follows the depth-first execution: the sub-activation made
   for the i-th answer of a goal is reached from the global state left by the complete runs for the
   answers before it (calls: cq / cr / ct are the loops scanq / scanr / tryclauses).

   visits_inv: every configuration reached from one that satisfies the invariant of DbProgInv.v satisfies it
   (for a larger set of fact cells).  Consequences, for every program whose clauses mention only their own
   variables, every body, every nesting of suspended goals, asserts, retracts, retractalls:
   prog_fact_vars_never_bound, prog_uses_see_stored_value.  visits_answers: the relation is not too
   small - every solution of the run is a visited configuration. *)
From Coq Require Import List Arith Bool Lia ZArith.
Import ListNotations.
From YP Require Import Base.Str Term.Term Term.Fast Unify.Unify Unify.Fast Engine.Frame Engine.Db Engine.DbCursor
  Engine.DbFacts Engine.DbFactsThms Engine.DbHeap Engine.DbHeapThms Engine.DbProg Engine.DbProgInv.
Set Implicit Arguments.

Definition cfg := (list goal * store * glob * list sframe)%type.
Definition cgs (c : cfg) : list goal := fst (fst (fst c)).
Definition cst (c : cfg) : store := snd (fst (fst c)).
Definition cg (c : cfg) : glob := snd (fst c).
Definition cstk (c : cfg) : list sframe := snd c.

Definition cfg_inv (F : nat -> bool) (c : cfg) : Prop :=
  cinv F (cgs c) (cst c) (cg c) /\ Forall (sframe_ok (gn (cg c)) F) (cstk c).

Definition tick (g : glob) (w : nat) : glob := mkg (gdb g) (gid g) (gn g) w.

Section Calls.
  Variable uf : nat.
  Variable rec : list goal -> store -> glob -> res.

  (* scanq over the snapshot l from the global state g makes a sub-activation c *)
  Inductive cq (args : list term) (r : list goal) (s : store) (stk : list sframe) : list fact -> glob -> cfg -> Prop :=
  | cq_here f l g s' n1 : answer_match_fast uf s (gn g) args (fargs f) = (UOk s', n1) ->
      cq args r s stk (f :: l) g (r, s', set_n g n1, (args, l) :: stk)
  | cq_later_ok f l g s' n1 g1 a1 t1 c : answer_match_fast uf s (gn g) args (fargs f) = (UOk s', n1) ->
      rec r s' (set_n g n1) = Some (g1, a1, t1, None) -> cq args r s stk l g1 c -> cq args r s stk (f :: l) g c
  | cq_later_no f l g n1 c : answer_match_fast uf s (gn g) args (fargs f) = (UFail, n1) ->
      cq args r s stk l (set_n g n1) c -> cq args r s stk (f :: l) g c.

  Inductive cr (k : key) (args : list term) (r : list goal) (s : store) (stk : list sframe) : list fact -> glob -> cfg -> Prop :=
  | cr_here f l g s' n1 : answer_match_fast uf s (gn g) args (fargs f) = (UOk s', n1) -> has_id (fid f) (gdb g k) = true ->
      cr k args r s stk (f :: l) g (r, s', mkg (upd k (del_id (fid f) (gdb g k)) (gdb g)) (gid g) n1 (gw g), (args, l) :: stk)
  | cr_later_ok f l g s' n1 g1 a1 t1 c : answer_match_fast uf s (gn g) args (fargs f) = (UOk s', n1) -> has_id (fid f) (gdb g k) = true ->
      rec r s' (mkg (upd k (del_id (fid f) (gdb g k)) (gdb g)) (gid g) n1 (gw g)) = Some (g1, a1, t1, None) ->
      cr k args r s stk l g1 c -> cr k args r s stk (f :: l) g c
  | cr_later_gone f l g s' n1 c : answer_match_fast uf s (gn g) args (fargs f) = (UOk s', n1) -> has_id (fid f) (gdb g k) = false ->
      cr k args r s stk l (set_n g n1) c -> cr k args r s stk (f :: l) g c
  | cr_later_no f l g n1 c : answer_match_fast uf s (gn g) args (fargs f) = (UFail, n1) ->
      cr k args r s stk l (set_n g n1) c -> cr k args r s stk (f :: l) g c.

  Inductive ct (args : list term) (r : list goal) (s : store) (stk : list sframe) : list clause -> glob -> cfg -> Prop :=
  | ct_here c cs g s' : unify_arrays_fast uf s args (map (shift (gn g)) (chead c)) = UOk s' ->
      ct args r s stk (c :: cs) g (map (shift_goal (gn g)) (cbody c) ++ GPop :: r, s', set_n g (gn g + cnv c), (args, []) :: stk)
  | ct_later_ok c cs g s' g1 a1 t1 x : unify_arrays_fast uf s args (map (shift (gn g)) (chead c)) = UOk s' ->
      rec (map (shift_goal (gn g)) (cbody c) ++ GPop :: r) s' (set_n g (gn g + cnv c)) = Some (g1, a1, t1, None) ->
      ct args r s stk cs g1 x -> ct args r s stk (c :: cs) g x
  | ct_later_no c cs g x : unify_arrays_fast uf s args (map (shift (gn g)) (chead c)) = UFail ->
      ct args r s stk cs (set_n g (gn g + cnv c)) x -> ct args r s stk (c :: cs) g x.

  Hypothesis Hrec : inv_rec rec.

  Lemma stk_mono F n F' n' (stk : list sframe) : grow F n F' n' -> Forall (sframe_ok n F) stk -> Forall (sframe_ok n' F') stk.
  Proof. intros G. apply Forall_impl. intros fr. apply sframe_ok_mono. exact G. Qed.

  Lemma cfg_step F n F1 n1 (c : cfg) : grow F n F1 n1 ->
    (exists F', grow F1 n1 F' (gn (cg c)) /\ cfg_inv F' c) -> exists F', grow F n F' (gn (cg c)) /\ cfg_inv F' c.
  Proof. intros G [F' [G' X]]. exists F'. split; [eapply grow_trans; eauto|exact X]. Qed.

  Lemma cq_inv args r s stk : forall l g c, cq args r s stk l g c ->
    forall F, ginv F g -> ctx F (gn g) s args r l -> Forall (sframe_ok (gn g) F) stk ->
    exists F', grow F (gn g) F' (gn (cg c)) /\ cfg_inv F' c.
  Proof.
    induction 1 as [f l g s' n1 M|f l g s' n1 g1 a1 t1 c M ER Hc IH|f l g n1 c M Hc IH]; intros F I C K;
      destruct (ctx_match (gi_range I) C M) as [L [C1 Po]]; pose proof (ginv_set_n I L) as I1;
      pose proof (stk_mono (grow_n F L) K) as K1; apply (cfg_step (grow_n F L)).
    - exists F. split; [apply grow_refl|]. split; [exact (Po _ I1 eq_refl)|].
      constructor; [|exact K1]. split; apply C1.
    - destruct (Hrec (Po _ I1 eq_refl) ER) as [F1 [G1 I1']]. apply (cfg_step G1).
      exact (IH F1 I1' (ctx_mono G1 C1) (stk_mono G1 K1)).
    - exact (IH F I1 C1 K1).
  Qed.

  Lemma cr_inv k args r s stk : forall l g c, cr k args r s stk l g c ->
    forall F, ginv F g -> ctx F (gn g) s args r l -> Forall (sframe_ok (gn g) F) stk ->
    exists F', grow F (gn g) F' (gn (cg c)) /\ cfg_inv F' c.
  Proof.
    induction 1 as [f l g s' n1 M HI|f l g s' n1 g1 a1 t1 c M HI ER Hc IH|f l g s' n1 c M HI Hc IH|f l g n1 c M Hc IH]; intros F I C K;
      destruct (ctx_match (gi_range I) C M) as [L [C1 Po]]; pose proof (ginv_set_n I L) as I1;
      pose proof (ginv_del k (fid f) I L) as I0;
      pose proof (stk_mono (grow_n F L) K) as K1; apply (cfg_step (grow_n F L)).
    - exists F. split; [apply grow_refl|]. split; [exact (Po _ I0 eq_refl)|].
      constructor; [|exact K1]. split; apply C1.
    - destruct (Hrec (Po _ I0 eq_refl) ER) as [F1 [G1 I1']]. apply (cfg_step G1).
      exact (IH F1 I1' (ctx_mono G1 C1) (stk_mono G1 K1)).
    - exact (IH F I1 C1 K1).
    - exact (IH F I1 C1 K1).
  Qed.

  Lemma ct_inv args r s stk : forall cls g x, ct args r s stk cls g x ->
    forall F, Forall clause_ok cls -> ginv F g -> ctx F (gn g) s args r [] -> Forall (sframe_ok (gn g) F) stk ->
    exists F', grow F (gn g) F' (gn (cg x)) /\ cfg_inv F' x.
  Proof.
    induction 1 as [c cs g s' U|c cs g s' g1 a1 t1 x U ER Hc IH|c cs g x U Hc IH]; intros F OK I C K;
      inversion OK as [|? ? Oc Ocs]; subst; destruct (ctx_clause uf I C Oc) as [I1 [C1 Po]];
      assert (G0: grow F (gn g) F (gn g + cnv c)) by (apply grow_n; lia);
      pose proof (stk_mono G0 K) as K1; apply (cfg_step G0).
    - exists F. split; [apply grow_refl|]. split; [exact (Po _ U)|].
      constructor; [|exact K1]. split; [apply C1|constructor].
    - destruct (Hrec (Po _ U) ER) as [F1 [G1 I1']]. apply (cfg_step G1).
      exact (IH F1 Ocs I1' (ctx_mono G1 C1) (stk_mono G1 K1)).
    - exact (IH F Ocs I1 C1 K1).
  Qed.
End Calls.

Section Visits.
  Variable uf : nat.
  Variable prog : program.

  (* solve (S n) in the first configuration calls solve n in the second *)
  Inductive calls (n : nat) : cfg -> cfg -> Prop :=
  | c_unify a b r s g w stk s' : gw g = S w -> unify_fast uf s a b = UOk s' ->
      calls n (GUnify a b :: r, s, g, stk) (r, s', tick g w, stk)
  | c_call_facts name args r s g w stk c : gw g = S w ->
      cq uf (solve uf prog n) args r s stk (gdb g (name, length args)) (tick g w) c ->
      calls n (GCall name args :: r, s, g, stk) c
  | c_call_clauses name args r s g w stk g1 a1 t1 c : gw g = S w ->
      scanq uf (solve uf prog n) args r s (gdb g (name, length args)) (tick g w) = Some (g1, a1, t1, None) ->
      ct uf (solve uf prog n) args r s stk (clauses_of prog name (length args)) g1 c ->
      calls n (GCall name args :: r, s, g, stk) c
  | c_assert_skip front t r s g w stk : gw g = S w -> callable (den_fast s t) = None ->
      calls n (GAssert front t :: r, s, g, stk) (r, s, tick g w, stk)
  | c_assert front t r s g w stk name args stored n1 : gw g = S w -> callable (den_fast s t) = Some (name, args) ->
      answer_init_fast s args (gn g) = (stored, n1) ->
      calls n (GAssert front t :: r, s, g, stk)
              (r, s, mkg (upd (name, length args) (ins front (mkfact (gid g) stored) (gdb g (name, length args))) (gdb g)) (S (gid g)) n1 w, stk)
  | c_retract t r s g w stk name args c : gw g = S w -> callable (den_fast s t) = Some (name, args) ->
      cr uf (solve uf prog n) (name, length args) args r s stk (gdb g (name, length args)) (tick g w) c ->
      calls n (GRetract t :: r, s, g, stk) c
  | c_retractall t r s g w stk name args keep gone n1 : gw g = S w -> callable (den_fast s t) = Some (name, args) ->
      rallh uf s args (gdb g (name, length args)) (gn g) = Some (keep, gone, n1) ->
      calls n (GRetractAll t :: r, s, g, stk) (r, s, mkg (upd (name, length args) keep (gdb g)) (gid g) n1 w, stk)
  (* control: a cut, the end of a clause body and the end of a condition go on with the rest of the body; a
     disjunction runs its left branch and - from the global state that run left, if it was not cut - its right
     branch; an if-then-else runs condition + then branch and - if the condition did not commit - its else branch *)
  | c_cut r s g w stk : gw g = S w -> calls n (GCut :: r, s, g, stk) (r, s, tick g w, stk)
  | c_pop r s g w stk : gw g = S w -> calls n (GPop :: r, s, g, stk) (r, s, tick g w, stk)
  | c_commit r s g w stk : gw g = S w -> calls n (GCommit :: r, s, g, stk) (r, s, tick g w, stk)
  | c_or_left a b r s g w stk : gw g = S w -> calls n (GOr a b :: r, s, g, stk) (a ++ r, s, tick g w, stk)
  | c_or_right a b r s g w stk g1 a1 t1 : gw g = S w ->
      solve uf prog n (a ++ r) s (tick g w) = Some (g1, a1, t1, None) ->
      calls n (GOr a b :: r, s, g, stk) (b ++ r, s, g1, stk)
  | c_if_cond c t e r s g w stk : gw g = S w ->
      calls n (GIf c t e :: r, s, g, stk) (c ++ GCommit :: t ++ r, s, tick g w, stk)
  | c_if_else c t e r s g w stk g1 a1 t1 c1 : gw g = S w ->
      solve uf prog n (c ++ GCommit :: t ++ r) s (tick g w) = Some (g1, a1, t1, c1) -> lv_if c1 = None ->
      calls n (GIf c t e :: r, s, g, stk) (e ++ r, s, g1, stk).

  Inductive visits : nat -> cfg -> cfg -> Prop :=
  | v_here n c : visits n c c
  | v_call n c c1 c2 : calls n c c1 -> visits n c1 c2 -> visits (S n) c c2.

  Hypothesis Hprog : prog_ok prog.

  Lemma calls_inv n c c1 : calls n c c1 -> forall F, cfg_inv F c ->
    exists F', grow F (gn (cg c)) F' (gn (cg c1)) /\ cfg_inv F' c1.
  Proof.
    pose proof (@solve_inv uf prog Hprog n) as Hrec.
    assert (Same: forall F (c' : cfg), cfg_inv F c' -> exists F', grow F (gn (cg c')) F' (gn (cg c')) /\ cfg_inv F' c').
    { intros F c' X. exists F. split; [apply grow_refl|exact X]. }
    destruct 1 as [a b r s g w stk s' Ew U|name args r s g w stk c Ew Hq|name args r s g w stk g1 a1 t1 c Ew ES Ht
                  |front t r s g w stk Ew CA|front t r s g w stk name args stored n1 Ew CA AI|t r s g w stk name args c Ew CA Hr
                  |t r s g w stk name args keep gone n1 Ew CA RA
                  |r s g w stk Ew|r s g w stk Ew|r s g w stk Ew|ga gb r s g w stk Ew|ga gb r s g w stk g1 a1 t1 Ew ES
                  |gc gt ge r s g w stk Ew|gc gt ge r s g w stk g1 a1 t1 c1 Ew ES LV];
      intros F [CI K]; unfold cgs, cst, cg, cstk in CI, K; simpl in CI, K; apply (cinv_tick w) in CI; fold (tick g w) in CI.
    - apply (Same F (r, s', tick g w, stk)). split; [exact (cinv_unify _ CI U)|exact K].
    - exact (cq_inv Hrec Hq (ci_g CI) (cinv_call CI) K).
    - destruct (@scanq_inv uf _ Hrec args r s _ _ _ _ _ _ F (ci_g CI) (cinv_call CI) ES) as [F1 [G1 I1]]. apply (cfg_step G1).
      exact (ct_inv Hrec Ht (clauses_of_ok _ _ Hprog) I1 (ctx_mono G1 (ctx_nil (cinv_call CI))) (stk_mono G1 K)).
    - apply (Same F (r, s, tick g w, stk)). split; [exact (cinv_tail CI)|exact K].
    - destruct (cinv_assert (name, length args) CI AI) as [G1 CI1].
      exists (addF F (gn g) n1). split; [exact G1|]. split; [exact CI1|exact (stk_mono G1 K)].
    - exact (cr_inv Hrec Hr (ci_g CI) (cinv_term CI (fun _ T => T) CA) K).
    - destruct (cinv_retractall _ CI CA RA) as [L CI1].
      exists F. split; [apply grow_n; exact L|]. split; [exact CI1|exact (stk_mono (grow_n F L) K)].
    - apply (Same F (r, s, tick g w, stk)). split; [exact (cinv_tail CI)|exact K].
    - apply (Same F (r, s, tick g w, stk)). split; [exact (cinv_tail CI)|exact K].
    - apply (Same F (r, s, tick g w, stk)). split; [exact (cinv_tail CI)|exact K].
    - apply (Same F (ga ++ r, s, tick g w, stk)). split; [exact (proj1 (cinv_or CI))|exact K].
    - destruct (Hrec _ _ _ _ _ _ _ _ (proj1 (cinv_or CI)) ES) as [F1 [G1 I1]].
      exists F1. split; [exact G1|]. split; [exact (cinv_mono G1 eq_refl I1 (proj2 (cinv_or CI)))|exact (stk_mono G1 K)].
    - apply (Same F (gc ++ GCommit :: gt ++ r, s, tick g w, stk)). split; [exact (proj1 (cinv_if CI))|exact K].
    - destruct (Hrec _ _ _ _ _ _ _ _ (proj1 (cinv_if CI)) ES) as [F1 [G1 I1]].
      exists F1. split; [exact G1|]. split; [exact (cinv_mono G1 eq_refl I1 (proj2 (cinv_if CI)))|exact (stk_mono G1 K)].
  Qed.

  Theorem visits_inv n c c' : visits n c c' -> forall F, cfg_inv F c ->
    exists F', grow F (gn (cg c)) F' (gn (cg c')) /\ cfg_inv F' c'.
  Proof.
    induction 1 as [n c|n c c1 c2 Hc Hv IH]; intros F I.
    - exists F. split; [apply grow_refl|exact I].
    - destruct (@calls_inv n c c1 Hc F I) as [F1 [G1 I1]]. destruct (IH F1 I1) as [F2 [G2 I2]].
      exists F2. split; auto. eapply grow_trans; eauto.
  Qed.
End Visits.

(* the facts that exist in a configuration: stored, or still held in the snapshot of a suspended goal *)
Definition live_fact (c : cfg) (f : fact) : Prop :=
  (exists k, In f (gdb (cg c) k)) \/ (exists fr, In fr (cstk c) /\ In f (snd fr)).

(* all terms of a goal, those of the goals in its branches included *)
Fixpoint goal_terms (gl : goal) : list term :=
  match gl with
  | GUnify a b => [a; b]
  | GCall _ args => args
  | GAssert _ t | GRetract t | GRetractAll t => [t]
  | GOr a b => flat_map goal_terms a ++ flat_map goal_terms b
  | GIf c t e => flat_map goal_terms c ++ flat_map goal_terms t ++ flat_map goal_terms e
  | GFail | GCut | GPop | GCommit => []
  end.

Lemma goal_in_terms (P : nat -> bool) gl : goal_in P gl -> forall t, In t (goal_terms gl) -> tin P t.
Proof.
  induction gl as [a b|nm args|fr t|t|t| | |a b IHa IHb|c t e IHc IHt IHe| | ] using goal_ind'; try (simpl; intros _ x Hx; contradiction).
  - simpl. intros [A B] t [<-|[<-|[]]]; auto.
  - simpl. intros L t Ht. unfold lin in L. rewrite Forall_forall in L. auto.
  - simpl. intros A x [<-|[]]; auto.
  - simpl. intros A x [<-|[]]; auto.
  - simpl. intros A x [<-|[]]; auto.
  - rewrite goal_in_or. intros [A B] x Hx. cbn [goal_terms] in Hx. rewrite Forall_forall in *.
    apply in_app_or in Hx as [Hx|Hx]; apply in_flat_map in Hx as [y [Hy Hx]]; eauto.
  - rewrite goal_in_if. intros [A [B C]] x Hx. cbn [goal_terms] in Hx. rewrite Forall_forall in *.
    apply in_app_or in Hx as [Hx|Hx]; [|apply in_app_or in Hx as [Hx|Hx]]; apply in_flat_map in Hx as [y [Hy Hx]]; eauto.
Qed.

Lemma live_fact_cells F c f : cfg_inv F c -> live_fact c f -> fact_cells F f.
Proof.
  intros [CI K] [[k Hf]|[fr [Hfr Hf]]].
  - eapply (gi_facts (ci_g CI)); eauto.
  - rewrite Forall_forall in K. destruct (K fr Hfr) as [_ X]. rewrite Forall_forall in X. auto.
Qed.

(* the configuration in which a query starts: no bindings, the goals over the cells 0 .. nv-1 *)
Definition cfg_init (nv work : nat) (gs : list goal) : cfg := (gs, [], ginit nv work, []).

Lemma cfg_inv_init nv work gs : Forall (goal_in (below nv)) gs -> cfg_inv (fun _ => false) (cfg_init nv work gs).
Proof.
  intros H. split; [exact (@cinv_init nv work gs H)|constructor].
Qed.

Section Consequences.
  Variable uf : nat.
  Variable prog : program.
  Hypothesis Hprog : prog_ok prog.

  (* C13.3 for compiled code: in every configuration that a run reaches, every variable inside a fact (stored,
     or in the snapshot of a suspended goal) is unbound, occurs in no binding, in no goal still to run, in no
     suspended goal, and was allocated (it is below the allocation counter: no later Variable() returns it) *)
  Theorem prog_fact_vars_never_bound n c c' F : cfg_inv F c -> visits uf prog n c c' ->
    forall f t w, live_fact c' f -> In t (fargs f) -> occurs w t = true ->
      lookup w (cst c') = None /\
      (forall v u, In (v, u) (cst c') -> v <> w /\ occurs w u = false) /\
      (forall gl a, In gl (cgs c') -> In a (goal_terms gl) -> occurs w a = false) /\
      (forall fr a, In fr (cstk c') -> In a (fst fr) -> occurs w a = false) /\
      w < gn (cg c').
  Proof.
    intros I V f t w Lf Ht Hw.
    destruct (@visits_inv uf prog Hprog n c c' V F I) as [F' [_ I']].
    pose proof (live_fact_cells I' Lf) as Fc. destruct I' as [[Ig W G Lg] K].
    assert (Fw: F' w = true).
    { unfold fact_cells, lin in Fc. rewrite Forall_forall in Fc. exact (Fc t Ht w Hw). }
    assert (NP: Pc (gn (cg c')) F' w = false) by (unfold Pc; rewrite Fw; apply andb_false_r).
    split; [eapply good_F_unbound; eauto|]. split; [|split; [|split]].
    - intros v u Hin. destruct (G v u Hin) as [X Y]. split.
      + intros ->. congruence.
      + destruct (occurs w u) eqn:O; auto. apply Y in O. congruence.
    - intros gl a Hgl Ha. rewrite Forall_forall in Lg. pose proof (@goal_in_terms _ gl (Lg gl Hgl) a Ha) as T.
      destruct (occurs w a) eqn:O; auto. apply T in O. congruence.
    - intros fr a Hfr Ha. rewrite Forall_forall in K. destruct (K fr Hfr) as [X _].
      unfold lin in X. rewrite Forall_forall in X. destruct (occurs w a) eqn:O; auto. apply (X a Ha) in O. congruence.
    - apply (gi_range Ig). exact Fw.
  Qed.

  (* "fresh at every use" for compiled code: in every configuration that a run reaches, a use of a fact
     unifies the goal with a copy that is a function of the stored arguments and the allocation counter
     alone, whose cells are new, unbound and in no fact *)
  Theorem prog_uses_see_stored_value n c c' F : cfg_inv F c -> visits uf prog n c c' ->
    forall f goal, live_fact c' f ->
      answer_match_fast uf (cst c') (gn (cg c')) goal (fargs f) =
        (unify_arrays uf (cst c') goal (fst (copy_args [] (fargs f) (gn (cg c')))), snd (copy_args [] (fargs f) (gn (cg c')))) /\
      (forall t w, In t (fst (copy_args [] (fargs f) (gn (cg c')))) -> occurs w t = true ->
         gn (cg c') <= w /\ lookup w (cst c') = None /\
         forall f' u, live_fact c' f' -> In u (fargs f') -> occurs w u = false).
  Proof.
    intros I V f goal Lf.
    destruct (@visits_inv uf prog Hprog n c c' V F I) as [F' [_ I']].
    pose proof (live_fact_cells I' Lf) as Fc. pose proof I' as [[Ig W G Lg] K].
    assert (Fr: forall t, In t (fargs f) -> free_in (cst c') t) by (eapply fact_free; eauto).
    split; [rewrite answer_match_fast_eq; apply answer_match_independent; exact Fr|].
    intros t w Ht Hw. destruct (copy_args [] (fargs f) (gn (cg c'))) as [cs n'] eqn:Cp. simpl in Ht.
    destruct (copy_cells Cp) as [L X]. destruct (X t Ht w Hw) as [Y Z]. split; [exact Y|]. split.
    - exact (@outside_unbound _ F' _ w G (@Pc_new _ F' w Y)).
    - intros f' u Lf' Hu. destruct (occurs w u) eqn:O; auto.
      pose proof (live_fact_cells I' Lf') as Fc'. unfold fact_cells, lin in Fc'. rewrite Forall_forall in Fc'.
      specialize (Fc' u Hu w O). apply (gi_range Ig) in Fc'. lia.
  Qed.
End Consequences.

(* the relation is not too small: every solution of a run is a configuration that the run visits *)
Definition answers_of (x : res) : list store := match x with Some (_, a, _, _) => a | None => [] end.

Lemma answers_tag o x : answers_of (tag o x) = answers_of x.
Proof. destruct x as [[[[g1 a1] t1] c1]|]; reflexivity. Qed.

Lemma alt_ans lv (x : res) (f : glob -> res) (s' : store) : In s' (answers_of (alt lv x f)) ->
  In s' (answers_of x) \/
  (exists g1 a1 t1 c1, x = Some (g1, a1, t1, c1) /\ lv c1 = None /\ In s' (answers_of (f g1))).
Proof.
  unfold alt. destruct x as [[[[g1 a1] t1] c1]|]; [|intros []]. destruct (lv c1) as [c'|] eqn:LV; [left; assumption|].
  destruct (f g1) as [[[[g2 a2] t2] c2]|] eqn:E; [|intros []]. simpl. intros Hin.
  apply in_app_or in Hin as [Hin|Hin]; [left; exact Hin|].
  right. exists g1, a1, t1, c1. rewrite E. auto.
Qed.

Lemma lv_loop_none c : lv_loop c = None -> c = None.
Proof. destruct c; simpl; [discriminate|reflexivity]. Qed.
Lemma lv_clause_none c : lv_clause c = None -> c = None.
Proof. destruct c as [[|j]|]; simpl; try discriminate; reflexivity. Qed.

Section Adequacy.
  Variable uf : nat.
  Variable prog : program.

  Section LoopsA.
    Variable rec : list goal -> store -> glob -> res.
    Variable s' : store.

    Lemma scanq_ans args r s stk : forall l g, In s' (answers_of (scanq uf rec args r s l g)) ->
      exists c, cq uf rec args r s stk l g c /\ In s' (answers_of (rec (cgs c) (cst c) (cg c))).
    Proof.
      induction l as [|f l IH]; intros g H; cbn [scanq] in H; [contradiction|].
      destruct (answer_match_fast uf s (gn g) args (fargs f)) as [u n1] eqn:M. destruct u as [s1| | |]; try contradiction.
      - apply alt_ans in H as [Hi|[g1 [a1 [t1 [c1 [E [LV Hi]]]]]]].
        + exists (r, s1, set_n g n1, (args, l) :: stk). split; [eapply cq_here; eassumption|].
          rewrite answers_tag in Hi. exact Hi.
        + apply lv_loop_none in LV. subst c1. apply tag_some in E as [t0 [_ ER]].
          destruct (IH _ Hi) as [c [A B]]. exists c. split; [eapply cq_later_ok; eassumption|exact B].
      - destruct (IH _ H) as [c [A B]]. exists c. split; [eapply cq_later_no; eassumption|exact B].
    Qed.

    Lemma scanr_ans k args r s stk : forall l g, In s' (answers_of (scanr uf rec k args r s l g)) ->
      exists c, cr uf rec k args r s stk l g c /\ In s' (answers_of (rec (cgs c) (cst c) (cg c))).
    Proof.
      induction l as [|f l IH]; intros g H; cbn [scanr] in H; [contradiction|].
      destruct (answer_match_fast uf s (gn g) args (fargs f)) as [u n1] eqn:M. destruct u as [s1| | |]; try contradiction.
      - destruct (has_id (fid f) (gdb g k)) eqn:HI.
        + apply alt_ans in H as [Hi|[g1 [a1 [t1 [c1 [E [LV Hi]]]]]]].
          * exists (r, s1, mkg (upd k (del_id (fid f) (gdb g k)) (gdb g)) (gid g) n1 (gw g), (args, l) :: stk).
            split; [eapply cr_here; eassumption|]. rewrite answers_tag in Hi. exact Hi.
          * apply lv_loop_none in LV. subst c1. apply tag_some in E as [t0 [_ ER]].
            destruct (IH _ Hi) as [c [A B]]. exists c. split; [eapply cr_later_ok; eassumption|exact B].
        + destruct (IH _ H) as [c [A B]]. exists c. split; [eapply cr_later_gone; eassumption|exact B].
      - destruct (IH _ H) as [c [A B]]. exists c. split; [eapply cr_later_no; eassumption|exact B].
    Qed.

    Lemma tryclauses_ans args r s stk : forall cls g, In s' (answers_of (tryclauses uf rec args r s cls g)) ->
      exists c, ct uf rec args r s stk cls g c /\ In s' (answers_of (rec (cgs c) (cst c) (cg c))).
    Proof.
      induction cls as [|cl cs IH]; intros g H; cbn [tryclauses] in H; [contradiction|].
      destruct (unify_arrays_fast uf s args (map (shift (gn g)) (chead cl))) as [s1| | |] eqn:U; try contradiction.
      - apply alt_ans in H as [Hi|[g1 [a1 [t1 [c1 [ER [LV Hi]]]]]]].
        + exists (map (shift_goal (gn g)) (cbody cl) ++ GPop :: r, s1, set_n g (gn g + cnv cl), (args, []) :: stk).
          split; [eapply ct_here; eassumption|exact Hi].
        + apply lv_clause_none in LV. subst c1.
          destruct (IH _ Hi) as [c [A B]]. exists c. split; [eapply ct_later_ok; eassumption|exact B].
      - destruct (IH _ H) as [c [A B]]. exists c. split; [eapply ct_later_no; eassumption|exact B].
    Qed.
  End LoopsA.

  Lemma visits_solutions : forall n gs s g stk s', In s' (answers_of (solve uf prog n gs s g)) ->
    exists g'' stk', visits uf prog n (gs, s, g, stk) ([], s', g'', stk').
  Proof.
    induction n as [|n IH]; intros gs s g stk s' Hin; [contradiction|].
    (* a solution of one level is the empty body's own, or a solution of one of the runs one level down, each of which
       is a call (Sub) *)
    assert (Sub: forall gs1 s1 g1 stk1, calls uf prog n (gs, s, g, stk) (gs1, s1, g1, stk1) ->
                 In s' (answers_of (solve uf prog n gs1 s1 g1)) ->
                 exists g'' stk', visits uf prog (S n) (gs, s, g, stk) ([], s', g'', stk')).
    { intros gs1 s1 g1 stk1 Hc Hi. destruct (IH _ _ _ stk1 _ Hi) as [g'' [stk' V]].
      exists g'', stk'. eapply v_call; eauto. }
    destruct (solve uf prog (S n) gs s g) as [[[[g' a] tr] fl]|] eqn:H; [|contradiction]. simpl in Hin.
    destruct (solve_S_cases _ _ _ _ _ _ H) as [w [Ew C]]. fold (tick g w) in C. clear H.
    remember (tick g w) as gt eqn:Egt.
    destruct C as [s g0|x y r s g0 s1 g' ans tr c U E|x y r s g0 U|name args r s g0 g' ans tr c A
                  |front t r s g0 g' ans tr c CA E|front t r s g0 name args stored n1 g' ans tr c CA AI E
                  |t r s g0 CA|t r s g0 name args g' ans tr c CA E|t r s g0 CA|t r s g0 name args keep gone n1 g' ans tr c CA RA E
                  |r s g0|r s g0 g' ans tr c E|ga gb r s g0 g' ans tr c A|gc gt' ge r s g0 g' ans tr c A
                  |r s g0 g' ans tr c E|r s g0 g' ans tr c E];
      subst g0; try contradiction.
    - destruct Hin as [<-|[]]. exists g, stk. apply v_here.
    - apply (Sub r s1 (tick g w) stk); [eapply c_unify; eassumption|]. rewrite E. exact Hin.
    - apply alt_case_eq in A. assert (Hi: In s' (answers_of (alt lv_loop _ _))) by (rewrite A; exact Hin).
      apply alt_ans in Hi as [Hi|[g1 [a1 [t1 [c1 [ES [LV Hi]]]]]]].
      + destruct (@scanq_ans _ s' args r s stk _ _ Hi) as [[[[gs1 s1] g1'] stk1] [A0 B0]].
        apply (Sub gs1 s1 g1' stk1); [eapply c_call_facts; eassumption|exact B0].
      + apply lv_loop_none in LV. subst c1.
        destruct (@tryclauses_ans _ s' args r s stk _ _ Hi) as [[[[gs1 s1] g1'] stk1] [A0 B0]].
        apply (Sub gs1 s1 g1' stk1); [eapply c_call_clauses; eassumption|exact B0].
    - apply (Sub r s (tick g w) stk); [eapply c_assert_skip; eassumption|]. rewrite E. exact Hin.
    - eapply (Sub r s _ stk); [eapply c_assert; eassumption|]. simpl in E. rewrite E. exact Hin.
    - assert (Hi: In s' (answers_of (scanr uf (solve uf prog n) (name, length args) args r s (gdb (tick g w) (name, length args)) (tick g w))))
        by (rewrite E; exact Hin).
      destruct (@scanr_ans _ s' (name, length args) args r s stk _ _ Hi) as [[[[gs1 s1] g1'] stk1] [A0 B0]].
      apply (Sub gs1 s1 g1' stk1); [eapply c_retract; eassumption|exact B0].
    - eapply (Sub r s _ stk); [eapply c_retractall; eassumption|]. simpl in E. rewrite E. exact Hin.
    - apply (Sub r s (tick g w) stk); [eapply c_cut; eassumption|]. rewrite E. exact Hin.
    - apply alt_case_eq in A. assert (Hi: In s' (answers_of (alt lv_loop _ _))) by (rewrite A; exact Hin).
      apply alt_ans in Hi as [Hi|[g1 [a1 [t1 [c1 [E [LV Hi]]]]]]].
      + apply (Sub (ga ++ r) s (tick g w) stk); [eapply c_or_left; eassumption|exact Hi].
      + apply lv_loop_none in LV. subst c1. apply (Sub (gb ++ r) s g1 stk); [eapply c_or_right; eassumption|exact Hi].
    - apply alt_case_eq in A. assert (Hi: In s' (answers_of (alt lv_if _ _))) by (rewrite A; exact Hin).
      apply alt_ans in Hi as [Hi|[g1 [a1 [t1 [c1 [E [LV Hi]]]]]]].
      + apply (Sub (gc ++ GCommit :: gt' ++ r) s (tick g w) stk); [eapply c_if_cond; eassumption|exact Hi].
      + apply (Sub (ge ++ r) s g1 stk); [eapply c_if_else; eassumption|exact Hi].
    - apply (Sub r s (tick g w) stk); [eapply c_pop; eassumption|]. rewrite E. exact Hin.
    - apply (Sub r s (tick g w) stk); [eapply c_commit; eassumption|]. rewrite E. exact Hin.
  Qed.

  Theorem visits_answers : forall n gs s g g' a tr fl stk s', solve uf prog n gs s g = Some (g', a, tr, fl) -> In s' a ->
    exists g'' stk', visits uf prog n (gs, s, g, stk) ([], s', g'', stk').
  Proof. intros n gs s g g' a tr fl stk s' H Hin. apply visits_solutions. rewrite H. exact Hin. Qed.
End Adequacy.
