(* The dynamic fact database of engine.py (YP._predicates_store and the code that reads and
   replaces its entries), generic in the matching function.

   Layout as in the code: a dictionary (name, arity) -> list of Answer objects.  A fact is
   (id, args): the id stands for the object identity of the Answer (retract tests membership
   with `is`).  The list stored under a key is never mutated: every update builds a new list
   and publishes it with _update_predicate (upd).  A key that was never written reads as the
   empty list (_find_predicates_or_empty; match_dynamic turns the YPException of
   _find_predicates into "no answers", assert_fact into "start from []").

   [mt pat args] is Answer.match for the pattern pat against the stored arguments args
   (copy_term with a new mapping, then unify_arrays): MYes a = it yields, a being the
   dereferenced pattern at the yield; MNo = it does not yield; MStuck = outside the specified
   domain (the match would build a cyclic term, or the model ran out of fuel).  The concrete
   function is Engine/DbFacts.v match_fact. *)
From Coq Require Import List Arith Bool Lia.
Import ListNotations.
From YP Require Import Base.Str Term.Term.
Set Implicit Arguments.

(* For evaluated examples: a run succeeds and what the statement looks at in its result is b.  It is enough to
   evaluate f of the result; the rest of the result (a state that holds functions) is never written out. *)
Lemma option_proj {A B} (f : A -> B) (r : option A) (b : B) : option_map f r = Some b -> exists a, r = Some a /\ f a = b.
Proof. destruct r as [a|]; [|discriminate]. intros H. exists a. split; [reflexivity|]. injection H as H. exact H. Qed.

Definition key := (str * nat)%type.
Definition key_eqb (a b : key) : bool := str_eqb (fst a) (fst b) && Nat.eqb (snd a) (snd b).

Lemma key_eqb_spec a b : reflect (a = b) (key_eqb a b).
Proof.
  destruct a as [n1 a1], b as [n2 a2]. unfold key_eqb. simpl.
  destruct (str_eqb_spec n1 n2) as [->|Hn]; simpl.
  - destruct (Nat.eqb_spec a1 a2) as [->|Ha]; constructor; congruence.
  - constructor; congruence.
Qed.
Lemma key_eqb_refl a : key_eqb a a = true.
Proof. destruct (key_eqb_spec a a); congruence. Qed.

Record fact := mkfact { fid : nat; fargs : list term }.

Definition db := key -> list fact.
Definition empty_db : db := fun _ => [].
(* _update_predicate: publish a new list object under the key *)
Definition upd (k : key) (l : list fact) (d : db) : db := fun k' => if key_eqb k' k then l else d k'.

Lemma upd_same k l d : upd k l d k = l.
Proof. unfold upd. rewrite key_eqb_refl. reflexivity. Qed.
Lemma upd_other k k' l d : k' <> k -> upd k l d k' = d k'.
Proof. unfold upd. intros H. destruct (key_eqb_spec k' k); congruence. Qed.

Lemma upd_ext k l l' (d d' : db) : l = l' -> (forall k0, d k0 = d' k0) -> forall k0, upd k l d k0 = upd k l' d' k0.
Proof. intros -> E k0. unfold upd. destruct (key_eqb k0 k); auto. Qed.

(* asserta / assertz / retract / retractall look at the dereferenced goal: a compound term gives
   (name, args), an atom gives (name, []); anything else (unbound variable, number, string) is not
   a callable term *)
Definition callable (t : term) : option (str * list term) :=
  match t with
  | TFun f args => Some (f, args)
  | TAtom a => Some (a, [])
  | _ => None
  end.

(* assert_fact: clauses + [answer]  or  [answer] + clauses *)
Definition ins (front : bool) (f : fact) (l : list fact) : list fact :=
  if front then f :: l else l ++ [f].

Definition has_id (i : nat) (l : list fact) : bool := existsb (fun c => Nat.eqb (fid c) i) l.
(* [c for c in current if c is not clause] *)
Definition del_id (i : nat) (l : list fact) : list fact := filter (fun c => negb (Nat.eqb (fid c) i)) l.
Definition del_ids (is : list nat) (l : list fact) : list fact :=
  filter (fun c => negb (existsb (Nat.eqb (fid c)) is)) l.

Inductive mres := MYes (a : list term) | MNo | MStuck.

Section Scan.
  Variable mt : list term -> list term -> mres.

  (* _match_all_clauses, one resumption: the next clause of the list that matches.
     None = stuck; Some None = list exhausted; Some (Some (f, a, rest)) = yield at f *)
  Fixpoint qscan (pat : list term) (l : list fact) : option (option (fact * list term * list fact)) :=
    match l with
    | [] => Some None
    | f :: r =>
        match mt pat (fargs f) with
        | MYes a => Some (Some (f, a, r))
        | MNo => qscan pat r
        | MStuck => None
        end
    end.

  (* retract, one resumption: the next clause of the snapshot that matches AND is (by identity)
     still in the list that is current now *)
  Fixpoint rscan (pat : list term) (cur : list fact) (l : list fact) : option (option (fact * list term * list fact)) :=
    match l with
    | [] => Some None
    | f :: r =>
        match mt pat (fargs f) with
        | MYes a => if has_id (fid f) cur then Some (Some (f, a, r)) else rscan pat cur r
        | MNo => rscan pat cur r
        | MStuck => None
        end
    end.

  (* retractall: the clauses that do not match, in order (remaining_clauses), and the ids of the others *)
  Fixpoint rall (pat : list term) (l : list fact) : option (list fact * list nat) :=
    match l with
    | [] => Some ([], [])
    | f :: r =>
        match mt pat (fargs f) with
        | MYes _ => match rall pat r with Some (keep, gone) => Some (keep, fid f :: gone) | None => None end
        | MNo => match rall pat r with Some (keep, gone) => Some (f :: keep, gone) | None => None end
        | MStuck => None
        end
    end.

  (* a whole enumeration at once (used for read-back and for the atomic histories of C07) *)
  Fixpoint qall (pat : list term) (l : list fact) : option (list (list term)) :=
    match l with
    | [] => Some []
    | f :: r =>
        match mt pat (fargs f) with
        | MYes a => match qall pat r with Some x => Some (a :: x) | None => None end
        | MNo => qall pat r
        | MStuck => None
        end
    end.

  (* the answers a list of facts gives to a pattern, where a stuck match counts as no match
     (specification side; the theorems are stated for runs in which the model is not stuck) *)
  Definition yes (pat : list term) (args : list term) : option (list term) :=
    match mt pat args with MYes a => Some a | _ => None end.

  Fixpoint matches (pat : list term) (l : list fact) : list (fact * list term) :=
    match l with
    | [] => []
    | f :: r => match yes pat (fargs f) with Some a => (f, a) :: matches pat r | None => matches pat r end
    end.

  Lemma qscan_some pat l f a r : qscan pat l = Some (Some (f, a, r)) ->
    matches pat l = (f, a) :: matches pat r /\ exists nm, l = nm ++ f :: r /\ matches pat nm = [].
  Proof.
    induction l as [|x l IH]; simpl; intros H; [discriminate|].
    unfold yes. destruct (mt pat (fargs x)) eqn:E.
    - injection H as <- <- <-. split; auto. exists []. auto.
    - destruct (IH H) as [A [nm [B C]]]. split; auto. exists (x :: nm). subst l. split; auto.
      simpl. unfold yes. rewrite E. exact C.
    - discriminate.
  Qed.

  Lemma qscan_none pat l : qscan pat l = Some None -> matches pat l = [].
  Proof.
    induction l as [|x l IH]; simpl; intros H; auto.
    unfold yes. destruct (mt pat (fargs x)) eqn:E; try discriminate. auto.
  Qed.

  Lemma qall_matches pat l x : qall pat l = Some x -> x = map snd (matches pat l).
  Proof.
    revert x. induction l as [|f l IH]; simpl; intros x H.
    - injection H as <-. reflexivity.
    - unfold yes. destruct (mt pat (fargs f)) eqn:E; try discriminate.
      + destruct (qall pat l) as [y|]; [|discriminate]. injection H as <-. simpl. f_equal. auto.
      + auto.
  Qed.

  Lemma matches_app pat a b : matches pat (a ++ b) = matches pat a ++ matches pat b.
  Proof.
    induction a as [|x a IH]; simpl; auto. destruct (yes pat (fargs x)); simpl; rewrite IH; auto.
  Qed.

  Lemma matches_in pat l f a : In (f, a) (matches pat l) -> In f l /\ yes pat (fargs f) = Some a.
  Proof.
    induction l as [|x l IH]; simpl; intros H; [contradiction|].
    destruct (yes pat (fargs x)) eqn:E.
    - destruct H as [H|H]; [injection H as <- <-; auto|]. destruct (IH H); auto.
    - destruct (IH H); auto.
  Qed.

  Definition rskip (pat : list term) (cur : list fact) (x : fact) : Prop :=
    yes pat (fargs x) = None \/ has_id (fid x) cur = false.

  Lemma rscan_some pat cur l f a r : rscan pat cur l = Some (Some (f, a, r)) ->
    has_id (fid f) cur = true /\ yes pat (fargs f) = Some a /\
    exists pre, l = pre ++ f :: r /\ forall x, In x pre -> rskip pat cur x.
  Proof.
    induction l as [|x l IH]; simpl; intros H; [discriminate|].
    assert (Skip: rskip pat cur x -> rscan pat cur l = Some (Some (f, a, r)) ->
              has_id (fid f) cur = true /\ yes pat (fargs f) = Some a /\
              exists pre, x :: l = pre ++ f :: r /\ forall y, In y pre -> rskip pat cur y).
    { intros S H'. destruct (IH H') as [A [B [pre [C D]]]]. repeat split; auto.
      exists (x :: pre). subst l. split; [reflexivity|]. intros y [<-|Hy]; auto. }
    unfold rskip, yes in *. destruct (mt pat (fargs x)) eqn:E; try discriminate; auto.
    destruct (has_id (fid x) cur) eqn:Hc; auto.
    injection H as <- <- <-. rewrite E. repeat split; auto. exists []. split; [reflexivity|]. intros y [].
  Qed.

  Lemma rscan_none pat cur l : rscan pat cur l = Some None -> forall x, In x l -> rskip pat cur x.
  Proof.
    induction l as [|x l IH]; simpl; intros H y Hy; [contradiction|].
    assert (Skip: rskip pat cur x -> rscan pat cur l = Some None -> rskip pat cur y).
    { intros S H'. destruct Hy as [<-|Hy]; auto. }
    unfold rskip, yes in *. destruct (mt pat (fargs x)) eqn:E; try discriminate; auto.
    destruct (has_id (fid x) cur) eqn:Hc; [discriminate|auto].
  Qed.
End Scan.

Lemma has_id_in i l : has_id i l = true <-> In i (map fid l).
Proof.
  unfold has_id. rewrite existsb_exists. split.
  - intros [c [H E]]. apply Nat.eqb_eq in E. subst. apply in_map. exact H.
  - intros H. apply in_map_iff in H as [c [E H]]. exists c. split; auto. apply Nat.eqb_eq. exact E.
Qed.

Lemma del_id_in i l c : In c (del_id i l) <-> In c l /\ fid c <> i.
Proof.
  unfold del_id. rewrite filter_In. split; intros [A B]; split; auto.
  - apply negb_true_iff in B. apply Nat.eqb_neq in B. exact B.
  - apply negb_true_iff. apply Nat.eqb_neq. exact B.
Qed.

Lemma del_id_notin i l : ~ In i (map fid l) -> del_id i l = l.
Proof.
  induction l as [|c l IH]; simpl; intros H; auto.
  destruct (Nat.eqb_spec (fid c) i) as [E|E]; simpl.
  - exfalso. apply H. left. exact E.
  - f_equal. apply IH. intros X. apply H. right. exact X.
Qed.

Lemma del_id_app i a b : del_id i (a ++ b) = del_id i a ++ del_id i b.
Proof. unfold del_id. apply filter_app. Qed.

Lemma ids_filter (p : fact -> bool) l i : In i (map fid (filter p l)) -> In i (map fid l).
Proof.
  intros H. apply in_map_iff in H as [c [E H]]. apply filter_In in H as [H _].
  apply in_map_iff. exists c. auto.
Qed.

Lemma nodup_ids_filter (p : fact -> bool) l : NoDup (map fid l) -> NoDup (map fid (filter p l)).
Proof.
  induction l as [|c l IH]; simpl; intros H; [constructor|].
  inversion H as [|? ? N D]; subst. destruct (p c); simpl; auto.
  constructor; auto. intros X. apply N. eapply ids_filter; eauto.
Qed.

Lemma del_id_not_has i l : has_id i (del_id i l) = false.
Proof.
  destruct (has_id i (del_id i l)) eqn:E; auto.
  apply has_id_in in E. apply in_map_iff in E as [c [E H]]. apply del_id_in in H as [_ H]. congruence.
Qed.

(* removing, by identity, a fact that occurs once *)
Lemma del_id_middle i a f b : fid f = i -> NoDup (map fid (a ++ f :: b)) -> del_id i (a ++ f :: b) = a ++ b.
Proof.
  intros E N. rewrite del_id_app. simpl. rewrite E, Nat.eqb_refl. simpl.
  rewrite map_app in N. simpl in N. apply NoDup_remove in N as [N1 N2]. rewrite E in N2.
  rewrite !del_id_notin; auto; intros X; apply N2; apply in_or_app; auto.
Qed.

Lemma nodup_app (a b : list nat) : NoDup a -> NoDup b -> (forall x, In x a -> ~ In x b) -> NoDup (a ++ b).
Proof.
  induction a as [|x a IH]; simpl; intros Na Nb D; auto.
  inversion Na as [|? ? N1 N2]; subst. constructor.
  - rewrite in_app_iff. intros [H|H]; auto. apply (D x); auto.
  - apply IH; auto.
Qed.
