(* An abstract machine for generator FRAMES over a mutable heap (property C03).

   A frame is the activation of one generator function as the compiler emits it (and as the
   builtins of engine.py are written): nested `for l in <iterator>:` loops, `yield`, `break`,
   `return`, assignments to locals/flags, `if <flag>:`, and - for user-supplied predicates -
   `raise`.  Its state is the continuation `kont`: what remains to be executed, innermost first,
   including the stack of OPEN iterators (KLoop it body k = "we are inside `body` of a for-loop
   over the suspended iterator `it`").

   Iterators are
     ILeaf l        a leaf iterator object (type L, operations lnext/lclose); instantiated in
                    Restore.v with the unification generators of Unify/UnifyGen.v; the theorems
                    hold for ANY leaf type that satisfies the restoring contract (Restore.v)
     IFresh c e     a generator object whose body `c` has not started (a call `query(..)`,
                    the emitted predicate function, `self.call(goal)`, a user predicate)
     ISusp k e      a generator object suspended at a `yield`
     IDone          a finished generator object.

   Leaving a loop in any way other than by exhaustion of its iterator (break, return, an
   exception passing through, close() of the frame) drops the iterator; CPython finalises a
   dropped generator at once, which is close() (trusted; exercised by the correspondence run).
   `yield from it` is `for x in it: yield x` as far as heap effects, close and throw go, because the machine
   closes an iterator that a loop drops (Forwarded.v: what differs when the object is still referenced elsewhere).

   E is the local state of a frame (arguments, local variables, the doBreak/cutIfN flags,
   counters, results collected so far): assignments, conditions and the choice of the next
   iterator may depend on it and on the heap in an arbitrary way.  Fuel n: None = not enough fuel.
   d = remaining recursion depth (CPython's recursion limit): resuming a frame at depth 0 raises
   (RecursionError) in the caller without entering the frame.

   Cell naming.  `variable()` creates a new object; its identity is an arbitrary fresh name.  The
   machine names new cells by a counter that follows the current SEARCH PATH, exactly as
   Sem/Machine.v does (so that both give literally the same stores): every frame carries its own
   counter `gho e` (set from the caller's current counter when the call is made, advanced by the
   frame's own allocations), and the counter that is current at a program point is that of the
   innermost enclosing loop whose iterator is a suspended frame (that frame's counter at its yield),
   else the frame's own: `knxt k e`.  Assignments and iterator expressions receive it as their first
   argument.  It has no influence on control or on the heap discipline (all restoration theorems
   are for arbitrary functions of it). *)
From Coq Require Import List Arith Bool Lia.
Import ListNotations.
From YP Require Import Base.Str Term.Term Unify.UnifyGen.

Inductive res := RYield | RStop | RRaise.

Section Machine.
  Variable L : Type.                      (* leaf iterator objects *)
  Variable X : Type.                      (* what a leaf is created from, e.g. two terms *)
  Variable E : Type.                      (* frame-local state *)
  Variable P : Type.                      (* callee + actual arguments *)
  Variable mkleaf : X -> heap -> L.
  Variable lnext : nat -> heap -> L -> option (heap * L * res).
  Variable lclose : heap -> L -> heap.

  Inductive iexpr := ELeaf (x:X) | ECall (p:P).

  Inductive code :=
  | CSkip
  | CYield                                   (* yield False *)
  | CSeq (a b:code)
  | CFor (ex:nat -> E -> heap -> iexpr) (body:code) (* for l in <ex>: body *)
  | CBreak
  | CReturn
  | CRaise                                   (* raise SomeException(...) *)
  | CAssign (f:nat -> E -> heap -> E)
  | CIf (c:E -> bool) (a:code).

  Variable prog : P -> code * E.            (* body and initial local state of a call *)
  Variable gho : E -> nat.                  (* a frame's own cell counter *)

  Inductive iter :=
  | ILeaf (l:L)
  | IFresh (c:code) (e:E)
  | ISusp (k:kont) (e:E)
  | IDone
  with kont :=
  | KNil
  | KSeq (c:code) (k:kont)
  | KLoop (it:iter) (body:code) (k:kont).

  (* the cell counter that is current under the continuation k of a frame with local state e *)
  Fixpoint knxt (k:kont) (e:E) : nat :=
    match k with
    | KNil => gho e
    | KSeq _ k' => knxt k' e
    | KLoop it _ k' => match it with ISusp kk ee => knxt kk ee | _ => knxt k' e end
    end.

  Definition mkiter (x:iexpr) (h:heap) : iter :=
    match x with
    | ELeaf x => ILeaf (mkleaf x h)
    | ECall p => IFresh (fst (prog p)) (snd (prog p))
    end.

  (* close(): GeneratorExit travels from the yield outwards through the open loops; every
     iterator it passes is dropped (closed), innermost first *)
  Fixpoint iclose (h:heap) (it:iter) : heap :=
    match it with
    | ILeaf l => lclose h l
    | ISusp k _ => unwind h k
    | _ => h
    end
  with unwind (h:heap) (k:kont) : heap :=
    match k with
    | KNil => h
    | KSeq _ k' => unwind h k'
    | KLoop it _ k' => unwind (iclose h it) k'
    end.

  (* generator.throw(exc) by the consumer: the exception is raised at the `yield` where the frame
     is suspended and travels outwards like GeneratorExit (neither the emitted code nor the
     builtins have an except clause around a yield); a generator that has not started is just
     marked finished.  The exception comes back to the consumer. *)
  Definition ithrow (h:heap) (it:iter) : heap * iter * res := (iclose h it, IDone, RRaise).

  Fixpoint pop_loop (k:kont) : option (iter * kont) :=
    match k with
    | KNil => None
    | KSeq _ k' => pop_loop k'
    | KLoop it _ k' => Some (it, k')
    end.

  Fixpoint exec (n d:nat) (h:heap) (c:code) (k:kont) (e:E) {struct n} : option (heap * iter * res) :=
    match n with O => None | S n =>
      match c with
      | CSkip => cont n d h k e
      | CYield => Some (h, ISusp k e, RYield)
      | CSeq a b => exec n d h a (KSeq b k) e
      | CFor ex body => loop n d h (mkiter (ex (knxt k e) e h) h) body k e
      | CBreak =>
          match pop_loop k with
          | None => Some (h, IDone, RStop)
          | Some (it, k') => cont n d (iclose h it) k' e
          end
      | CReturn => Some (unwind h k, IDone, RStop)
      | CRaise => Some (unwind h k, IDone, RRaise)
      | CAssign f => cont n d h k (f (knxt k e) e h)
      | CIf c a => if c e then exec n d h a k e else cont n d h k e
      end
    end
  with cont (n d:nat) (h:heap) (k:kont) (e:E) {struct n} : option (heap * iter * res) :=
    match n with O => None | S n =>
      match k with
      | KNil => Some (h, IDone, RStop)                  (* end of the function body *)
      | KSeq c k' => exec n d h c k' e
      | KLoop it body k' => loop n d h it body k' e     (* end of a loop body: next iteration *)
      end
    end
  with loop (n d:nat) (h:heap) (it:iter) (body:code) (k:kont) (e:E) {struct n} : option (heap * iter * res) :=
    match n with O => None | S n =>
      match inext n d h it with
      | None => None
      | Some (h', it', RYield) => exec n d h' body (KLoop it' body k) e
      | Some (h', it', RStop) => cont n d h' k e
      | Some (h', it', RRaise) => Some (unwind (iclose h' it') k, IDone, RRaise)
      end
    end
  with inext (n d:nat) (h:heap) (it:iter) {struct n} : option (heap * iter * res) :=
    match n with O => None | S n =>
      match it with
      | ILeaf l =>
          match lnext n h l with
          | None => None
          | Some (h', l', r) => Some (h', ILeaf l', r)
          end
      | IFresh c e => match d with O => Some (h, it, RRaise) | S d' => exec n d' h c KNil e end
      | ISusp k e => match d with O => Some (h, it, RRaise) | S d' => cont n d' h k e end
      | IDone => Some (h, IDone, RStop)
      end
    end.

  (* unfolding equations *)
  Lemma exec_S n d h c k e : exec (S n) d h c k e =
      match c with
      | CSkip => cont n d h k e
      | CYield => Some (h, ISusp k e, RYield)
      | CSeq a b => exec n d h a (KSeq b k) e
      | CFor ex body => loop n d h (mkiter (ex (knxt k e) e h) h) body k e
      | CBreak =>
          match pop_loop k with
          | None => Some (h, IDone, RStop)
          | Some (it, k') => cont n d (iclose h it) k' e
          end
      | CReturn => Some (unwind h k, IDone, RStop)
      | CRaise => Some (unwind h k, IDone, RRaise)
      | CAssign f => cont n d h k (f (knxt k e) e h)
      | CIf c a => if c e then exec n d h a k e else cont n d h k e
      end.
  Proof. reflexivity. Qed.
  Lemma cont_S n d h k e : cont (S n) d h k e =
      match k with
      | KNil => Some (h, IDone, RStop)
      | KSeq c k' => exec n d h c k' e
      | KLoop it body k' => loop n d h it body k' e
      end.
  Proof. reflexivity. Qed.
  Lemma loop_S n d h it body k e : loop (S n) d h it body k e =
      match inext n d h it with
      | None => None
      | Some (h', it', RYield) => exec n d h' body (KLoop it' body k) e
      | Some (h', it', RStop) => cont n d h' k e
      | Some (h', it', RRaise) => Some (unwind (iclose h' it') k, IDone, RRaise)
      end.
  Proof. reflexivity. Qed.
  Lemma inext_S n d h it : inext (S n) d h it =
      match it with
      | ILeaf l =>
          match lnext n h l with
          | None => None
          | Some (h', l', r) => Some (h', ILeaf l', r)
          end
      | IFresh c e => match d with O => Some (h, it, RRaise) | S d' => exec n d' h c KNil e end
      | ISusp k e => match d with O => Some (h, it, RRaise) | S d' => cont n d' h k e end
      | IDone => Some (h, IDone, RStop)
      end.
  Proof. reflexivity. Qed.
  Lemma iclose_eq h it : iclose h it = match it with ILeaf l => lclose h l | ISusp k _ => unwind h k | _ => h end.
  Proof. destruct it; reflexivity. Qed.
  Lemma unwind_eq h k : unwind h k = match k with KNil => h | KSeq _ k' => unwind h k' | KLoop it _ k' => unwind (iclose h it) k' end.
  Proof. destruct k; reflexivity. Qed.

  (* the consumer: up to k times __next__, each under the heap the previous one left
     (whatever the consumer binds at an answer it has unbound again before it goes on);
     stops at the first __next__ that does not yield.
     result: final heap, final iterator, heaps at the yields, how the last __next__ ended *)
  Fixpoint nexts (n d k:nat) (h:heap) (it:iter) : option (heap * iter * list heap * res) :=
    match k with
    | O => Some (h, it, [], RYield)
    | S k' =>
        match inext n d h it with
        | None => None
        | Some (h', it', RYield) =>
            match nexts n d k' h' it' with
            | None => None
            | Some (hf, itf, ys, r) => Some (hf, itf, h' :: ys, r)
            end
        | Some (h', it', r) => Some (h', it', [], r)
        end
    end.

  (* any consumer: an arbitrary sequence of __next__ / close() (= dropping the last reference) /
     throw() calls on one generator object, each under the heap the previous one left; a closed
     generator is finished *)
  Inductive fop := FNext | FClose | FThrow.
  Fixpoint fdrive (n d:nat) (h:heap) (it:iter) (ops:list fop) : option (heap * iter * list res) :=
    match ops with
    | [] => Some (h, it, [])
    | FNext :: r =>
        match inext n d h it with
        | None => None
        | Some (h', it', rr) =>
            match fdrive n d h' it' r with None => None | Some (hf, itf, rs) => Some (hf, itf, rr :: rs) end
        end
    | FClose :: r =>
        match fdrive n d (iclose h it) IDone r with None => None | Some (hf, itf, rs) => Some (hf, itf, RStop :: rs) end
    | FThrow :: r =>
        match fdrive n d (iclose h it) IDone r with None => None | Some (hf, itf, rs) => Some (hf, itf, RRaise :: rs) end
    end.
End Machine.

Arguments ELeaf {X P} x.
Arguments ECall {X P} p.
Arguments CSkip {X E P}.
Arguments CYield {X E P}.
Arguments CSeq {X E P} a b.
Arguments CFor {X E P} ex body.
Arguments CBreak {X E P}.
Arguments CReturn {X E P}.
Arguments CRaise {X E P}.
Arguments CAssign {X E P} f.
Arguments CIf {X E P} c a.
Arguments ILeaf {L X E P} l.
Arguments IFresh {L X E P} c e.
Arguments ISusp {L X E P} k e.
Arguments IDone {L X E P}.
Arguments KNil {L X E P}.
Arguments KSeq {L X E P} c k.
Arguments KLoop {L X E P} it body k.
Arguments pop_loop {L X E P} k.
Arguments iclose {L X E P} lclose h it.
Arguments unwind {L X E P} lclose h k.
Arguments mkiter {L X E P} mkleaf prog x h.
Arguments knxt {L X E P} gho k e.
Arguments ithrow {L X E P} lclose h it.
Arguments exec {L X E P} mkleaf lnext lclose prog gho n d h c k e.
Arguments cont {L X E P} mkleaf lnext lclose prog gho n d h k e.
Arguments loop {L X E P} mkleaf lnext lclose prog gho n d h it body k e.
Arguments inext {L X E P} mkleaf lnext lclose prog gho n d h it.
Arguments nexts {L X E P} mkleaf lnext lclose prog gho n d k h it.
Arguments fdrive {L X E P} mkleaf lnext lclose prog gho n d h it ops.
Arguments exec_S {L X E P} mkleaf lnext lclose prog gho n d h c k e.
Arguments cont_S {L X E P} mkleaf lnext lclose prog gho n d h k e.
Arguments loop_S {L X E P} mkleaf lnext lclose prog gho n d h it body k e.
Arguments inext_S {L X E P} mkleaf lnext lclose prog gho n d h it.
