(* The raising predicate of property C20 at machine level: Native.raising f j = "raises instead of delivering its answer
   number j (counted from 0)", for f = native_rows rows vals.  Its text

       def p( *args ):
           n = 0
           for row in rows:
               for _ in unify_arrays(args, row):
                   if n == j: raise E
                   yield v
                   n += 1

   is the machine code pyrows_at rows j (the counter n is the frame-local f_aux), and that code REALIZES
   raising (native_rows rows vals) j  (RefineNative.realizes) - so machine_refines_nquery / machine_exception_passthrough
   apply to the worlds Native.with_raising_fix of C20's exception_passthrough. *)
From Coq Require Import String.
From Coq Require Import List Arith Bool Lia ZArith NArith.
Import ListNotations.
From YP Require Import Base.Str Term.Term Term.Fast Term.Dfast Unify.Unify Unify.Fast Unify.UnifyGen Unify.UnifyGenFast Comp.IR Comp.CompileBody
  Sem.IRSem Sem.Machine Sem.Native Sem.NativeThms
  Engine.GenMachine Engine.Restore Engine.MachineMono Engine.IRMachine Engine.QueryFacts Engine.Refine Engine.RefineNative.
Local Open Scope list_scope.

Definition at_j (j : nat) : fr -> bool := fun e => Nat.eqb (f_aux e) j.
Definition add_aux (n : nat) (e : fr) : fr :=
  {| f_env := f_env e; f_nxt := f_nxt e; f_fl := f_fl e; f_acc := f_acc e; f_aux := f_aux e + n |}.
Definition incr_aux : nat -> fr -> heap -> fr := fun _ e _ => add_aux 1 e.
Definition ybody (j : nat) : mcode := CSeq (CIf (at_j j) CRaise) (CSeq CYield (CAssign incr_aux)).
Fixpoint rows_code_at (rows : list frow) (args : list term) (nx j : nat) : mcode :=
  match rows with
  | [] => CSkip
  | r :: rest => CSeq (CAssign (set_row nx r)) (CSeq (CFor (arr_expr args) (ybody j)) (rows_code_at rest args nx j))
  end.
Definition pyrows_at (rows : list frow) (j : nat) : ucode := fun args nx => (rows_code_at rows args nx j, []).

(* big-step: c = number of answers delivered so far *)
Fixpoint rows_at (rows : list frow) (args : list term) (s : st) (c j : nat) : list st * bool :=
  match rows with
  | [] => ([], false)
  | r :: rest =>
      match unify_arrays_fast ufuel (sto s) args (row_terms r s) with
      | UOk s' => if Nat.eqb c j then ([], true)
                  else let '(zs, e) := rows_at rest args s (S c) j in ({| sto := s'; nxt := nxt s + r_nv r |} :: zs, e)
      | UFail => rows_at rest args s c j
      | UOof | UCyc => ([], true)
      end
  end.

Lemma rows_at_spec rows args s j : forall c, c <= j ->
  rows_at rows args s c j =
  (let '(xs, e) := match_rows rows args s in if Nat.ltb (j - c) (length xs) then (firstn (j - c) xs, true) else (xs, e)).
Proof.
  induction rows as [|r rest IH]; intros c L; cbn [rows_at match_rows]; [reflexivity|].
  destruct (unify_arrays_fast ufuel (sto s) args (row_terms r s)) as [s'| | |]; try reflexivity.
  - destruct (Nat.eqb c j) eqn:E.
    + apply Nat.eqb_eq in E. subst c. rewrite Nat.sub_diag.
      destruct (match_rows rest args s) as [zs e]. reflexivity.
    + apply Nat.eqb_neq in E. rewrite (IH (S c)) by lia.
      destruct (match_rows rest args s) as [zs e]. cbn [length].
      replace (j - c) with (S (j - S c)) by lia. cbn [firstn].
      change (Nat.ltb (S (j - S c)) (S (length zs))) with (Nat.ltb (j - S c) (length zs)).
      destruct (Nat.ltb (j - S c) (length zs)); reflexivity.
  - apply IH. exact L.
Qed.

Lemma raising_rows rows vals j args s :
  drop (raising (native_rows rows vals) j args s) = rows_at rows args s 0 j.
Proof.
  rewrite rows_at_spec by lia. rewrite Nat.sub_0_r. rewrite <- (drop_native_rows rows vals args s).
  unfold raising, drop. destruct (native_rows rows vals args s) as [xs e]. cbn [fst snd]. rewrite map_length.
  destruct (Nat.ltb j (length xs)); cbn [fst snd]; [|reflexivity]. rewrite firstn_map. reflexivity.
Qed.

Section At.
  Variable ir : ir_program.
  Variable dyn : str -> nat -> list frow.
  Variable ufix : str -> nat -> option ucode.
  Variable uvar : str -> option ucode.
  Notation wprog := (wprog ir dyn ufix uvar).
  Notation mexec := (exec mkleaf lnext lclose wprog f_nxt).
  Notation mcont := (cont mkleaf lnext lclose wprog f_nxt).
  Notation mloop := (loop mkleaf lnext lclose wprog f_nxt).
  Notation minext := (inext mkleaf lnext lclose wprog f_nxt).
  Notation FSpec := (FSpec wprog).
  Notation ISpec := (ISpec wprog).
  Notation mkont := (kont leaf lx fr callp).
  Notation kn := (knxt (L:=leaf) (X:=lx) (P:=callp) f_nxt).
  Notation munwind := (unwind (L:=leaf) (X:=lx) (E:=fr) (P:=callp) lclose).
  Notation mclose := (iclose (L:=leaf) (X:=lx) (E:=fr) (P:=callp) lclose).

  Lemma add_aux_S n e : add_aux n (add_aux 1 e) = add_aux (S n) e.
  Proof. unfold add_aux. cbn. f_equal. lia. Qed.
  Lemma add_aux_0 e : add_aux 0 e = e.
  Proof. unfold add_aux. destruct e; cbn. f_equal. lia. Qed.

  (* the loop `for _ in <it>: if n == j: raise; yield; n += 1` over an iterator that yields xs_it;
     m = the number of answers still to be delivered before the one that raises *)
  Lemma at_loop d j (k : mkont) g0 h0 : forall xs_it err e hcur itcur ys rf m,
    ISpec d h0 (kn k e) (xs_it, err) hcur itcur ->
    f_aux e + m = j ->
    (if Nat.ltb m (length xs_it) then ys = [] /\ rf = RRaise
     else Kont wprog g0 d (if err then CErr else CNorm) h0 k (add_aux (length xs_it) e) ys rf) ->
    FSpec (S d) g0 (firstn m xs_it ++ ys) rf (fun n => mloop n d hcur itcur (ybody j) k e).
  Proof.
    induction xs_it as [|x r IH]; intros err e hcur itcur ys rf m HI Ej HK.
    - rewrite firstn_nil. cbn [length] in HK. change (Nat.ltb m 0) with false in HK.
      rewrite add_aux_0 in HK. eapply loop_end; [exact HI|exact HK].
    - eapply loop_next; [exact HI|]. intros it' Gn Wx HR.
      set (K' := (KLoop it' (ybody j) k : mkont)).
      unfold ybody. apply FSpec_seq, FSpec_if. unfold at_j. cbn beta.
      destruct m as [|m]; cbn [firstn app length] in *.
      + (* n == j: raise *)
        rewrite Nat.add_0_r in Ej. rewrite Ej, Nat.eqb_refl.
        change (Nat.ltb 0 (S (length r))) with true in HK. destruct HK as [-> ->].
        eapply FSpec_end. reflexivity.
      + assert (E: Nat.eqb (f_aux e) j = false) by (apply Nat.eqb_neq; lia). rewrite E.
        change (Nat.ltb (S m) (S (length r))) with (Nat.ltb m (length r)) in HK.
        apply FSpec_cont_seq, FSpec_seq, FSpec_yield; [exact Wx| |].
        { cbn [knxt]. fold (it_nxt (kn k e) it'). symmetry. exact Gn. }
        apply FSpec_cont_seq, FSpec_assign, FSpec_cont_loop. unfold incr_aux.
        apply (IH err (add_aux 1 e) (sto x) it' ys rf m).
        * rewrite (kn_nxt k _ e) by reflexivity. exact HR.
        * cbn [f_aux add_aux]. lia.
        * rewrite add_aux_S. exact HK.
  Qed.

  Lemma rows_at_sim d j h g0 args nx : wf h ->
    forall rows (e : fr) fa fe m, f_aux e + m = j ->
      rows_at rows args (mkst h nx) (f_aux e) j = (fa, fe) ->
      FSpec (S d) g0 fa (rend fe) (fun n => mexec n d h (rows_code_at rows args nx j) KNil e).
  Proof.
    intros W. induction rows as [|r rest IH]; intros e fa fe m Ej HA.
    - cbn [rows_at] in HA. injection HA as <- <-. apply skip_spec.
    - cbn [rows_at rows_code_at] in *. unfold row_terms in HA. cbn [sto nxt mkst] in HA.
      apply FSpec_seq, FSpec_assign, FSpec_cont_seq, FSpec_seq, FSpec_for.
      set (e1 := set_row nx r (knxt f_nxt (KSeq (CSeq (CFor (arr_expr args) (ybody j)) (rows_code_at rest args nx j)) KNil) e) e h).
      set (K := (KSeq (rows_code_at rest args nx j) KNil : mkont)).
      cbn [mkiter arr_expr].
      pose proof (ispec_arrays wprog d h (kn K e1) args (f_acc e1) W) as HI.
      cbn [f_acc e1 set_row] in HI.
      set (IT := ILeaf (mkleaf (XArrays args (map (tshift nx) (r_vals r))) h) : GenMachine.iter leaf lx fr callp) in *.
      pose proof (fun xs_it err ys rf mm => at_loop d j K g0 h xs_it err e1 h IT ys rf mm) as G.
      change (f_aux e1) with (f_aux e) in G.
      rewrite <- (app_nil_r fa).
      destruct (unify_arrays_fast ufuel h args (map (tshift nx) (r_vals r))) as [s'| | |] eqn:U.
      + destruct m as [|m].
        * rewrite Nat.add_0_r in Ej. rewrite Ej, Nat.eqb_refl in HA. injection HA as <- <-.
          apply (G [mkst s' (nx + r_nv r)] false [] RRaise 0 HI); [lia|]. cbn. auto.
        * assert (E: Nat.eqb (f_aux e) j = false) by (apply Nat.eqb_neq; lia). rewrite E in HA.
          destruct (rows_at rest args (mkst h nx) (S (f_aux e)) j) as [zs ze] eqn:R1. injection HA as <- <-.
          specialize (G [mkst s' (nx + r_nv r)] false zs (rend ze) (S m) HI Ej).
          cbn [firstn app length] in G. rewrite firstn_nil in G. rewrite app_nil_r. apply G.
          change (Nat.ltb (S m) 1) with false. cbn iota. apply FSpec_cont_seq.
          apply (IH (add_aux 1 e1) zs ze m).
          -- cbn [f_aux add_aux]. change (f_aux e1) with (f_aux e). lia.
          -- cbn [f_aux add_aux]. change (f_aux e1) with (f_aux e). rewrite Nat.add_1_r. exact R1.
      + specialize (G [] false fa (rend fe) m HI Ej).
        rewrite firstn_nil in G. cbn [app length] in G. rewrite app_nil_r. apply G.
        change (Nat.ltb m 0) with false. cbn iota. rewrite add_aux_0. apply FSpec_cont_seq.
        exact (IH e1 fa fe m Ej HA).
      + injection HA as <- <-. specialize (G [] true [] RRaise m HI Ej).
        rewrite firstn_nil in G. apply G. change (Nat.ltb m 0) with false. cbn. auto.
      + injection HA as <- <-. specialize (G [] true [] RRaise m HI Ej).
        rewrite firstn_nil in G. apply G. change (Nat.ltb m 0) with false. cbn. auto.
  Qed.

  (* the raising predicate of C20 is realized by the machine code of its text *)
  Theorem pyrows_at_realizes rows vals j :
    realizes ir dyn ufix uvar (pyrows_at rows j) (raising (native_rows rows vals) j).
  Proof.
    intros d g0 args nx h W. unfold pyrows_at. cbn [fst snd].
    rewrite raising_rows.
    destruct (rows_at rows args (mkst h nx) 0 j) as [fa fe] eqn:R. cbn [fst snd].
    exact (rows_at_sim d j h g0 args nx W rows (fr0 [] nx) fa fe j eq_refl R).
  Qed.
End At.
