(* What copy_term produces (C13): the stored arguments of a fact are the value of the asserted
   arguments at assertion time, with the variables that are still unbound replaced - injectively,
   and consistently across the whole fact - by cells that did not exist before. *)
From Coq Require Import List Arith Bool Lia ZArith.
Import ListNotations.
From YP Require Import Base.Str Term.Term Unify.Unify Engine.Db Engine.DbFacts.
Set Implicit Arguments.

(* applying a mapping dictionary to a term *)
Fixpoint mapp (m : list (nat * nat)) (t : term) : term :=
  match t with
  | TVar v => match mfind v m with Some w => TVar w | None => TVar v end
  | TFun f args => TFun f (map (mapp m) args)
  | _ => t
  end.

Definition covered (t : term) (m : list (nat * nat)) : Prop := forall v, occurs v t = true -> mfind v m <> None.
Definition mext (m m' : list (nat * nat)) : Prop := forall v w, mfind v m = Some w -> mfind v m' = Some w.
Definition minj (m : list (nat * nat)) : Prop := forall v v' w, mfind v m = Some w -> mfind v' m = Some w -> v = v'.
Definition mrange (m : list (nat * nat)) (lo hi : nat) : Prop := forall v w, mfind v m = Some w -> lo <= w < hi.

(* the mapping dictionary of a copy that started at allocation counter n0 and has reached n: it sends
   old cells injectively to the new cells n0 .. n-1 *)
Definition map_ok (n0 : nat) (m : list (nat * nat)) (n : nat) : Prop := mrange m n0 n /\ minj m /\ n0 <= n.

Lemma mapp_ext m m' t : mext m m' -> covered t m -> mapp m' t = mapp m t.
Proof.
  intros E. induction t as [a|z|q|v|f args IH] using term_ind'; intros C; simpl; auto.
  - destruct (mfind v m) as [w|] eqn:F.
    + rewrite (E _ _ F). reflexivity.
    + exfalso. apply (C v); auto. simpl. apply Nat.eqb_refl.
  - f_equal. apply map_ext_in. intros x Hx. rewrite Forall_forall in IH. apply IH; auto.
    intros v Hv. apply C. apply occurs_fun. exists x. auto.
Qed.

(* from (m, n) copy_term got to (m', n'): the dictionary is still good, has only been extended, and the
   counter has not gone back *)
Definition map_grows (n0 : nat) (m : list (nat * nat)) (n : nat) (m' : list (nat * nat)) (n' : nat) : Prop :=
  map_ok n0 m' n' /\ n <= n' /\ mext m m'.

Lemma map_grows_refl n0 m n : map_ok n0 m n -> map_grows n0 m n m n.
Proof. intros I. split; [exact I|split; [lia|intros v w X; exact X]]. Qed.

Lemma map_grows_trans n0 m n m1 n1 m2 n2 : map_grows n0 m n m1 n1 -> map_grows n0 m1 n1 m2 n2 -> map_grows n0 m n m2 n2.
Proof.
  intros [_ [L1 X1]] [I2 [L2 X2]]. split; [exact I2|split; [lia|]]. intros v w X. apply X2. apply X1. exact X.
Qed.

Lemma ren_both n0 :
  (forall t m n t' m' n', map_ok n0 m n -> ren t (m, n) = (t', (m', n')) ->
     map_grows n0 m n m' n' /\ t' = mapp m' t /\ covered t m') /\
  (forall l m n l' m' n', map_ok n0 m n -> ren_list l (m, n) = (l', (m', n')) ->
     map_grows n0 m n m' n' /\ l' = map (mapp m') l /\ (forall x, In x l -> covered x m')).
Proof.
  apply term_list_ind.
  - (* constants and variables *)
    intros [a|z|q|v|f args]; [| | | |exact I]; intros m n t' m' n' I H; simpl in H.
    1-3: injection H as <- <- <-; (split; [apply (map_grows_refl I)|split; [reflexivity|intros v0 Hv; discriminate]]).
    destruct (mfind v m) as [w|] eqn:F; injection H as <- <- <-.
    + (* a variable that was met before *)
      split; [apply (map_grows_refl I)|split].
      * simpl. rewrite F. reflexivity.
      * intros v0 Hv. simpl in Hv. apply Nat.eqb_eq in Hv. subst v0. congruence.
    + (* a new variable gets the next cell *)
      destruct I as [Rg [Inj Lo]].
      assert (Rg': mrange ((v, n) :: m) n0 (S n)).
      { intros v0 w0. simpl. destruct (Nat.eqb v0 v); intros X; [injection X as <-; lia|]. apply Rg in X. lia. }
      assert (Inj': minj ((v, n) :: m)).
      { intros v1 v2 w0. simpl. destruct (Nat.eqb_spec v1 v) as [->|N1]; destruct (Nat.eqb_spec v2 v) as [->|N2]; intros X Y; auto.
        - injection X as <-. apply Rg in Y. lia.
        - injection Y as <-. apply Rg in X. lia.
        - eapply Inj; eauto. }
      assert (Ext: mext m ((v, n) :: m)).
      { intros v0 w0 X. simpl. destruct (Nat.eqb_spec v0 v) as [->|N]; auto. congruence. }
      split; [|split].
      * split; [split; [exact Rg'|split; [exact Inj'|lia]]|split; [lia|exact Ext]].
      * simpl. rewrite Nat.eqb_refl. reflexivity.
      * intros v0 Hv. simpl in Hv. apply Nat.eqb_eq in Hv. subst v0. simpl. rewrite Nat.eqb_refl. discriminate.
  - (* a compound term: its arguments as a list *)
    intros f args IH m n t' m' n' I H. rewrite ren_fun in H.
    destruct (ren_list args (m, n)) as [l' [m1 n1]] eqn:E. simpl in H. injection H as <- <- <-.
    destruct (IH _ _ _ _ _ I E) as [Q [T C]]. split; [exact Q|split].
    + simpl. f_equal. exact T.
    + intros v Hv. apply occurs_fun in Hv as [x [Hx Ox]]. apply (C x Hx v Ox).
  - (* the empty list *)
    intros m n l' m' n' I H. simpl in H. injection H as <- <- <-.
    split; [apply (map_grows_refl I)|split; [reflexivity|intros x []]].
  - (* x :: r : x under the dictionary it produced is x under the final one, which only extends it *)
    intros x r IHx IHr m n l' m' n' I H. simpl in H.
    destruct (ren x (m, n)) as [x' [m1 n1]] eqn:E1.
    destruct (ren_list r (m1, n1)) as [r' [m2 n2]] eqn:E2. injection H as <- <- <-.
    destruct (IHx _ _ _ _ _ I E1) as [Q1 [T1 C1]]. pose proof Q1 as [I1 [_ X1]].
    destruct (IHr _ _ _ _ _ I1 E2) as [Q2 [T2 C2]]. pose proof Q2 as [_ [_ X2]].
    split; [apply (map_grows_trans Q1 Q2)|split].
    + simpl. f_equal; auto. rewrite T1. symmetry. apply mapp_ext; auto.
    + intros y [<-|Hy]; auto. intros v Hv. specialize (C1 v Hv).
      destruct (mfind v m1) as [w|] eqn:Fw; [|congruence]. rewrite (X2 _ _ Fw). discriminate.
Qed.

(* every cell of a copy is one of the new cells *)
Lemma mapp_vars m t w : covered t m -> occurs w (mapp m t) = true -> exists v, occurs v t = true /\ mfind v m = Some w.
Proof.
  induction t as [a|z|q|v|f args IH] using term_ind'; intros C H; simpl in H; try discriminate.
  - destruct (mfind v m) as [u|] eqn:F.
    + simpl in H. apply Nat.eqb_eq in H. subst u. exists v. split; auto. simpl. apply Nat.eqb_refl.
    + exfalso. apply (C v); auto. simpl. apply Nat.eqb_refl.
  - apply existsb_exists in H as [y [Hy Oy]]. apply in_map_iff in Hy as [x [<- Hx]].
    rewrite Forall_forall in IH.
    assert (Cx: covered x m) by (intros v0 Hv; apply C; apply occurs_fun; exists x; auto).
    destruct (IH x Hx Cx Oy) as [v1 [Ov Fv]].
    exists v1. split; auto. apply occurs_fun. exists x. auto.
Qed.

Definition occurs_l (v : nat) (l : list term) : bool := existsb (occurs v) l.

(* C13.1: the stored value.  Answer(values) under the bindings s, allocating from cell n *)
Theorem stored_value_at_assert_time s n values stored n' :
  answer_init s n values = (stored, n') ->
  exists m, stored = map (mapp m) (map (den s) values) /\
            minj m /\ mrange m n n' /\ n <= n' /\
            (forall x, In x values -> covered (den s x) m) /\
            (forall w, occurs_l w stored = true -> n <= w < n').
Proof.
  unfold answer_init, copy_args. intros H.
  destruct (ren_list (map (den s) values) ([], n)) as [l' [m' n2]] eqn:E. simpl in H. injection H as <- <-.
  assert (I: map_ok n [] n).
  { split; [intros v0 w0 X; discriminate|split; [intros v0 v1 w0 X; discriminate|lia]]. }
  destruct (proj2 (ren_both n) _ _ _ _ _ _ I E) as [[[Rg [Inj Lo]] [L X]] [T C]].
  exists m'. split; [exact T|]. split; [exact Inj|]. split; [exact Rg|]. split; [lia|]. split.
  - intros x Hx. apply C. apply in_map. exact Hx.
  - intros w H. unfold occurs_l in H. apply existsb_exists in H as [y [Hy Oy]]. rewrite T in Hy.
    apply in_map_iff in Hy as [x [<- Hx]]. destruct (@mapp_vars m' x w (C x Hx) Oy) as [v [_ F]]. apply Rg in F. lia.
Qed.

Lemma copy_args_length s l n : length (fst (copy_args s l n)) = length l.
Proof.
  destruct (copy_args s l n) as [cs n'] eqn:E.
  destruct (@stored_value_at_assert_time s n l cs n' E) as [m [-> _]]. simpl. rewrite !map_length. reflexivity.
Qed.

(* C13.2: the copy that a use of the fact unifies with does not depend on the heap, as long as the
   fact's own cells are unbound in it (they always are: DbHeapThms.fact_vars_never_bound) *)
Theorem stored_independent_of_later_heap s1 s2 n stored :
  (forall t, In t stored -> free_in s1 t) -> (forall t, In t stored -> free_in s2 t) ->
  copy_args s1 stored n = copy_args s2 stored n.
Proof.
  intros F1 F2. unfold copy_args.
  assert (E: map (den s1) stored = map (den s2) stored).
  { apply map_ext_in. intros t Ht. rewrite (den_id (F1 t Ht)), (den_id (F2 t Ht)). reflexivity. }
  rewrite E. reflexivity.
Qed.

Corollary answer_match_independent fuel s n goal stored :
  (forall t, In t stored -> free_in s t) ->
  answer_match fuel s n goal stored = (unify_arrays fuel s goal (fst (copy_args [] stored n)), snd (copy_args [] stored n)).
Proof.
  intros F. unfold answer_match.
  rewrite (@stored_independent_of_later_heap s [] n stored F) by (intros t _ w _; reflexivity).
  destruct (copy_args [] stored n). reflexivity.
Qed.

(* C13.3 (local part): two uses of one fact work on copies that share no cell with each other nor
   with the fact *)
Theorem two_uses_disjoint s1 s2 stored n1 cs1 n1' n2 cs2 n2' :
  copy_args s1 stored n1 = (cs1, n1') -> n1' <= n2 -> copy_args s2 stored n2 = (cs2, n2') ->
  (forall w, occurs_l w stored = true -> w < n1) ->
  forall w, (occurs_l w cs1 = true -> occurs_l w cs2 = false /\ occurs_l w stored = false) /\
            (occurs_l w cs2 = true -> occurs_l w stored = false).
Proof.
  intros C1 L C2 B w.
  destruct (@stored_value_at_assert_time s1 n1 stored cs1 n1' C1) as [m1 [_ [_ [_ [L1 [_ R1]]]]]].
  destruct (@stored_value_at_assert_time s2 n2 stored cs2 n2' C2) as [m2 [_ [_ [_ [L2 [_ R2]]]]]].
  split.
  - intros H. apply R1 in H. split.
    + destruct (occurs_l w cs2) eqn:X; auto. apply R2 in X. lia.
    + destruct (occurs_l w stored) eqn:X; auto. apply B in X. lia.
  - intros H. apply R2 in H. destruct (occurs_l w stored) eqn:X; auto. apply B in X. lia.
Qed.
