(* Trace inclusion: every run of compiled code (DbProg.solve) IS a history of the event-level cursor machine
   (DbCursor.run with the concrete matching function DbFacts.match_fact).

   The history is built along the execution: a goal name(args) reached under the bindings s at nesting
   depth d is the generator d: EStart d (QQuery name (map (den s) args)), one ENext d per answer - the events
   of the rest of the body, at depth d+1, in between -, a last ENext d that returns StopIteration, EClose d;
   a goal whose loop is left by a cut or by the commit of an if-then-else / a negation is closed while it is
   suspended: EClose d after its last answer, without the final ENext (alt_sim, simres_close');
   retract(T) the same with QRetract; asserta/assertz(T) is EAssert of the stored copy; retractall(T) is
   ERetractAll.  Unification and the selection of clauses leave no event.  The two machines hold the same
   database and the same identity counter at every point (Rst), and the trace of the run (the atomic updates
   and the answers of all goals, in execution order) is the list of the database outputs of the history
   (dbouts: what is left when OStart / OEnd / OClosed are dropped) - equal for OIns and ORAll, and for an answer
   equal up to an injective renaming of cells (tr_eqv): the cursor machine matches the dereferenced pattern
   from the empty heap and allocates the copy of the fact just above pattern and fact, compiled code matches
   under its bindings and allocates at its allocation counter (DbMatchSim.match_sim: increment property of
   unify + equivariance under renaming + C13's invariant: the cells of facts are unbound).

   Consequently every theorem about ALL histories of the cursor machine (C14_cursor_visits_snapshot,
   C14_no_lost_update, C14_retract_at_most_once, C07_db_refines_list_spec) speaks about compiled code. *)
From Coq Require Import List Arith Bool Lia ZArith.
Import ListNotations.
From YP Require Import Base.Str Term.Term Term.Fast Unify.Unify Unify.Fast Unify.Rename Engine.Frame Engine.Db Engine.DbCursor
  Engine.DbCursorThms Engine.DbFacts Engine.DbFactsThms Engine.DbHeap Engine.DbHeapThms Engine.DbMatchSim Engine.DbProg Engine.DbProgInv Engine.DbSpec.
Set Implicit Arguments.

Definition is_dbout (o : out) : bool :=
  match o with OIns _ _ _ | ORAll _ _ | OAns _ _ | ORet _ _ _ => true | _ => false end.
Definition dbouts (outs : list out) : list out := filter is_dbout outs.

Definition ans_eqv (a a' : list term) : Prop := exists p, injective p /\ a = map (Rename.ren p) a'.
Definition out_eqv (o o' : out) : Prop :=
  match o, o' with
  | OAns i a, OAns i' a' => i = i' /\ ans_eqv a a'
  | ORet k i a, ORet k' i' a' => k = k' /\ i = i' /\ ans_eqv a a'
  | OIns _ _ _, _ | ORAll _ _, _ => o = o'
  | _, _ => False
  end.
Definition tr_eqv (tr outs : list out) : Prop := Forall2 out_eqv tr outs.

(* the two machines hold the same database and the same identity counter *)
Definition Rst (g : glob) (st : DbCursor.st) : Prop := (forall k, sdb st k = gdb g k) /\ snext st = gid g.

Section Sim.
  Variable uf : nat.
  Notation mt := (match_fact uf).

  Lemma run_cons st e st1 o evs st2 os : step mt st e = Some (st1, o) -> run mt st1 evs = Some (st2, os) ->
    run mt st (e :: evs) = Some (st2, o :: os).
  Proof. intros A B. cbn [run]. rewrite A, B. reflexivity. Qed.

  Lemma run_app_some st a st1 o1 b st2 o2 : run mt st a = Some (st1, o1) -> run mt st1 b = Some (st2, o2) ->
    run mt st (a ++ b) = Some (st2, o1 ++ o2).
  Proof. intros A B. rewrite run_app, A, B. reflexivity. Qed.

  Definition simres (d : nat) (st : DbCursor.st) (g' : glob) (tr : list out) : Prop :=
    exists evs st' outs, run mt st evs = Some (st', outs) /\ Rst g' st' /\ tr_eqv tr (dbouts outs) /\
                         (forall c, c < d -> scur st' c = scur st c).

  Lemma simres_nil d st g' : Rst g' st -> simres d st g' [].
  Proof. intros R. exists [], st, []. repeat split; auto; try apply R. constructor. Qed.

  Lemma simres_weaken d d' st g' tr : d' <= d -> simres d st g' tr -> simres d' st g' tr.
  Proof. intros L [evs [st' [outs [A [B [C D]]]]]]. exists evs, st', outs. repeat split; auto; try apply B. intros c Hc. apply D. lia. Qed.

  Lemma simres_seq d1 d st g1 t1 g' t2 : d <= d1 -> simres d1 st g1 t1 ->
    (forall st1, Rst g1 st1 -> (forall c, c < d1 -> scur st1 c = scur st c) -> simres d st1 g' t2) ->
    simres d st g' (t1 ++ t2).
  Proof.
    intros L [e1 [st1 [o1 [A1 [B1 [C1 D1]]]]]] K. destruct (K st1 B1 D1) as [e2 [st2 [o2 [A2 [B2 [C2 D2]]]]]].
    exists (e1 ++ e2), st2, (o1 ++ o2). split; [eapply run_app_some; eauto|]. split; [exact B2|]. split.
    - unfold dbouts. rewrite filter_app. apply Forall2_app; assumption.
    - intros c Hc. rewrite D2 by exact Hc. apply D1. lia.
  Qed.

  (* one event in front: silent, or with a database output *)
  Lemma simres_silent d st e st1 o g' tr : step mt st e = Some (st1, o) -> is_dbout o = false ->
    (forall c, c < d -> scur st1 c = scur st c) -> simres d st1 g' tr -> simres d st g' tr.
  Proof.
    intros S N Fr [evs [st' [outs [A [B [C D]]]]]]. exists (e :: evs), st', (o :: outs).
    split; [eapply run_cons; eauto|]. split; [exact B|]. split.
    - unfold dbouts. simpl. rewrite N. exact C.
    - intros c Hc. rewrite D by exact Hc. apply Fr. exact Hc.
  Qed.

  Lemma simres_out d st e st1 o o0 g' tr : step mt st e = Some (st1, o) -> is_dbout o = true -> out_eqv o0 o ->
    (forall c, c < d -> scur st1 c = scur st c) -> simres d st1 g' tr -> simres d st g' (o0 :: tr).
  Proof.
    intros S N Q Fr [evs [st' [outs [A [B [C D]]]]]]. exists (e :: evs), st', (o :: outs).
    split; [eapply run_cons; eauto|]. split; [exact B|]. split.
    - unfold dbouts. simpl. rewrite N. constructor; auto.
    - intros c Hc. rewrite D by exact Hc. apply Fr. exact Hc.
  Qed.

  Lemma set_cur_frame st d x : forall c, c < d -> scur (set_cur st d x) c = scur st c.
  Proof. intros c Hc. simpl. destruct (Nat.eqb_spec c d); [lia|reflexivity]. Qed.

  Lemma Rst_set_cur g st d x : Rst g st -> Rst g (set_cur st d x).
  Proof. intros [A B]. split; simpl; auto. Qed.
  Lemma Rst_set_n g st n1 : Rst g st -> Rst (set_n g n1) st.
  Proof. intros [A B]. split; simpl; auto. Qed.

  (* closing a generator that exists (exhausted, or suspended: a cut / a commit leaves its loop) *)
  Lemma simres_close' d st g' : Rst g' st -> scur st d <> CNone -> simres d st g' [].
  Proof.
    intros R E. apply (@simres_silent d st (EClose d) (set_cur st d CDone) OClosed g' []).
    - simpl. destruct (scur st d); try reflexivity. contradiction.
    - reflexivity.
    - apply set_cur_frame.
    - apply simres_nil. apply Rst_set_cur. exact R.
  Qed.

  Lemma simres_close d st g' : Rst g' st -> scur st d = CDone -> simres d st g' [].
  Proof. intros R E. apply simres_close'; [exact R|rewrite E; discriminate]. Qed.

  Lemma alt_tag lv o x f g' a tr c : alt_case lv (tag o x) f g' a tr c ->
    exists t0, tr = o :: t0 /\ alt_case lv x f g' a t0 c.
  Proof.
    intros [g1 a1 t1 c1 c' Ex LV|g1 a1 t1 c1 g2 a2 t2 c2 Ex LV Ef]; apply tag_some in Ex as [t0 [-> Ex]].
    - exists t0. split; [reflexivity|]. eapply alt_stop; eauto.
    - exists (t0 ++ t2). split; [reflexivity|]. eapply alt_go; eauto.
  Qed.

  (* x at depth d1 (the generators below d1 are not touched), then: stop (what has to be closed is closed),
     or f from the state x left *)
  Lemma alt_sim lv (x : res) (f : glob -> res) d1 d st g' a tr c :
    d <= d1 ->
    (forall g1 a1 t1 c1, x = Some (g1, a1, t1, c1) -> simres d1 st g1 t1) ->
    (forall g1 a1 t1 c1 c' st1, x = Some (g1, a1, t1, c1) -> lv c1 = Some c' -> Rst g1 st1 ->
       (forall i, i < d1 -> scur st1 i = scur st i) -> simres d st1 g1 []) ->
    (forall g1 a1 t1 c1 g2 a2 t2 c2 st1, x = Some (g1, a1, t1, c1) -> lv c1 = None -> f g1 = Some (g2, a2, t2, c2) -> Rst g1 st1 ->
       (forall i, i < d1 -> scur st1 i = scur st i) -> simres d st1 g2 t2) ->
    alt_case lv x f g' a tr c -> simres d st g' tr.
  Proof.
    intros L Hx Hstop Hf [g1 a1 t1 c1 c' Ex LV|g1 a1 t1 c1 g2 a2 t2 c2 Ex LV Ef]; pose proof (Hx _ _ _ _ Ex) as S1.
    - rewrite <- (app_nil_r t1). apply (@simres_seq d1 d st g1 t1 g1 []); [exact L|exact S1|].
      intros st1 R1 Fr1. eapply Hstop; eauto.
    - apply (@simres_seq d1 d st g1 t1 g2 t2); [exact L|exact S1|].
      intros st1 R1 Fr1. eapply Hf; eauto.
  Qed.

  Lemma match_both F n s args r f l u n1 :
    (forall w, F w = true -> w < n) -> ctx F n s args r (f :: l) ->
    answer_match_fast uf s n args (fargs f) = (u, n1) ->
    match u with
    | UOk s' => exists a, mt (map (den s) args) (fargs f) = MYes a /\ ans_eqv (map (den_fast s') args) a
    | UFail => mt (map (den s) args) (fargs f) = MNo
    | _ => mt (map (den s) args) (fargs f) = MStuck
    end.
  Proof.
    intros R [W G La _ Fl] H. inversion Fl as [|? ? Ff _]; subst. rewrite answer_match_fast_eq in H.
    destruct (@match_sim uf F s n args f W G R La Ff) as [_ X]. rewrite H in X. simpl in X.
    destruct u as [s'| | |]; auto. destruct X as [a [A B]]. exists a. split; auto.
    exists (shiftp (Nat.max (bound_list (map (den s) args)) (bound_list (fargs f)))
                   (n - Nat.max (bound_list (map (den s) args)) (bound_list (fargs f)))).
    split; [apply shiftp_inj|]. rewrite <- B. apply map_ext. intros x. apply den_fast_eq.
  Qed.

  Lemma qnext_nil st d pat : qnext mt st d pat [] = Some (set_cur st d CDone, OEnd).
  Proof. reflexivity. Qed.
  Lemma qnext_no st d pat f l : mt pat (fargs f) = MNo -> qnext mt st d pat (f :: l) = qnext mt st d pat l.
  Proof. intros E. unfold qnext. cbn [qscan]. rewrite E. reflexivity. Qed.
  Lemma qnext_yes st d pat f l a : mt pat (fargs f) = MYes a ->
    qnext mt st d pat (f :: l) = Some (set_cur st d (CQRun pat l), OAns (fid f) a).
  Proof. intros E. unfold qnext. cbn [qscan]. rewrite E. reflexivity. Qed.

  Lemma rnext_nil st d k pat : rnext mt st d k pat [] = Some (set_cur st d CDone, OEnd).
  Proof. reflexivity. Qed.
  Lemma rnext_no st d k pat f l : mt pat (fargs f) = MNo -> rnext mt st d k pat (f :: l) = rnext mt st d k pat l.
  Proof. intros E. unfold rnext. cbn [rscan]. rewrite E. reflexivity. Qed.
  Lemma rnext_gone st d k pat f l a : mt pat (fargs f) = MYes a -> has_id (fid f) (sdb st k) = false ->
    rnext mt st d k pat (f :: l) = rnext mt st d k pat l.
  Proof. intros E Hh. unfold rnext. cbn [rscan]. rewrite E, Hh. reflexivity. Qed.
  Lemma rnext_yes st d k pat f l a : mt pat (fargs f) = MYes a -> has_id (fid f) (sdb st k) = true ->
    rnext mt st d k pat (f :: l) =
      Some (set_cur (set_db st (upd k (del_id (fid f) (sdb st k)) (sdb st))) d (CRRun k pat l), ORet k (fid f) a).
  Proof. intros E Hh. unfold rnext. cbn [rscan]. rewrite E, Hh. reflexivity. Qed.

  (* retractall: the same pass *)
  Lemma rallh_rall F s args r : forall l n keep gone n',
    (forall w, F w = true -> w < n) -> ctx F n s args r l ->
    rallh uf s args l n = Some (keep, gone, n') -> rall mt (map (den s) args) l = Some (keep, gone).
  Proof.
    induction l as [|f l IH]; intros n keep gone n' R C H; cbn [rall].
    - injection H as <- <- <-. reflexivity.
    - destruct (rallh_cons _ _ _ _ _ _ H) as [s1 n1 k' g' n2 M E|n1 k' g' n2 M E];
        pose proof (match_both R C M) as MB;
        destruct (ctx_match R C M) as [L [C1 _]];
        rewrite (IH _ _ _ _ (fun w Hw => Nat.lt_le_trans _ _ _ (R w Hw) L) C1 E).
      + destruct MB as [a [-> _]]. reflexivity.
      + rewrite MB. reflexivity.
  Qed.

  Definition sim_rec (rec : list goal -> store -> glob -> res) : Prop :=
    forall gs s g g' a tr c F, cinv F gs s g -> rec gs s g = Some (g', a, tr, c) ->
    forall d st, Rst g st -> simres d st g' tr.

  Section Loops.
    Variable rec : list goal -> store -> glob -> res.
    Hypothesis Hinv : inv_rec rec.
    Hypothesis Hsim : sim_rec rec.

    (* loop invariant: the generator d of the cursor machine is about to scan l - its next() is qnext over l, whether it
       has just been started on the current list or was suspended with l left; the same with rnext for scanr *)
    Lemma scanq_sim args r s d : forall l g g' a tr fl F, ginv F g -> ctx F (gn g) s args r l ->
      scanq uf rec args r s l g = Some (g', a, tr, fl) ->
      forall st, Rst g st -> step mt st (ENext d) = qnext mt st d (map (den s) args) l ->
      simres d st g' tr.
    Proof.
      induction l as [|f l IH]; intros g g' a tr fl F I C H st R N; cbn [scanq] in H.
      - injection H as <- <- <- <-. rewrite qnext_nil in N.
        apply (@simres_silent d st (ENext d) _ OEnd g [] N eq_refl (set_cur_frame st CDone)).
        apply simres_close; [apply Rst_set_cur; exact R|]. simpl. rewrite Nat.eqb_refl. reflexivity.
      - destruct (answer_match_fast uf s (gn g) args (fargs f)) as [u n1] eqn:M.
        pose proof (match_both (gi_range I) C M) as MB.
        destruct (ctx_match (gi_range I) C M) as [L [C1 Po]]. pose proof (ginv_set_n I L) as I1.
        destruct u as [s'| | |]; try discriminate.
        + destruct MB as [a0 [MY AE]]. pose proof (Po _ I1 eq_refl) as CI.
          apply alt_some in H. apply alt_tag in H as [t0 [-> H]].
          rewrite (@qnext_yes st d _ _ l _ MY) in N.
          eapply simres_out; [exact N|reflexivity|simpl; auto|apply set_cur_frame|].
          set (st1 := set_cur st d (CQRun (map (den s) args) l)).
          assert (R1: Rst (set_n g n1) st1) by (apply Rst_set_n; apply Rst_set_cur; exact R).
          eapply (@alt_sim lv_loop _ _ (S d) d st1); [lia| | | |exact H].
          * intros g1 a1 t1 c1 ER. eapply Hsim; [exact CI|exact ER|exact R1].
          * intros g1 a1 t1 c1 c' st2 ER _ R2 Fr2. apply simres_close'; [exact R2|].
            rewrite (Fr2 d) by lia. unfold st1. simpl. rewrite Nat.eqb_refl. discriminate.
          * intros g1 a1 t1 c1 g2 a2 t2 c2 st2 ER _ ES R2 Fr2. destruct (Hinv CI ER) as [F1 [G1 I1']]. simpl in G1.
            eapply IH; [exact I1'|exact (ctx_mono G1 C1)|exact ES|exact R2|].
            cbn [step]. rewrite (Fr2 d) by lia. unfold st1. simpl. rewrite Nat.eqb_refl. reflexivity.
        + rewrite (@qnext_no st d _ _ l MB) in N.
          eapply IH; [exact I1|exact C1|exact H|apply Rst_set_n; exact R|exact N].
    Qed.

    Lemma scanr_sim k args r s d : forall l g g' a tr fl F, ginv F g -> ctx F (gn g) s args r l ->
      scanr uf rec k args r s l g = Some (g', a, tr, fl) ->
      forall st, Rst g st -> step mt st (ENext d) = rnext mt st d k (map (den s) args) l ->
      simres d st g' tr.
    Proof.
      induction l as [|f l IH]; intros g g' a tr fl F I C H st R N; cbn [scanr] in H.
      - injection H as <- <- <- <-. rewrite rnext_nil in N.
        apply (@simres_silent d st (ENext d) _ OEnd g [] N eq_refl (set_cur_frame st CDone)).
        apply simres_close; [apply Rst_set_cur; exact R|]. simpl. rewrite Nat.eqb_refl. reflexivity.
      - destruct (answer_match_fast uf s (gn g) args (fargs f)) as [u n1] eqn:M.
        pose proof (match_both (gi_range I) C M) as MB.
        destruct (ctx_match (gi_range I) C M) as [L [C1 Po]]. pose proof (ginv_set_n I L) as I1.
        assert (HI: has_id (fid f) (sdb st k) = has_id (fid f) (gdb g k)) by (destruct R as [R1 _]; rewrite R1; reflexivity).
        destruct u as [s'| | |]; try discriminate.
        + destruct MB as [a0 [MY AE]].
          destruct (has_id (fid f) (gdb g k)) eqn:HG.
          * set (g0 := mkg (upd k (del_id (fid f) (gdb g k)) (gdb g)) (gid g) n1 (gw g)) in *.
            pose proof (Po g0 (ginv_del k (fid f) I L) eq_refl) as CI.
            apply alt_some in H. apply alt_tag in H as [t0 [-> H]].
            rewrite (@rnext_yes st d k _ _ l _ MY HI) in N.
            eapply simres_out; [exact N|reflexivity|simpl; auto|intros c Hc; simpl; destruct (Nat.eqb_spec c d); [lia|reflexivity]|].
            set (st1 := set_cur (set_db st (upd k (del_id (fid f) (sdb st k)) (sdb st))) d (CRRun k (map (den s) args) l)).
            assert (R1: Rst g0 st1).
            { destruct R as [Ra Rb]. split; simpl; auto. apply upd_ext; auto. rewrite Ra. reflexivity. }
            eapply (@alt_sim lv_loop _ _ (S d) d st1); [lia| | | |exact H].
            -- intros g1 a1 t1 c1 ER. eapply Hsim; [exact CI|exact ER|exact R1].
            -- intros g1 a1 t1 c1 c' st2 ER _ R2 Fr2. apply simres_close'; [exact R2|].
               rewrite (Fr2 d) by lia. unfold st1. simpl. rewrite Nat.eqb_refl. discriminate.
            -- intros g1 a1 t1 c1 g2 a2 t2 c2 st2 ER _ ES R2 Fr2. destruct (Hinv CI ER) as [F1 [G1 I1']]. simpl in G1.
               eapply IH; [exact I1'|exact (ctx_mono G1 C1)|exact ES|exact R2|].
               cbn [step]. rewrite (Fr2 d) by lia. unfold st1. simpl. rewrite Nat.eqb_refl. reflexivity.
          * eapply IH; [exact I1|exact C1|exact H|apply Rst_set_n; exact R|].
            rewrite N. apply (@rnext_gone st d k _ _ l _ MY). exact HI.
        + eapply IH; [exact I1|exact C1|exact H|apply Rst_set_n; exact R|].
          rewrite N. apply (@rnext_no st d k _ _ l MB).
    Qed.

    Lemma tryclauses_sim args r s d : forall cls g g' a tr fl F, Forall clause_ok cls -> ginv F g -> ctx F (gn g) s args r [] ->
      tryclauses uf rec args r s cls g = Some (g', a, tr, fl) -> forall st, Rst g st -> simres d st g' tr.
    Proof.
      induction cls as [|c cs IH]; intros g g' a tr fl F OK I C H st R; cbn [tryclauses] in H.
      - injection H as <- <- <- <-. apply simres_nil. exact R.
      - inversion OK as [|? ? Oc Ocs]; subst. destruct (ctx_clause uf I C Oc) as [I1 [C1 Po]].
        destruct (unify_arrays_fast uf s args (map (shift (gn g)) (chead c))) as [s'| | |]; try discriminate.
        + pose proof (Po _ eq_refl) as CI.
          eapply (@alt_sim lv_clause _ _ d d st); [lia| | | |apply alt_some; exact H].
          * intros g1 a1 t1 c1 ER. eapply Hsim; [exact CI|exact ER|apply Rst_set_n; exact R].
          * intros g1 a1 t1 c1 c' st2 ER _ R2 _. apply simres_nil. exact R2.
          * intros g1 a1 t1 c1 g2 a2 t2 c2 st2 ER _ ES R2 _. destruct (Hinv CI ER) as [F1 [G1 I1']]. simpl in G1.
            eapply IH; [exact Ocs|exact I1'|exact (ctx_mono G1 C1)|exact ES|exact R2].
        + eapply IH; [exact Ocs|exact I1|exact C1|exact H|apply Rst_set_n; exact R].
    Qed.
  End Loops.

  Section Solve.
    Variable prog : program.
    Hypothesis Hprog : prog_ok prog.

    Lemma solve_sim : forall n, sim_rec (solve uf prog n).
    Proof.
      induction n as [|n IH]; intros gs s g g' a tr fl F CI H d st R; [discriminate|].
      pose proof (@solve_inv uf prog Hprog n) as Hinv.
      destruct (solve_S_cases _ _ _ _ _ _ H) as [w [_ C]]. apply (cinv_tick w) in CI.
      assert (R': Rst (mkg (gdb g) (gid g) (gn g) w) st) by exact R.
      revert CI R' C. generalize (mkg (gdb g) (gid g) (gn g) w). clear g H R. intros g CI R C.
      destruct C as [s g|x y r s g s' g' ans tr c U E|x y r s g U|name args r s g g' ans tr c A
                    |front t r s g g' ans tr c CA E|front t r s g name args stored n1 g' ans tr c CA AI E
                    |t r s g CA|t r s g name args g' ans tr c CA E|t r s g CA|t r s g name args keep gone n1 g' ans tr c CA RA E
                    |r s g|r s g g' ans tr c E|ga gb r s g g' ans tr c A|gc gt ge r s g g' ans tr c A
                    |r s g g' ans tr c E|r s g g' ans tr c E];
        try (apply simres_nil; exact R);
        try (eapply IH; [exact (cinv_tail CI)|exact E|exact R]).
      - eapply IH; [exact (cinv_unify _ CI U)|exact E|exact R].
      - pose proof (cinv_call CI) as C.
        set (pat := map (den s) args).
        set (st0 := set_cur st d (CQNew (name, length pat) pat)).
        apply (@simres_silent d st (EStart d (QQuery name pat)) st0 OStart g' tr eq_refl eq_refl (set_cur_frame st _)).
        eapply (@alt_sim lv_loop _ _ d d st0); [lia| | | |exact A].
        + intros g1 a1 t1 c1 ES.
          eapply scanq_sim; [exact Hinv|exact IH|exact (ci_g CI)|exact C|exact ES|apply Rst_set_cur; exact R|].
          cbn [step]. unfold st0. simpl. rewrite Nat.eqb_refl. unfold pat. rewrite map_length.
          destruct R as [Ra _]. f_equal. apply Ra.
        + intros g1 a1 t1 c1 c' st2 ES _ R2 _. apply simres_nil. exact R2.
        + intros g1 a1 t1 c1 g2 a2 t2 c2 st2 ES _ ET R2 _.
          destruct (@scanq_inv uf _ Hinv args r s _ _ _ _ _ _ F (ci_g CI) C ES) as [F1 [G1 I1]].
          eapply tryclauses_sim; [exact Hinv|exact IH|apply clauses_of_ok; exact Hprog|exact I1| |exact ET|exact R2].
          exact (ctx_mono G1 (ctx_nil C)).
      - set (k := (name, length args)) in *.
        destruct (cinv_assert k CI AI) as [G1 CI1].
        assert (LS: length stored = length args).
        { rewrite answer_init_fast_eq in AI. unfold answer_init in AI.
          pose proof (copy_args_length s args (gn g)) as X. rewrite AI in X. exact X. }
        pose proof R as [Ra Rb].
        assert (ST: step mt st (EAssert front (TFun name stored)) =
                    Some (mkst (upd k (ins front (mkfact (gid g) stored) (sdb st k)) (sdb st)) (S (snext st)) (scur st),
                          OIns k front (mkfact (gid g) stored))).
        { cbn [step callable]. unfold do_assert. rewrite LS, Rb. reflexivity. }
        eapply simres_out; [exact ST|reflexivity|reflexivity|intros c0 _; reflexivity|].
        eapply IH; [exact CI1|exact E|].
        split; simpl; [|rewrite Rb; reflexivity]. apply upd_ext; auto. rewrite Ra. reflexivity.
      - pose proof (cinv_term CI (fun _ T => T) CA) as C.
        set (pat := map (den s) args).
        set (st0 := set_cur st d (CRNew (TFun name pat))).
        apply (@simres_silent d st (EStart d (QRetract (TFun name pat))) st0 OStart g' tr eq_refl eq_refl (set_cur_frame st _)).
        eapply scanr_sim; [exact Hinv|exact IH|exact (ci_g CI)|exact C|exact E|apply Rst_set_cur; exact R|].
        cbn [step]. unfold st0. simpl. rewrite Nat.eqb_refl. simpl.
        unfold pat. rewrite map_length. destruct R as [Ra _]. rewrite Ra. reflexivity.
      - set (k := (name, length args)) in *.
        destruct (cinv_retractall _ CI CA RA) as [L CI1].
        pose proof (rallh_rall (gi_range (ci_g CI)) (cinv_term CI (fun _ T => T) CA) RA) as RR. fold k in RR.
        pose proof R as [Ra Rb].
        assert (ST: step mt st (ERetractAll (TFun name (map (den s) args))) =
                    Some (set_db st (upd k keep (sdb st)), ORAll k gone)).
        { cbn [step callable]. rewrite map_length. fold k. rewrite Ra, RR. reflexivity. }
        eapply simres_out; [exact ST|reflexivity|reflexivity|intros c0 _; reflexivity|].
        eapply IH; [exact CI1|exact E|].
        split; simpl; auto. apply upd_ext; auto.
      - (* ; *) destruct (cinv_or CI) as [Ca Cb].
        eapply (@alt_sim lv_loop _ _ d d st); [lia| | | |exact A].
        + intros g1 a1 t1 c1 E. eapply IH; [exact Ca|exact E|exact R].
        + intros g1 a1 t1 c1 c' st2 E _ R2 _. apply simres_nil. exact R2.
        + intros g1 a1 t1 c1 g2 a2 t2 c2 st2 E _ E2 R2 _. destruct (Hinv _ _ _ _ _ _ _ _ Ca E) as [F1 [G1 I1]].
          eapply IH; [exact (cinv_mono G1 eq_refl I1 Cb)|exact E2|exact R2].
      - (* -> ; *) destruct (cinv_if CI) as [Cc Ce].
        eapply (@alt_sim lv_if _ _ d d st); [lia| | | |exact A].
        + intros g1 a1 t1 c1 E. eapply IH; [exact Cc|exact E|exact R].
        + intros g1 a1 t1 c1 c' st2 E _ R2 _. apply simres_nil. exact R2.
        + intros g1 a1 t1 c1 g2 a2 t2 c2 st2 E _ E2 R2 _. destruct (Hinv _ _ _ _ _ _ _ _ Cc E) as [F1 [G1 I1]].
          eapply IH; [exact (cinv_mono G1 eq_refl I1 Ce)|exact E2|exact R2].
    Qed.

    (* every run of a compiled body is a history of the cursor machine *)
    Theorem prog_run_is_cursor_history n gs s g g' a tr fl F st :
      cinv F gs s g -> solve uf prog n gs s g = Some (g', a, tr, fl) -> Rst g st ->
      exists evs st' outs, run mt st evs = Some (st', outs) /\ Rst g' st' /\ tr_eqv tr (dbouts outs).
    Proof.
      intros CI H R. destruct (@solve_sim n gs s g g' a tr fl F CI H 0 st R) as [evs [st' [outs [A [B [C _]]]]]].
      exists evs, st', outs. auto.
    Qed.
  End Solve.
End Sim.

(* the cursor machine in the state of the compiled run: same database, same identity counter, no generator *)
Definition st_of (g : glob) : DbCursor.st := mkst (gdb g) (gid g) (fun _ => CNone).

Lemma Rst_st_of g : Rst g (st_of g).
Proof. split; reflexivity. Qed.

Lemma removed_dbouts outs : removed (dbouts outs) = removed outs.
Proof.
  induction outs as [|o r IH]; simpl; auto. unfold removed in *. destruct o; simpl; rewrite ?IH; auto.
Qed.

Lemma tr_eqv_removed tr outs : tr_eqv tr outs -> removed tr = removed outs.
Proof.
  assert (One: forall o o', out_eqv o o' -> removed_of o = removed_of o').
  { intros o o' Q. destruct o; simpl in Q; try contradiction; try (rewrite <- Q; reflexivity);
      destruct o'; try contradiction; [reflexivity|].
    destruct Q as [_ [-> _]]. reflexivity. }
  induction 1 as [|o o' tr outs Q _ IH]; auto. unfold removed in *. simpl. rewrite IH, (One _ _ Q). reflexivity.
Qed.

Section Transfer.
  Variable uf : nat.
  Variable prog : program.
  Hypothesis Hprog : prog_ok prog.
  Notation mt := (match_fact uf).

  (* C14_no_lost_update / C14_retract_at_most_once / C07_ids_invariant of the history, read in the compiled run *)
  Theorem prog_history_no_lost_update n gs s g g' a tr fl F :
    cinv F gs s g -> ids_ok (gdb g) (gid g) -> solve uf prog n gs s g = Some (g', a, tr, fl) ->
    exists evs st' outs, run mt (st_of g) evs = Some (st', outs) /\ Rst g' st' /\ tr_eqv tr (dbouts outs) /\
      (forall k, gdb g' k = apply_outs outs (gdb g) k) /\ ids_ok (gdb g') (gid g') /\
      NoDup (removed outs) /\ removed tr = removed outs.
  Proof.
    intros CI I H. destruct (@prog_run_is_cursor_history uf prog Hprog n gs s g g' a tr fl F (st_of g) CI H (Rst_st_of g))
      as [evs [st' [outs [A [B C]]]]].
    exists evs, st', outs. split; [exact A|]. split; [exact B|]. split; [exact C|].
    destruct (@no_lost_update mt evs (st_of g) st' outs I A) as [D E]. destruct B as [B1 B2].
    split; [intros k; rewrite <- B1; apply D|]. split; [rewrite <- B2; eapply ids_ok_ext; [exact B1|exact E]|].
    split; [exact (@retract_at_most_once mt evs (st_of g) st' outs I A)|].
    rewrite (tr_eqv_removed C). apply removed_dbouts.
  Qed.

  (* C14_cursor_visits_snapshot of the history: whatever the rest of the run does, every generator of the history
     that has its snapshot returns exactly the matching facts of that snapshot, in order, then StopIteration *)
  Theorem prog_history_cursor_visits_snapshot n gs s g g' a tr fl F :
    cinv F gs s g -> solve uf prog n gs s g = Some (g', a, tr, fl) ->
    exists evs st' outs, run mt (st_of g) evs = Some (st', outs) /\ Rst g' st' /\ tr_eqv tr (dbouts outs) /\
      forall pre post st1 o1 st2 o2 c L, evs = pre ++ post ->
        run mt (st_of g) pre = Some (st1, o1) -> run mt st1 post = Some (st2, o2) ->
        cur_stream mt (scur st1 c) = Some L -> no_ctl c post ->
        outs_of c post o2 = expect L (length (outs_of c post o2)).
  Proof.
    intros CI H. destruct (@prog_run_is_cursor_history uf prog Hprog n gs s g g' a tr fl F (st_of g) CI H (Rst_st_of g))
      as [evs [st' [outs [A [B C]]]]].
    exists evs, st', outs. split; [exact A|]. split; [exact B|]. split; [exact C|].
    intros pre post st1 o1 st2 o2 c L _ _ R2 HL NC. eapply cursor_visits_snapshot; eauto.
  Qed.

  (* C07_db_refines_list_spec of the history: when the history of the run is a sequence of atomic operations
     (no goal suspended around a database operation), what the run sees and leaves is what the list
     specification says *)
  Theorem prog_history_refines_list_spec n gs s g g' a tr fl F :
    cinv F gs s g -> ids_ok (gdb g) (gid g) -> solve uf prog n gs s g = Some (g', a, tr, fl) ->
    exists evs st' outs, run mt (st_of g) evs = Some (st', outs) /\ Rst g' st' /\ tr_eqv tr (dbouts outs) /\
      forall ops d0, evs = flat_map compile ops -> R d0 (st_of g) ->
        map vis outs = snd (srun mt d0 ops) /\ R (fst (srun mt d0 ops)) st'.
  Proof.
    intros CI I H. destruct (@prog_run_is_cursor_history uf prog Hprog n gs s g g' a tr fl F (st_of g) CI H (Rst_st_of g))
      as [evs [st' [outs [A [B C]]]]].
    exists evs, st', outs. split; [exact A|]. split; [exact B|]. split; [exact C|].
    intros ops d0 E0 R0. subst evs. exact (@db_refines_list_spec mt ops (st_of g) st' outs d0 I R0 A).
  Qed.
End Transfer.
