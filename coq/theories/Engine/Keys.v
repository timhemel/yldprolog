(* The string-level keys of eval_context:  f'{name}_{arity}'  and  f'{name}_n'.
   What holds: the pair (name, arity-or-variadic) can be read back from the key (split at the
   LAST underscore), so two different name/arity pairs never share a key - 'foo_1' is foo/1 and
   nothing else; foo_1/0 is 'foo_1_0' - and no key of this form is one of the API names of
   the default context. *)
From Coq Require Import String.
From Coq Require Import List Arith NArith Bool Lia.
Import ListNotations.
From YP Require Import Base.Str Engine.Resolve Engine.ResolveProofs.
Local Open Scope N_scope.

Definition dstep (a c : N) : N := a * 10 + (c - 48).
Definition dval (s : str) (a : N) : N := fold_left dstep s a.

Lemma pow10_succ f : 10 ^ N.of_nat (S f) = 10 * 10 ^ N.of_nat f.
Proof. rewrite Nat2N.inj_succ. apply N.pow_succ_r'. Qed.

Lemma dec_digits_val fuel : forall n acc,
  n < 10 ^ N.of_nat fuel -> dval (dec_digits_fuel fuel n acc) 0 = dval acc n.
Proof.
  induction fuel as [|f IH]; intros n acc Hlt.
  - simpl in Hlt. assert (n = 0) by lia. subst. reflexivity.
  - cbn [dec_digits_fuel]. rewrite pow10_succ in Hlt.
    assert (Hdm : n = 10 * (n / 10) + n mod 10) by (apply N.div_mod; lia).
    assert (Hm : n mod 10 < 10) by (apply N.mod_lt; lia).
    assert (Hql : n / 10 < 10 ^ N.of_nat f) by (apply N.div_lt_upper_bound; lia).
    (* n / 10 and n mod 10 become variables, so that lia below sees linear facts only *)
    revert Hdm Hm Hql. generalize (n / 10) as q. generalize (n mod 10) as m. intros m q Hdm Hm Hql.
    destruct (N.eqb_spec q 0) as [Hq|Hq].
    + unfold dval. cbn [fold_left]. unfold dstep at 2.
      replace (0 * 10 + (48 + m - 48)) with n by lia. reflexivity.
    + rewrite IH by exact Hql.
      unfold dval. cbn [fold_left]. unfold dstep at 2.
      replace (q * 10 + (48 + m - 48)) with n by lia. reflexivity.
Qed.

Lemma size_fuel_enough n : n < 10 ^ N.of_nat (S (N.to_nat (N.size n))).
Proof.
  rewrite Nat2N.inj_succ, N2Nat.id, N.pow_succ_r'.
  assert (H1 : n < 2 ^ N.size n) by apply N.size_gt.
  assert (H2 : 2 ^ N.size n <= 10 ^ N.size n) by (apply N.pow_le_mono_l; lia).
  lia.
Qed.

Lemma dec_of_N_val n : dval (dec_of_N n) 0 = n.
Proof. unfold dec_of_N. rewrite dec_digits_val by apply size_fuel_enough. reflexivity. Qed.

Lemma dec_of_N_inj n m : dec_of_N n = dec_of_N m -> n = m.
Proof. intros H. rewrite <- (dec_of_N_val n), <- (dec_of_N_val m), H. reflexivity. Qed.

Lemma dec_of_nat_inj n m : dec_of_nat n = dec_of_nat m -> n = m.
Proof. unfold dec_of_nat. intros H. apply dec_of_N_inj in H. lia. Qed.

(* the printed number consists of digits and is not empty *)
Definition is_digit (c : N) : bool := (48 <=? c) && (c <=? 57).

Lemma dec_digits_digits fuel : forall n acc,
  forallb is_digit acc = true -> forallb is_digit (dec_digits_fuel fuel n acc) = true.
Proof.
  induction fuel as [|f IH]; intros n acc Hacc; [exact Hacc|].
  cbn [dec_digits_fuel].
  assert (Hm : n mod 10 < 10) by (apply N.mod_lt; lia).
  assert (Hd : is_digit (48 + n mod 10) = true).
  { revert Hm. generalize (n mod 10) as m. intros m Hm.
    unfold is_digit. apply andb_true_iff. split; apply N.leb_le; lia. }
  destruct (N.eqb (n / 10) 0).
  - cbn [forallb]. rewrite Hd, Hacc. reflexivity.
  - apply IH. cbn [forallb]. rewrite Hd, Hacc. reflexivity.
Qed.

Lemma dec_digits_length fuel : forall n acc,
  (length acc <= length (dec_digits_fuel fuel n acc))%nat.
Proof.
  induction fuel as [|f IH]; intros n acc; [apply Nat.le_refl|].
  cbn [dec_digits_fuel]. destruct (N.eqb (n / 10) 0).
  - cbn [length]. apply Nat.le_succ_diag_r.
  - eapply Nat.le_trans; [|apply IH]. cbn [length]. apply Nat.le_succ_diag_r.
Qed.

Definition digits_ok (s : str) : bool :=
  match s with [] => false | _ => forallb is_digit s end.

Lemma dec_of_nat_digits n : digits_ok (dec_of_nat n) = true.
Proof.
  unfold dec_of_nat, dec_of_N.
  set (fu := N.to_nat (N.size (N.of_nat n))).
  assert (Hl := dec_digits_length (S fu) (N.of_nat n) []).
  assert (Hd := dec_digits_digits (S fu) (N.of_nat n) [] eq_refl).
  cbn [dec_digits_fuel] in *.
  destruct (N.eqb (N.of_nat n / 10) 0); [exact Hd|].
  assert (Hl2 := dec_digits_length fu (N.of_nat n / 10) [48 + N.of_nat n mod 10]).
  destruct (dec_digits_fuel fu (N.of_nat n / 10) [48 + N.of_nat n mod 10]); [destruct (Nat.nle_succ_0 _ Hl2)|exact Hd].
Qed.

Definition suffix_ok (s : str) : bool := digits_ok s || str_eqb s [110].

Lemma suffix_is_ok a : suffix_ok (suffix a) = true.
Proof.
  destruct a as [n|]; unfold suffix_ok, suffix.
  - rewrite dec_of_nat_digits. reflexivity.
  - reflexivity.
Qed.

Lemma digits_no_underscore s : forallb is_digit s = true -> ~ In 95 s.
Proof.
  intros H Hin. rewrite forallb_forall in H. specialize (H _ Hin). discriminate.
Qed.

Lemma suffix_no_underscore a : ~ In 95 (suffix a).
Proof.
  destruct a as [n|]; unfold suffix.
  - apply digits_no_underscore. assert (H := dec_of_nat_digits n). unfold digits_ok in H.
    destruct (dec_of_nat n); [discriminate | exact H].
  - intros [H|[]]. discriminate.
Qed.

Lemma suffix_inj a b : suffix a = suffix b -> a = b.
Proof.
  destruct a as [n|], b as [m|]; unfold suffix; intros H.
  - apply dec_of_nat_inj in H. congruence.
  - exfalso. assert (Hd := dec_of_nat_digits n). rewrite H in Hd. discriminate.
  - exfalso. assert (Hd := dec_of_nat_digits m). rewrite <- H in Hd. discriminate.
  - reflexivity.
Qed.

Lemma split_last_underscore (x1 : str) : forall x2 s1 s2,
  ~ In 95 s1 -> ~ In 95 s2 -> x1 ++ 95 :: s1 = x2 ++ 95 :: s2 -> x1 = x2 /\ s1 = s2.
Proof.
  induction x1 as [|c x1 IH]; intros [|c2 x2] s1 s2 H1 H2 H; simpl in H.
  - injection H as ->. auto.
  - injection H as <- ->. exfalso. apply H1. apply in_or_app. right. left. reflexivity.
  - injection H as -> <-. exfalso. apply H2. apply in_or_app. right. left. reflexivity.
  - injection H as -> H. destruct (IH x2 s1 s2 H1 H2 H) as [-> ->]. auto.
Qed.

(* (name, arity) can be read back from the key *)
Theorem mkkey_inj n1 a1 n2 a2 : mkkey n1 a1 = mkkey n2 a2 -> n1 = n2 /\ a1 = a2.
Proof.
  unfold mkkey. intros H.
  apply split_last_underscore in H; try apply suffix_no_underscore.
  destruct H as [-> H]. apply suffix_inj in H. auto.
Qed.

(* the part after the last underscore (the whole string when there is none) *)
Fixpoint last_seg (k : str) : str :=
  match k with
  | [] => []
  | c :: r => if existsb (N.eqb 95) r then last_seg r else if N.eqb c 95 then r else k
  end.

Lemma existsb_95 s : existsb (N.eqb 95) s = true <-> In 95 s.
Proof.
  rewrite existsb_exists. split.
  - intros [x [Hin Hx]]. apply N.eqb_eq in Hx. subst. exact Hin.
  - intros H. exists 95. split; [exact H | reflexivity].
Qed.

Lemma last_seg_mk x : forall s, ~ In 95 s -> last_seg (x ++ 95 :: s) = s.
Proof.
  induction x as [|c x IH]; intros s Hs; simpl.
  - destruct (existsb (N.eqb 95) s) eqn:E; [apply existsb_95 in E; contradiction | reflexivity].
  - assert (existsb (N.eqb 95) (x ++ 95 :: s) = true) as ->.
    { apply existsb_95. apply in_or_app. right. left. reflexivity. }
    apply IH. exact Hs.
Qed.

Lemma last_seg_mkkey name a : last_seg (mkkey name a) = suffix a.
Proof. unfold mkkey. apply last_seg_mk. apply suffix_no_underscore. Qed.

(* no predicate key is the name of an API entry of the default context: registering or loading
   predicates cannot clobber atom, query, unify, ... *)
Theorem mkkey_not_api name a : ~ In (mkkey name a) api_names.
Proof.
  intros Hin.
  assert (H : existsb (fun k => suffix_ok (last_seg k)) api_names = true).
  { apply existsb_exists. exists (mkkey name a). split; [exact Hin|].
    rewrite last_seg_mkkey. apply suffix_is_ok. }
  vm_compute in H. discriminate.
Qed.

(* consequences for lookups *)
Lemma mkkey_eqb_false n1 a1 n2 a2 : (n1, a1) <> (n2, a2) -> str_eqb (mkkey n1 a1) (mkkey n2 a2) = false.
Proof.
  intros Hne. apply str_eqb_neq. intros H. apply mkkey_inj in H. destruct H; subst. congruence.
Qed.

(* a call name/N never sees what is filed under another name or another arity: assigning any
   other name/arity key (register, load) leaves the resolution of name/N as it was *)
Theorem resolve_set_other c name n name2 a2 v :
  (name2, a2) <> (name, AFix n) -> (name2, a2) <> (name, AVar) ->
  resolve (ctx_set c (mkkey name2 a2) v) name n = resolve c name n.
Proof.
  intros H1 H2. unfold resolve.
  rewrite !ctx_get_set_other; [reflexivity | |].
  - intros H. apply mkkey_inj in H. destruct H; subst. congruence.
  - intros H. apply mkkey_inj in H. destruct H; subst. congruence.
Qed.
