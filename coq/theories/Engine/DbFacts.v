(* Stored facts as independent copies (engine.py: copy_term, Answer.__init__, Answer.match).

   copy_term(term, mapping): dereference (deep get_value), replace every variable that is still
   unbound by a NEW variable, the same one for the same variable (the mapping dictionary), copy
   compound terms argument by argument.  Answer.__init__ copies all arguments of the asserted
   term with ONE mapping; Answer.match copies the stored arguments again with one new mapping and
   unifies the goal's arguments with that copy.

   Variables are cells numbered by an allocation counter: `Variable()` returns cell n and the
   counter becomes n+1.  The heap is a triangular store (Term.v); den s = deep get_value. *)
From Coq Require Import List Arith Bool Lia ZArith.
Import ListNotations.
From YP Require Import Base.Str Term.Term Unify.Unify Engine.Db.
Set Implicit Arguments.

(* mapping dictionary of copy_term (old cell -> new cell) and allocation counter *)
Definition rstate := (list (nat * nat) * nat)%type.

Fixpoint mfind (v : nat) (m : list (nat * nat)) : option nat :=
  match m with
  | [] => None
  | (a, b) :: r => if Nat.eqb v a then Some b else mfind v r
  end.

(* copy_term on a term that is already dereferenced *)
Fixpoint ren (t : term) (st : rstate) {struct t} : term * rstate :=
  match t with
  | TVar v =>
      match mfind v (fst st) with
      | Some w => (TVar w, st)
      | None => (TVar (snd st), ((v, snd st) :: fst st, S (snd st)))
      end
  | TFun f args =>
      let r := (fix go (l : list term) (st : rstate) {struct l} : list term * rstate :=
                  match l with
                  | [] => ([], st)
                  | x :: r => let (x', st1) := ren x st in let (r', st2) := go r st1 in (x' :: r', st2)
                  end) args st in
      (TFun f (fst r), snd r)
  | _ => (t, st)
  end.

Fixpoint ren_list (l : list term) (st : rstate) : list term * rstate :=
  match l with
  | [] => ([], st)
  | x :: r => let (x', st1) := ren x st in let (r', st2) := ren_list r st1 in (x' :: r', st2)
  end.

Lemma ren_fun f args st : ren (TFun f args) st = (TFun f (fst (ren_list args st)), snd (ren_list args st)).
Proof.
  simpl.
  assert (E: forall l st0, (fix go (l : list term) (st : rstate) {struct l} : list term * rstate :=
                  match l with
                  | [] => ([], st)
                  | x :: r => let (x', st1) := ren x st in let (r', st2) := go r st1 in (x' :: r', st2)
                  end) l st0 = ren_list l st0).
  { induction l as [|x r IH]; intros st0; simpl; auto.
    all: try (destruct (ren x st0) as [x' st1]; rewrite IH; reflexivity). }
  rewrite E. reflexivity.
Qed.

Lemma term_list_ind (P : term -> Prop) (Q : list term -> Prop) :
  (forall t, match t with TFun _ _ => True | _ => P t end) ->
  (forall f args, Q args -> P (TFun f args)) ->
  Q [] -> (forall x r, P x -> Q r -> Q (x :: r)) ->
  (forall t, P t) /\ (forall l, Q l).
Proof.
  intros Leaf Fun Nil Cons.
  assert (T: forall t, P t).
  { induction t as [a|z|q|v|f args IH] using term_ind'.
    - apply (Leaf (TAtom a)).
    - apply (Leaf (TInt z)).
    - apply (Leaf (TStr q)).
    - apply (Leaf (TVar v)).
    - apply Fun. induction IH; auto. }
  split; [exact T|]. induction l; auto.
Qed.

(* [copy_term(v, mapping) for v in values] under the bindings s, allocating from cell n *)
Definition copy_args (s : store) (values : list term) (n : nat) : list term * nat :=
  let r := ren_list (map (den s) values) ([], n) in (fst r, snd (snd r)).

(* Answer(values) *)
Definition answer_init (s : store) (n : nat) (values : list term) : list term * nat := copy_args s values n.

(* Answer.match(args): the result of unify_arrays under s, and the new allocation counter *)
Definition answer_match (fuel : nat) (s : store) (n : nat) (goal stored : list term) : ures * nat :=
  let (cs, n') := copy_args s stored n in (unify_arrays fuel s goal cs, n').

(* largest cell mentioned in a term, plus one *)
Fixpoint bound (t : term) : nat :=
  match t with
  | TVar v => S v
  | TFun _ args => fold_right (fun x n => Nat.max (bound x) n) 0 args
  | _ => 0
  end.
Definition bound_list (l : list term) : nat := fold_right (fun x n => Nat.max (bound x) n) 0 l.

(* the matching function of the cursor machine (DbCursor.v): every cursor has its own pattern
   variables and nothing else is bound, so the match starts from the empty store; the copy of the
   fact is allocated beyond every cell of the pattern and of the stored fact *)
Definition match_fact (fuel : nat) (pat args : list term) : mres :=
  match answer_match fuel [] (Nat.max (bound_list pat) (bound_list args)) pat args with
  | (UOk s, _) => MYes (map (den s) pat)
  | (UFail, _) => MNo
  | _ => MStuck
  end.

(* "binds the pattern to it": an answer is the pattern under bindings that make it equal to the
   fresh copy of the stored fact *)
Lemma match_fact_sound fuel pat args a : match_fact fuel pat args = MYes a ->
  exists s, wf s /\ a = map (den s) pat /\
            a = map (den s) (fst (copy_args [] args (Nat.max (bound_list pat) (bound_list args)))).
Proof.
  unfold match_fact, answer_match. destruct (copy_args [] args (Nat.max (bound_list pat) (bound_list args))) as [cs n'] eqn:C.
  destruct (unify_arrays fuel [] pat cs) as [s| | |] eqn:U; try discriminate. intros H. injection H as <-.
  destruct (unify_arrays_sound _ _ _ wf_nil U) as [W [_ E]]. exists s. simpl. auto.
Qed.
