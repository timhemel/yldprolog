(* Executable entry points of the database models for the correspondence checks of C07, C14 (cursor
   machine, DbCursor.v) and C13 (heap machine, DbHeap.v). *)
From Coq Require Import String.
From Coq Require Import List ZArith Arith.
Import ListNotations.
Local Open Scope string_scope.
From YP Require Import Base.Str Term.Term Term.Show Unify.Unify Engine.Db Engine.DbCursor Engine.DbFacts Engine.DbHeap Engine.DbOpen.

Definition args_obs (a : list term) : obs := OL (map term_obs a).

Definition out_obs (o : out) : obs :=
  match o with
  | OIns _ _ _ => otag "ok" []
  | ONop => otag "ok" []
  | ORAll _ _ => otag "ok" []
  | OFailed => otag "fail" []
  | OClr => otag "ok" []
  | OStart => otag "ok" []
  | OClosed => otag "ok" []
  | OEnd => otag "end" []
  | OBad => otag "bad" []
  | OAns _ a => otag "ans" [args_obs a]
  | ORet _ _ a => otag "ans" [args_obs a]
  | OAll l => otag "all" [OL (map args_obs l)]
  end.

(* the observations of a history, event by event; a stuck step (a match outside the specified
   domain) ends the list with the marker "stuck" *)
Fixpoint run_obs (mt : list term -> list term -> mres) (s : st) (evs : list ev) : list obs :=
  match evs with
  | [] => []
  | e :: r =>
      match step mt s e with
      | None => [otag "stuck" []]
      | Some (s1, o) => out_obs o :: run_obs mt s1 r
      end
  end.

Definition run_events (fuel : nat) (evs : list ev) : obs := OL (run_obs (match_fact fuel) init evs).

Lemma run_obs_run mt s evs s' outs : run mt s evs = Some (s', outs) -> run_obs mt s evs = map out_obs outs.
Proof.
  revert s s' outs. induction evs as [|e r IH]; intros s s' outs H; simpl in *.
  - injection H as _ <-. reflexivity.
  - destruct (step mt s e) as [[s1 o]|]; [|discriminate].
    destruct (run mt s1 r) as [[s2 os]|] eqn:E; [|discriminate]. injection H as _ <-. simpl. f_equal. eauto.
Qed.

(* histories with operations over the variables of open cursors (DbOpen.v) *)
Fixpoint xrun_obs (fuel : nat) (x : xst) (xs : list xev) : list obs :=
  match xs with
  | [] => []
  | xe :: r =>
      match xstep fuel x xe with
      | None => [otag "stuck" []]
      | Some (x1, _, o) => out_obs o :: xrun_obs fuel x1 r
      end
  end.

Definition run_xevents (fuel : nat) (xs : list xev) : obs := OL (xrun_obs fuel xinit xs).

Lemma xrun_obs_xrun fuel x xs x' es outs : xrun fuel x xs = Some (x', es, outs) -> xrun_obs fuel x xs = map out_obs outs.
Proof.
  revert x x' es outs. induction xs as [|xe r IH]; intros x x' es outs H; simpl in *.
  - injection H as _ _ <-. reflexivity.
  - destruct (xstep fuel x xe) as [[[x1 e] o]|]; [|discriminate].
    destruct (xrun fuel x1 r) as [[[x2 es2] os]|] eqn:E; [|discriminate]. injection H as _ _ <-. simpl. f_equal. eauto.
Qed.

Definition hout_obs (o : hout) : obs :=
  match o with
  | HOk => otag "ok" []
  | HFail => otag "fail" []
  | HEnd => otag "end" []
  | HBad => otag "bad" []
  | HAns a => otag "ans" [args_obs a]
  | HSeen a => otag "seen" [args_obs a]
  | HAll l => otag "all" [OL (map args_obs l)]
  end.

Fixpoint hrun_obs (fuel : nat) (h : hst) (ops : list hop) : list obs :=
  match ops with
  | [] => []
  | o :: r =>
      match hstep fuel h o with
      | None => [otag "stuck" []]
      | Some (h1, x) => hout_obs x :: hrun_obs fuel h1 r
      end
  end.

(* p = number of program variables (cells 0..p-1) *)
Definition run_heap (fuel : nat) (p : nat) (ops : list hop) : obs := OL (hrun_obs fuel (hinit p) ops).
