(* "none of these raises": the only way the cursor machine does not return a result is a match outside
   the specified domain (MStuck: the match would build a cyclic term, or the model's fuel ran out).  For
   every matching function that is never stuck, every event of every history returns - zero-argument
   facts, goals that are not callable, predicates that were never asserted, exhausted or closed cursors
   included (next/close of a generator that was never created returns the marker OBad). *)
From Coq Require Import List Arith Bool Lia.
Import ListNotations.
From YP Require Import Base.Str Term.Term Engine.Db Engine.DbCursor.
Set Implicit Arguments.

Section Total.
  Variable mt : list term -> list term -> mres.
  Hypothesis never_stuck : forall pat args, mt pat args <> MStuck.

  Lemma qscan_total pat l : qscan mt pat l <> None.
  Proof.
    induction l as [|f l IH]; simpl; [discriminate|].
    destruct (mt pat (fargs f)) eqn:E; auto; [discriminate|]. exfalso. eapply never_stuck; eauto.
  Qed.
  Lemma rscan_total pat cur l : rscan mt pat cur l <> None.
  Proof.
    induction l as [|f l IH]; simpl; [discriminate|].
    destruct (mt pat (fargs f)) eqn:E; auto.
    - destruct (has_id (fid f) cur); auto. discriminate.
    - exfalso. eapply never_stuck; eauto.
  Qed.
  Lemma rall_total pat l : rall mt pat l <> None.
  Proof.
    induction l as [|f l IH]; simpl; [discriminate|].
    destruct (mt pat (fargs f)) eqn:E; try (destruct (rall mt pat l) as [[k g]|]; [discriminate|contradiction]).
    exfalso. eapply never_stuck; eauto.
  Qed.
  Lemma qall_total pat l : qall mt pat l <> None.
  Proof.
    induction l as [|f l IH]; simpl; [discriminate|].
    destruct (mt pat (fargs f)) eqn:E; auto.
    - destruct (qall mt pat l); [discriminate|contradiction].
    - exfalso. eapply never_stuck; eauto.
  Qed.

  Lemma qnext_total s c pat l : qnext mt s c pat l <> None.
  Proof.
    unfold qnext. pose proof (qscan_total pat l).
    destruct (qscan mt pat l) as [[[[f a] r]|]|]; [discriminate|discriminate|contradiction].
  Qed.
  Lemma rnext_total s c k pat l : rnext mt s c k pat l <> None.
  Proof.
    unfold rnext. pose proof (rscan_total pat (sdb s k) l).
    destruct (rscan mt pat (sdb s k) l) as [[[[f a] r]|]|]; [discriminate|discriminate|contradiction].
  Qed.

  Lemma step_total s e : step mt s e <> None.
  Proof.
    destruct e as [front t|name args app|c q|c|c|t|name args|]; simpl; try discriminate.
    - destruct (callable t) as [[n a]|]; discriminate.
    - destruct (scur s c) as [|k pat|pat rest|t|k pat rest|];
        [discriminate|apply qnext_total|apply qnext_total| |apply rnext_total|discriminate].
      destruct (callable t) as [[n a]|]; [apply rnext_total|discriminate].
    - destruct (scur s c); discriminate.
    - destruct (callable t) as [[n a]|]; [|discriminate].
      pose proof (rall_total a (sdb s (n, length a))).
      destruct (rall mt a (sdb s (n, length a))) as [[keep gone]|]; [discriminate|contradiction].
    - pose proof (qall_total args (sdb s (name, length args))).
      destruct (qall mt args (sdb s (name, length args))); [discriminate|contradiction].
  Qed.

  Theorem run_total : forall evs s, exists s' outs, run mt s evs = Some (s', outs).
  Proof.
    induction evs as [|e r IH]; intros s; simpl; [eexists; eexists; reflexivity|].
    pose proof (step_total s e). destruct (step mt s e) as [[s1 o]|]; [|contradiction].
    destruct (IH s1) as [s2 [os E2]]. rewrite E2. eexists; eexists; reflexivity.
  Qed.
End Total.
