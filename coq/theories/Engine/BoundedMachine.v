(* C17 for the engine model of compiled programs (Sem/Machine.v):

     query n ir name args st     n = nesting depth of YP.query calls that fits under the recursion limit;
                                 at n = 0 the call raises (RecursionError)

   Proved here: the answer sequence of EVERY query against EVERY IR program (with the builtins =, \=, call/N,
   once/1, findall/3) is prefix-monotone in n - the hypothesis `ans_mono` of Engine/Bounded.v.  The reason is
   structural: nothing in the emitted code or in the builtins catches an exception, answers delivered before
   it stay delivered (Sem/ExecMono.v), once/1 and if-then-else look at the first answer only, findall/3 and
   \+ deliver nothing when the inner search raises. *)
From Coq Require Import String.
From Coq Require Import List Arith Bool Lia ZArith.
Import ListNotations.
From YP Require Import Base.Str Term.Term Term.Fast Unify.Unify Lang.Ast Comp.IR Comp.CompileBody Sem.IRSem Sem.ExecMono Sem.Machine
  Sem.RunSem Sem.ProgramCorrect Engine.Bounded Engine.RunBoundedM.
Local Open Scope string_scope.
Local Open Scope list_scope.

Definition callT := str -> list term -> st -> list st * bool.
Definition call_le (c1 c2 : callT) : Prop := forall name args s, le_b (c1 name args s) (c2 name args s).

Lemma call_goal_mono c1 c2 : call_le c1 c2 -> forall g extra s, le_b (call_goal c1 g extra s) (call_goal c2 g extra s).
Proof.
  intros H g extra s. unfold call_goal. destruct (den_fast (sto s) g); try apply le_b_refl; apply H.
Qed.

Definition ole {A} (o1 o2 : option (list A * bool)) : Prop :=
  match o1, o2 with
  | Some r1, Some r2 => le_b r1 r2
  | None, None => True
  | _, _ => False
  end.

Lemma ole_refl {A} (o : option (list A * bool)) : ole o o.
Proof. destruct o; simpl; [apply le_b_refl | exact I]. Qed.

Lemma once_mono (r1 r2 : list st * bool) : le_b r1 r2 ->
  le_b (match r1 with (x :: _, _) => ([x], false) | ([], e) => ([], e) end)
       (match r2 with (x :: _, _) => ([x], false) | ([], e) => ([], e) end).
Proof.
  destruct r1 as [l1 e1], r2 as [l2 e2]. unfold le_b; cbn [fst snd]. destruct e1.
  - intros [more ->]. destruct l1 as [|x l1]; cbn [app fst snd].
    + apply prefixl_nil.
    + reflexivity.
  - intros E. injection E as -> ->. destruct l1; reflexivity.
Qed.

Lemma findall_mono (r1 r2 : list st * bool) (k : list st -> list st * bool) : le_b r1 r2 ->
  le_b (let '(xs, e) := r1 in if e then ([], true) else k xs)
       (let '(xs, e) := r2 in if e then ([], true) else k xs).
Proof.
  destruct r1 as [l1 e1], r2 as [l2 e2]. unfold le_b at 1; cbn [fst snd]. destruct e1.
  - intros _. unfold le_b; cbn [fst snd]. apply prefixl_nil.
  - intros E. injection E as -> ->. apply le_b_refl.
Qed.

Lemma builtin_mono c1 c2 : call_le c1 c2 -> forall name args s, ole (builtin c1 name args s) (builtin c2 name args s).
Proof.
  intros H name args s.
  apply (builtin_cases c1 s (fun name args r => ole r (builtin c2 name args s))).
  - (* = *) intros a b. apply ole_refl.
  - (* \= *) intros a b. apply ole_refl.
  - (* call without a goal *) apply ole_refl.
  - (* call/N *) intros g extra. apply call_goal_mono. exact H.
  - (* once/1 *) intros g. apply once_mono. apply call_goal_mono. exact H.
  - (* findall/3 *) intros t g l.
    exact (@findall_mono _ _ (fun xs => let '(es, b) := collect 0 (nxt s) t xs in
                                        unify_st {| sto := sto s; nxt := b |} l (mk_list es))
                         (@call_goal_mono _ _ H g [] s)).
  - (* not a builtin, whatever the calls mean *) intros name0 args0 N. rewrite N. exact I.
Qed.

Lemma iter_mono c1 c2 : call_le c1 c2 -> forall it c, le_b (iter c1 it c) (iter c2 it c).
Proof.
  intros H it [r s]. unfold iter.
  destruct it as [| | |f args|]; try apply le_b_refl.
  destruct args as [|a [|b [|? ?]]]; try apply le_b_refl.
  destruct (str_eqb f (s_ "unify")); [apply le_b_refl|].
  destruct (str_eqb f (s_ "query")); [|apply le_b_refl].
  (* what is left is the call  query(name, [items]) : the only iterator that consults the calls *)
  destruct a as [| name | | |]; try apply le_b_refl. destruct b as [| | | | items]; try apply le_b_refl.
  pose proof (H name (map (eval_expr r) items) s) as L.
  apply (le_b_map (fun x : st => (r, x))) in L.
  destruct (c1 name (map (eval_expr r) items) s) as [xs1 e1]. destruct (c2 name (map (eval_expr r) items) s) as [xs2 e2].
  exact L.
Qed.

Definition run_res (r : list cfg * compl) : list st * bool :=
  (map snd (fst r), match snd r with CErr => true | _ => false end).

Lemma run_res_mono (r1 r2 : list cfg * compl) : le_run r1 r2 -> le_b (run_res r1) (run_res r2).
Proof.
  destruct r1 as [ys1 k1], r2 as [ys2 k2]. unfold le_run, run_res, le_b; cbn [fst snd].
  destruct k1; try (intros E; injection E as -> ->; reflexivity).
  apply prefixl_map.
Qed.

(* one level of YP.query, as a function of the meaning of the calls made from the bodies *)
Definition qstep (p : ir_program) (c : callT) : callT := fun name args s =>
  match find_func p name (length args) with
  | Some f => run_res (run_function (iter c) assign (fn_body f) (bind_args 0 args, s))
  | None => match builtin c name args s with Some r => r | None => ([], false) end
  end.

Lemma query_S n p name args s : query (S n) p name args s = qstep p (query n p) name args s.
Proof.
  unfold qstep. cbn [query]. destruct (find_func p name (length args)); [|reflexivity].
  unfold run_res. destruct (run_function _ _ _ _) as [ys k]. reflexivity.
Qed.

Lemma qstep_mono p c1 c2 : call_le c1 c2 -> call_le (qstep p c1) (qstep p c2).
Proof.
  intros H name args s. unfold qstep. destruct (find_func p name (length args)) as [f|].
  - apply run_res_mono. apply run_function_mono. apply iter_mono. exact H.
  - pose proof (@builtin_mono _ _ H name args s) as B.
    destruct (builtin c1 name args s), (builtin c2 name args s); simpl in B; try contradiction; [exact B | apply le_b_refl].
Qed.

Lemma query_mono_S p : forall n, call_le (query n p) (query (S n) p).
Proof.
  induction n as [|n IH]; intros name args s.
  - unfold le_b; cbn [query fst snd]. apply prefixl_nil.
  - rewrite (query_S (S n)), (query_S n). apply qstep_mono. exact IH.
Qed.

Theorem query_mono p n m : n <= m -> call_le (query n p) (query m p).
Proof.
  induction 1 as [|m L IH]; intros name args s; [apply le_b_refl|].
  eapply le_b_trans; [apply IH | apply query_mono_S].
Qed.

Lemma prefixl_prefix {A} (a b : list A) : prefixl a b -> prefix a b.
Proof. intros [x ->]. exists x. reflexivity. Qed.

Lemma le_b_res_le {A B} (f : A -> B) (r1 r2 : list A * bool) : le_b r1 r2 ->
  res_le (map f (fst r1), fin_of_bool (snd r1)) (map f (fst r2), fin_of_bool (snd r2)).
Proof.
  destruct r1 as [l1 e1], r2 as [l2 e2]. unfold le_b, res_le; cbn [fst snd]. destruct e1; cbn [fin_of_bool].
  - intros P. apply prefixl_prefix. apply prefixl_map. exact P.
  - intros E. injection E as -> ->. reflexivity.
Qed.

(* the hypothesis ans_mono of Engine/Bounded.v holds for every query of the machine *)
Theorem machine_ans_mono ir name args nq n m : n <= m ->
  res_le (machine_ans ir name args nq n) (machine_ans ir name args nq m).
Proof.
  intros L. unfold machine_ans. apply le_b_res_le. apply query_mono. exact L.
Qed.

Section MachineBounded.
  Variable ir : ir_program.
  Variable name : str.
  Variable args : list term.
  Variable nq : nat.

  Theorem machine_prefix_mono n m : n <= m ->
    prefix (fst (machine_ans ir name args nq n)) (fst (machine_ans ir name args nq m)) /\
    (snd (machine_ans ir name args nq n) = Norm -> machine_ans ir name args nq m = machine_ans ir name args nq n).
  Proof. apply prefix_mono. intros; apply machine_ans_mono; assumption. Qed.
End MachineBounded.
