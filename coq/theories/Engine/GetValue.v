(* C15: get_value / to_python of the engine (engine.py):

     def get_value(v):            IUnifiable -> v.get_value(), anything else -> v
     Atom.get_value               -> self
     Variable.get_value           -> self if unbound, else get_value(self._value)
     Functor.get_value            -> Functor(name, [get_value(a) for a in args])
     to_python / X.to_python      (see to_python below)

   The model is the fuelled function [gv] over a store that is an ARBITRARY association
   list (variable -> stored value, first match wins): nothing is assumed about the order in
   which the bindings were inserted.  The fuel is the Python recursion depth.
   Spec side: [den] (Term/Term.v, only meaningful on triangular stores), the order-free
   characterisation by iterated parallel substitution [sub1], and [py_of] for to_python. *)
From Coq Require Import String.
From Coq Require Import List Arith Bool Lia ZArith NArith Permutation.
Import ListNotations.
From YP Require Import Base.Str Term.Term.
Set Implicit Arguments.

Fixpoint mapM {A B} (f : A -> option B) (l : list A) : option (list B) :=
  match l with
  | [] => Some []
  | x :: r => match f x with
              | None => None
              | Some y => match mapM f r with None => None | Some ys => Some (y :: ys) end
              end
  end.

Lemma mapM_Forall2 {A B} (f : A -> option B) l rs :
  mapM f l = Some rs <-> Forall2 (fun x y => f x = Some y) l rs.
Proof.
  revert rs; induction l as [|x l IH]; intros rs; simpl.
  - split; intros H; [injection H as <-; constructor | inversion H; reflexivity].
  - split.
    + destruct (f x) as [y|] eqn:E; [|discriminate]. destruct (mapM f l) as [ys|] eqn:E2; [|discriminate].
      intros H; injection H as <-. constructor; [exact E | apply IH; reflexivity].
    + intros H; inversion H as [|x0 y l0 ys Hx Hr]; subst. rewrite Hx.
      apply IH in Hr. rewrite Hr. reflexivity.
Qed.

Lemma mapM_weaken {A B} (f g : A -> option B) l rs :
  (forall x y, In x l -> f x = Some y -> g x = Some y) -> mapM f l = Some rs -> mapM g l = Some rs.
Proof.
  intros H M. apply mapM_Forall2 in M. apply mapM_Forall2.
  induction M as [|x y l rs Hx Hr IH]; constructor.
  - apply H; [left; reflexivity | exact Hx].
  - apply IH. intros x0 y0 Hin. apply H. right; exact Hin.
Qed.

Lemma mapM_ext {A B} (f g : A -> option B) l :
  (forall x, In x l -> f x = g x) -> mapM f l = mapM g l.
Proof.
  induction l as [|x l IH]; intros H; simpl; auto.
  rewrite (H x (or_introl eq_refl)). rewrite IH; auto. intros y Hy. apply H. right; exact Hy.
Qed.

Fixpoint gv (n : nat) (s : store) (t : term) : option term :=
  match n with
  | O => None
  | S n' =>
      match t with
      | TVar v => match lookup v s with
                  | None => Some t                      (* not self._is_bound: return self *)
                  | Some u => gv n' s u                 (* return get_value(self._value) *)
                  end
      | TFun f args => match mapM (gv n' s) args with   (* Functor(name, [get_value(a) ...]) *)
                       | None => None
                       | Some rs => Some (TFun f rs)
                       end
      | _ => Some t                                     (* Atom.get_value / raw constants *)
      end
  end.

(* a get_value that returns the stored value of a variable as it stands, following only variable-to-variable links:
   what the engine must NOT do (pinned_get_value_leaks shows the bound variable it leaves inside the result) *)
Fixpoint gv_pinned (n : nat) (s : store) (t : term) : option term :=
  match n with
  | O => None
  | S n' =>
      match t with
      | TVar v => match lookup v s with
                  | None => Some t
                  | Some (TVar w) => gv_pinned n' s (TVar w)
                  | Some u => Some u
                  end
      | TFun f args => match mapM (gv_pinned n' s) args with
                       | None => None
                       | Some rs => Some (TFun f rs)
                       end
      | _ => Some t
      end
  end.

Definition ground (t : term) : Prop := forall w, occurs w t = false.

Theorem gv_free n : forall s t r, gv n s t = Some r -> free_in s r.
Proof.
  induction n as [|n IH]; intros s t r H; [discriminate|].
  destruct t as [a|z|q|v|f args]; simpl in H.
  - injection H as <-. intros w Hw; discriminate.
  - injection H as <-. intros w Hw; discriminate.
  - injection H as <-. intros w Hw; discriminate.
  - destruct (lookup v s) as [u|] eqn:L.
    + eapply IH; exact H.
    + injection H as <-. intros w Hw. simpl in Hw. apply Nat.eqb_eq in Hw. subst. exact L.
  - destruct (mapM (gv n s) args) as [rs|] eqn:M; [|discriminate]. injection H as <-.
    apply mapM_Forall2 in M. intros w Hw. apply occurs_fun in Hw as [a [Hin Ho]].
    clear -M IH Hin Ho. induction M as [|x y l rs Hx Hr IHr]; [contradiction|].
    destruct Hin as [<-|Hin]; [exact (IH _ _ _ Hx w Ho) | exact (IHr Hin)].
Qed.

Lemma gv_S_var n s v : gv (S n) s (TVar v) = match lookup v s with None => Some (TVar v) | Some u => gv n s u end.
Proof. reflexivity. Qed.
Lemma gv_S_fun n s f args : gv (S n) s (TFun f args) =
  match mapM (gv n s) args with None => None | Some rs => Some (TFun f rs) end.
Proof. reflexivity. Qed.

Lemma gv_mono_S n : forall s t r, gv n s t = Some r -> gv (S n) s t = Some r.
Proof.
  induction n as [|n IH]; intros s t r H; [discriminate|].
  destruct t as [a|z|q|v|f args]; try exact H.
  - rewrite gv_S_var in H |- *. destruct (lookup v s) as [u|]; [apply IH; exact H | exact H].
  - rewrite gv_S_fun in H |- *. destruct (mapM (gv n s) args) as [rs|] eqn:M; [|discriminate].
    rewrite (mapM_weaken (gv n s) (gv (S n) s) args (fun x y _ => IH s x y) M). exact H.
Qed.

Theorem gv_mono n m s t r : n <= m -> gv n s t = Some r -> gv m s t = Some r.
Proof. induction 1 as [|m Hle IH]; intros H; auto. apply gv_mono_S. auto. Qed.

Theorem gv_det n m s t r r' : gv n s t = Some r -> gv m s t = Some r' -> r = r'.
Proof.
  intros A B. apply (gv_mono (n:=n) (m:=Nat.max n m)) in A; [|lia].
  apply (gv_mono (n:=m) (m:=Nat.max n m)) in B; [|lia]. congruence.
Qed.

Lemma gv_common_fuel s args :
  Forall (fun a => exists n r, gv n s a = Some r) args -> exists n rs, mapM (gv n s) args = Some rs.
Proof.
  induction 1 as [|a args [n0 [r H0]] _ [n1 [rs H1]]]; [exists 0, []; reflexivity|].
  exists (Nat.max n0 n1), (r :: rs). simpl.
  rewrite (gv_mono s a (Nat.le_max_l n0 n1) H0).
  rewrite (mapM_weaken _ (gv (Nat.max n0 n1) s) _ (fun x y _ => gv_mono s x (Nat.le_max_r n0 n1)) H1).
  reflexivity.
Qed.

Lemma gv_vars_total s : forall t,
  (forall w, occurs w t = true -> exists n r, gv n s (TVar w) = Some r) -> exists n r, gv n s t = Some r.
Proof.
  induction t as [a|z|q|v|f args IHa] using term_ind'; intros V; try (exists 1; eexists; reflexivity).
  - apply V. simpl. apply Nat.eqb_refl.
  - destruct (gv_common_fuel s (args:=args)) as [n [rs Hn]].
    + rewrite Forall_forall in *. intros a Hin. apply IHa; [exact Hin|].
      intros w Hw. apply V. apply occurs_fun. exists a; auto.
    + exists (S n), (TFun f rs). rewrite gv_S_fun, Hn. reflexivity.
Qed.

Lemma gv_ext n : forall s1 s2 t, (forall v, lookup v s1 = lookup v s2) -> gv n s1 t = gv n s2 t.
Proof.
  induction n as [|n IH]; intros s1 s2 t E; [reflexivity|].
  destruct t as [a|z|q|v|f args]; cbn [gv]; auto.
  - rewrite <- E. destruct (lookup v s1); auto.
  - rewrite (mapM_ext (gv n s1) (gv n s2) args); auto.
Qed.

Lemma in_lookup v s t : NoDup (map fst s) -> In (v, t) s -> lookup v s = Some t.
Proof.
  induction s as [|[w u] s IH]; simpl; intros N H; [contradiction|].
  inversion N as [|x l Hn N']; subst. destruct H as [H|H].
  - injection H as -> ->. rewrite Nat.eqb_refl. reflexivity.
  - destruct (Nat.eqb v w) eqn:E; [|auto].
    apply Nat.eqb_eq in E; subst. exfalso. apply Hn. apply (in_map fst) in H. exact H.
Qed.

Lemma lookup_perm s1 s2 : NoDup (map fst s1) -> Permutation s1 s2 -> forall v, lookup v s1 = lookup v s2.
Proof.
  intros N P v.
  assert (N2 : NoDup (map fst s2)) by (eapply Permutation_NoDup; [apply Permutation_map; exact P | exact N]).
  destruct (lookup v s1) as [t|] eqn:L1.
  - symmetry. apply in_lookup; auto. eapply Permutation_in; [exact P|]. apply lookup_in; exact L1.
  - destruct (lookup v s2) as [t|] eqn:L2; auto.
    apply lookup_in in L2. apply (Permutation_in _ (Permutation_sym P)) in L2.
    apply in_lookup in L2; auto. congruence.
Qed.

(* whatever the order in which the bindings were made (are listed) *)
Theorem gv_order_irrelevant n s1 s2 t :
  NoDup (map fst s1) -> Permutation s1 s2 -> gv n s1 t = gv n s2 t.
Proof. intros N P. apply gv_ext. apply lookup_perm; assumption. Qed.

(* replace every bound variable by its stored value, once, everywhere *)
Fixpoint sub1 (s : store) (t : term) : term :=
  match t with
  | TVar v => match lookup v s with Some u => u | None => t end
  | TFun f args => TFun f (map (sub1 s) args)
  | _ => t
  end.

Fixpoint iter {A} (k : nat) (f : A -> A) (x : A) : A :=
  match k with O => x | S k' => iter k' f (f x) end.

Lemma iter_add {A} (f : A -> A) j k x : iter (j + k) f x = iter k f (iter j f x).
Proof. revert x; induction j as [|j IH]; intros x; simpl; auto. Qed.

Lemma sub1_free s t : free_in s t -> sub1 s t = t.
Proof.
  induction t as [a|z|q|v|f args IHa] using term_ind'; intros F; simpl; auto.
  - rewrite (F v); auto. simpl. apply Nat.eqb_refl.
  - f_equal. rewrite <- (map_id args) at 2. apply map_ext_in. intros a Hin.
    rewrite Forall_forall in IHa. apply IHa; auto.
    intros w Hw. apply F. apply occurs_fun. exists a; auto.
Qed.

Lemma iter_free s k t : free_in s t -> iter k (sub1 s) t = t.
Proof. intros F. induction k as [|k IH]; simpl; auto. rewrite sub1_free; auto. Qed.

Lemma iter_fun s k f args : iter k (sub1 s) (TFun f args) = TFun f (map (iter k (sub1 s)) args).
Proof.
  revert args; induction k as [|k IH]; intros args; simpl.
  - rewrite map_id. reflexivity.
  - rewrite IH, map_map. reflexivity.
Qed.

(* r is the result of resolving t under s: substitute until no bound variable is left *)
Definition resolved (s : store) (t r : term) : Prop :=
  (exists k, iter k (sub1 s) t = r) /\ free_in s r.

Lemma resolved_unique s t r r' : resolved s t r -> resolved s t r' -> r = r'.
Proof.
  intros [[k Hk] F] [[k' Hk'] F'].
  assert (A : iter (k + k') (sub1 s) t = r') by (rewrite Nat.add_comm, iter_add, Hk'; apply iter_free; exact F').
  rewrite iter_add, Hk, iter_free in A; auto.
Qed.

Lemma common_iter s args rs :
  Forall2 (fun a r => (exists k, iter k (sub1 s) a = r) /\ free_in s r) args rs ->
  exists k, forall j, map (iter (k + j) (sub1 s)) args = rs.
Proof.
  induction 1 as [|x y l rs' [[k0 Hk0] F] Hr [k1 Hk1]]; [exists 0; reflexivity|].
  exists (k0 + k1). intros j. simpl. f_equal.
  - rewrite <- Nat.add_assoc, iter_add, Hk0. apply iter_free; exact F.
  - replace (k0 + k1 + j) with (k1 + (k0 + j)) by lia. apply Hk1.
Qed.

Theorem gv_resolved n : forall s t r, gv n s t = Some r -> resolved s t r.
Proof.
  intros s t r H. split; [|eapply gv_free; exact H].
  revert s t r H. induction n as [|n IH]; intros s t r H; [discriminate|].
  destruct t as [a|z|q|v|f args]; cbn [gv] in H.
  - exists 0; simpl; congruence.
  - exists 0; simpl; congruence.
  - exists 0; simpl; congruence.
  - destruct (lookup v s) as [u|] eqn:L.
    + destruct (IH _ _ _ H) as [k Hk]. exists (S k). simpl. rewrite L. exact Hk.
    + exists 0; simpl; congruence.
  - destruct (mapM (gv n s) args) as [rs|] eqn:M; [|discriminate]. injection H as <-.
    apply mapM_Forall2 in M.
    assert (E : exists k, forall j, map (iter (k + j) (sub1 s)) args = rs).
    { apply common_iter. eapply Forall2_imp; [|exact M]. cbn beta. intros a r Ha.
      split; [eapply IH; exact Ha | eapply gv_free; exact Ha]. }
    destruct E as [k Hk]. exists k. rewrite iter_fun. specialize (Hk 0). rewrite Nat.add_0_r in Hk.
    rewrite Hk. reflexivity.
Qed.

Lemma gv_fixed_of_free n s t r : free_in s t -> gv n s t = Some r -> r = t.
Proof.
  intros F H. destruct (gv_resolved _ _ _ H) as [[k Hk] _]. rewrite iter_free in Hk; auto.
Qed.

Lemma gv_total_of_free s t : free_in s t -> exists n, gv n s t = Some t.
Proof.
  intros F. destruct (gv_vars_total s t) as [n [r H]].
  - intros w Hw. exists 1, (TVar w). simpl. rewrite (F w Hw). reflexivity.
  - exists n. rewrite H. f_equal. exact (gv_fixed_of_free n F H).
Qed.

Lemma gv_nil_total : forall t, exists n, gv n [] t = Some t.
Proof. intros t. apply gv_total_of_free. intros w _. reflexivity. Qed.

(* a newer binding of a variable that the result does not mention changes nothing *)
Lemma gv_skip v t0 n : forall s t r, lookup v s = None ->
  gv n s t = Some r -> occurs v r = false -> gv n ((v, t0) :: s) t = Some r.
Proof.
  induction n as [|n IH]; intros s t r Lv H O; [discriminate|].
  destruct t as [a|z|q|w|f args]; try exact H.
  - rewrite gv_S_var in H |- *. cbn [lookup]. destruct (Nat.eqb w v) eqn:E.
    + apply Nat.eqb_eq in E; subst w. rewrite Lv in H. injection H as <-. simpl in O.
      rewrite Nat.eqb_refl in O. discriminate.
    + destruct (lookup w s) as [u|]; [apply IH; auto | exact H].
  - rewrite gv_S_fun in H |- *. destruct (mapM (gv n s) args) as [rs|] eqn:M; [|discriminate].
    injection H as <-.
    assert (M' : mapM (gv n ((v, t0) :: s)) args = Some rs).
    { apply mapM_Forall2 in M. apply mapM_Forall2. simpl in O. clear -M O IH Lv.
      induction M as [|x y l rs Hx Hr IHr]; constructor.
      - simpl in O. apply orb_false_iff in O as [O1 _]. apply IH; auto.
      - simpl in O. apply orb_false_iff in O as [_ O2]. auto. }
    rewrite M'. reflexivity.
Qed.

(* resolution under (v,t0)::s = resolution under s followed by the substitution of v *)
Lemma gv_push v t0 r0 m n : forall s t r, lookup v s = None ->
  gv m s t0 = Some r0 -> occurs v r0 = false ->
  gv n s t = Some r -> gv (n + m) ((v, t0) :: s) t = Some (subst1 v r0 r).
Proof.
  induction n as [|n IH]; intros s t r Lv H0 O H; [discriminate|].
  destruct t as [a|z|q|w|f args]; try (injection H as <-; reflexivity).
  - rewrite gv_S_var in H. cbn [Nat.add]. rewrite gv_S_var. cbn [lookup].
    destruct (Nat.eqb w v) eqn:E.
    + apply Nat.eqb_eq in E; subst w. rewrite Lv in H. injection H as <-.
      simpl. rewrite Nat.eqb_refl. apply (gv_mono (n:=m)); [lia|]. apply gv_skip; auto.
    + destruct (lookup w s) as [u|] eqn:L; [apply IH; auto|].
      injection H as <-. simpl. rewrite E. reflexivity.
  - rewrite gv_S_fun in H. cbn [Nat.add]. rewrite gv_S_fun.
    destruct (mapM (gv n s) args) as [rs|] eqn:M; [|discriminate]. injection H as <-.
    assert (M' : mapM (gv (n + m) ((v, t0) :: s)) args = Some (map (subst1 v r0) rs)).
    { apply mapM_Forall2 in M. apply mapM_Forall2. clear -M IH Lv H0 O.
      induction M as [|x y l rs Hx Hr IHr]; simpl; constructor; auto. }
    rewrite M'. reflexivity.
Qed.

(* on the stores that unification builds, get_value terminates and is den *)
Theorem gv_wf_total s : wf s -> forall t, exists n, gv n s t = Some (den s t).
Proof.
  induction 1 as [|v t0 s W IH L O]; intros t; simpl.
  - apply gv_nil_total.
  - destruct (IH t) as [n Hn]. destruct (IH t0) as [m Hm].
    exists (n + m). eapply gv_push; eauto.
Qed.

Theorem gv_den n s t r : wf s -> gv n s t = Some r -> r = den s t.
Proof. intros W H. destruct (gv_wf_total W t) as [m Hm]. eapply gv_det; eauto. Qed.

(* acyclic: there is a ranking of the variables that every stored value respects *)
Definition acyclic (s : store) : Prop :=
  exists rk : nat -> nat, forall v t w, lookup v s = Some t -> occurs w t = true -> rk w < rk v.

Theorem gv_acyclic_total s : acyclic s -> forall t, exists n r, gv n s t = Some r.
Proof.
  intros [rk A].
  (* every variable resolves: by induction on a bound of its rank, its stored value mentions lower ranks only *)
  assert (V : forall k v, rk v < k -> exists n r, gv n s (TVar v) = Some r).
  { induction k as [|k IHk]; intros v Hv; [lia|].
    destruct (lookup v s) as [u|] eqn:L.
    - destruct (gv_vars_total s u) as [n [r Hn]].
      + intros w Hw. apply IHk. specialize (A v u w L Hw). lia.
      + exists (S n), r. rewrite gv_S_var, L. exact Hn.
    - exists 1, (TVar v). simpl. rewrite L. reflexivity. }
  intros t. apply gv_vars_total. intros w _. apply (V (S (rk w))). lia.
Qed.

Lemma ground_free s t : ground t -> free_in s t.
Proof. intros G w Hw. rewrite G in Hw. discriminate. Qed.

(* the value saved at an answer, if ground, is the same term under EVERY later state of the
   bindings s' (after backtracking, after the query has finished, inside another query) *)
Theorem ground_value_stable n s t r : gv n s t = Some r -> ground r ->
  forall s', den s' r = r /\ (exists m, gv m s' r = Some r) /\ (forall m r', gv m s' r = Some r' -> r' = r).
Proof.
  intros _ G s'. split; [|split].
  - apply den_id. apply ground_free; exact G.
  - apply gv_total_of_free. apply ground_free; exact G.
  - intros m r' H. eapply gv_fixed_of_free; [|exact H]. apply ground_free; exact G.
Qed.

(* lists as the engine builds them: '.'/2 chains ending in the atom [] (to_python below tests for these names);
   findall: the bag is makelist of the saved values; if they are ground, so is the bag *)
Definition dot : str := d "."%string.
Definition nil_name : str := d "[]"%string.
Definition mklist (xs : list term) : term := fold_right (fun h t => TFun dot [h; t]) (TAtom nil_name) xs.

Lemma ground_mklist xs : Forall ground xs -> ground (mklist xs).
Proof.
  induction 1 as [|x l Hx Hl IH]; intros w; simpl; auto.
  rewrite Hx. fold (mklist l). rewrite IH. reflexivity.
Qed.

Corollary findall_bag_stable xs : Forall ground xs ->
  forall s', den s' (mklist xs) = mklist xs /\ (forall m r', gv m s' (mklist xs) = Some r' -> r' = mklist xs).
Proof.
  intros G s'. split.
  - apply den_id, ground_free, ground_mklist, G.
  - intros m r' H. eapply gv_fixed_of_free; [|exact H]. apply ground_free, ground_mklist, G.
Qed.

(* the regression as a named object: X = g(Y), Y = 1 ; pinned get_value(X) = g(Y) still mentions the
   bound variable Y, the repaired get_value gives g(1) *)
Example pinned_get_value_leaks :
  let s := [(1, TInt 1); (0, TFun (d "g"%string) [TVar 1])] in
  gv_pinned 5 s (TVar 0) = Some (TFun (d "g"%string) [TVar 1]) /\ lookup 1 s = Some (TInt 1) /\
  gv 5 s (TVar 0) = Some (TFun (d "g"%string) [TInt 1]).
Proof. vm_compute. repeat split. Qed.

(* Python values that to_python produces: str (atom names and raw str constants), int, None,
   list, and the pair (name, [args]) for compound terms other than '.' *)
Inductive pyval := PStr (x : str) | PInt (z : Z) | PNone | PList (l : list pyval) | PPair (name : str) (args : list pyval).
(* TypeError: `[head] + tail` where to_python(tail) is not a list; IndexError: '.' with fewer than
   two arguments (self._args[1]) *)
Inductive pyerr := TypeError | IndexError.
Inductive pres := POk (v : pyval) | PErr (e : pyerr) | POof.

Fixpoint mapP {A} (f : A -> pres) (l : list A) : pres + list pyval :=
  match l with
  | [] => inr []
  | x :: r => match f x with
              | POk y => match mapP f r with inr ys => inr (y :: ys) | e => e end
              | e => inl e
              end
  end.

(*   def to_python(v): IUnifiable -> v.to_python(), anything else -> v
     Atom.to_python:     [] if name == '[]' else name
     Variable.to_python: v = self.get_value(); None if v is a Variable else to_python(v)
     Functor.to_python:  name == '.': [to_python(args[0])] + to_python(args[1])
                         else (name, [to_python(v) for v in args])                         *)
Fixpoint to_python (n : nat) (s : store) (t : term) : pres :=
  match n with
  | O => POof
  | S n' =>
      match t with
      | TAtom a => if str_eqb a nil_name then POk (PList []) else POk (PStr a)
      | TInt z => POk (PInt z)
      | TStr x => POk (PStr x)
      | TVar v => match gv n' s t with
                  | None => POof
                  | Some (TVar _) => POk PNone
                  | Some r => to_python n' s r
                  end
      | TFun f args =>
          if str_eqb f dot then
            match args with
            | a0 :: rest =>
                match to_python n' s a0 with
                | POk h => match rest with
                           | a1 :: _ => match to_python n' s a1 with
                                        | POk (PList l) => POk (PList (h :: l))
                                        | POk _ => PErr TypeError
                                        | e => e
                                        end
                           | [] => PErr IndexError
                           end
                | e => e
                end
            | [] => PErr IndexError
            end
          else match mapP (to_python n' s) args with
               | inr vs => POk (PPair f vs)
               | inl e => e
               end
      end
  end.

(* Spec: the Python value of a term, by structural recursion, no store *)
Fixpoint py_of (t : term) : pres :=
  match t with
  | TAtom a => if str_eqb a nil_name then POk (PList []) else POk (PStr a)
  | TInt z => POk (PInt z)
  | TStr x => POk (PStr x)
  | TVar _ => POk PNone
  | TFun f args =>
      if str_eqb f dot then
        match args with
        | a0 :: rest =>
            match py_of a0 with
            | POk h => match rest with
                       | a1 :: _ => match py_of a1 with
                                    | POk (PList l) => POk (PList (h :: l))
                                    | POk _ => PErr TypeError
                                    | e => e
                                    end
                       | [] => PErr IndexError
                       end
            | e => e
            end
        | [] => PErr IndexError
        end
      else match (fix go (l : list term) : pres + list pyval :=
                    match l with
                    | [] => inr []
                    | x :: r => match py_of x with
                                | POk y => match go r with inr ys => inr (y :: ys) | e => e end
                                | e => inl e
                                end
                    end) args with
           | inr vs => POk (PPair f vs)
           | inl e => e
           end
  end.

Lemma py_of_go l :
  (fix go (l : list term) : pres + list pyval :=
     match l with
     | [] => inr []
     | x :: r => match py_of x with
                 | POk y => match go r with inr ys => inr (y :: ys) | e => e end
                 | e => inl e
                 end
     end) l = mapP py_of l.
Proof. induction l as [|x l IH]; [reflexivity|]. cbn [mapP]. rewrite <- IH. reflexivity. Qed.

Lemma py_of_noof : forall t, py_of t <> POof.
Proof.
  induction t as [a|z|q|v|f args IHa] using term_ind'; try (simpl; congruence).
  - simpl. destruct (str_eqb a nil_name); congruence.
  - cbn [py_of]. rewrite py_of_go. destruct (str_eqb f dot).
    + destruct args as [|a0 [|a1 rest]]; [congruence| |].
      * inversion IHa; subst. destruct (py_of a0); congruence.
      * inversion IHa as [|x l H0 H1]; subst. inversion H1; subst.
        destruct (py_of a0); try congruence. destruct (py_of a1) as [[]| |]; congruence.
    + assert (E : forall e, mapP py_of args = inl e -> e <> POof).
      { induction IHa as [|x l Hx Hl IH]; simpl; [discriminate|].
        destruct (py_of x) eqn:Ex.
        - destruct (mapP py_of l) eqn:El; [|discriminate]. intros e H; injection H as <-. auto.
        - intros e0 H; injection H as <-. congruence.
        - exfalso; apply Hx; reflexivity. }
      destruct (mapP py_of args) eqn:M; [apply E; reflexivity | congruence].
Qed.

Lemma mapP_agree (f g : term -> pres) l rs :
  Forall2 (fun x y => f x <> POof -> f x = g y) l rs -> mapP f l <> inl POof -> mapP f l = mapP g rs.
Proof.
  induction 1 as [|x y l rs Hx _ IH]; intros N; [reflexivity|]. simpl in *.
  assert (Nx : f x <> POof).
  { intros E. rewrite E in N. apply N; reflexivity. }
  rewrite <- (Hx Nx). destruct (f x) eqn:Ex; try reflexivity.
  rewrite <- IH; [reflexivity|]. intros E. rewrite E in N. apply N; reflexivity.
Qed.

(* to_python of ANY term is py_of of its resolution: it reflects all current bindings at every depth *)
Theorem to_python_resolve n : forall s t m r, gv m s t = Some r -> to_python n s t <> POof -> to_python n s t = py_of r.
Proof.
  induction n as [|n IH]; intros s t m r G N; [exfalso; apply N; reflexivity|].
  destruct t as [a|z|q|v|f args].
  - destruct m; [discriminate|]. injection G as <-. reflexivity.
  - destruct m; [discriminate|]. injection G as <-. reflexivity.
  - destruct m; [discriminate|]. injection G as <-. reflexivity.
  - cbn [to_python] in *. destruct (gv n s (TVar v)) as [r'|] eqn:G'; [|exfalso; apply N; reflexivity].
    assert (r' = r) by (eapply gv_det; eauto). subst r'.
    (* the value of the variable is resolved: get_value returns it unchanged *)
    destruct (gv_total_of_free (gv_free _ _ _ G)) as [m' Gr].
    destruct r as [a|z|q|w|f args]; try reflexivity; exact (IH _ _ _ _ Gr N).
  - destruct m; [discriminate|]. rewrite gv_S_fun in G.
    destruct (mapM (gv m s) args) as [rs|] eqn:M; [|discriminate]. injection G as <-.
    apply mapM_Forall2 in M. cbn [py_of]. rewrite py_of_go. cbn [to_python] in *.
    destruct (str_eqb f dot).
    + destruct M as [|a0 r0 rest rrest H0 Hr]; [reflexivity|].
      assert (N0 : to_python n s a0 <> POof) by (intros E; rewrite E in N; apply N; reflexivity).
      rewrite <- (IH s a0 m r0 H0 N0).
      destruct (to_python n s a0) eqn:E0; try reflexivity.
      destruct Hr as [|a1 r1 rest' rrest' H1 Hr']; [reflexivity|].
      assert (N1 : to_python n s a1 <> POof) by (intros E; rewrite E in N; apply N; reflexivity).
      rewrite <- (IH s a1 m r1 H1 N1). reflexivity.
    + rewrite <- (mapP_agree (to_python n s) py_of (l:=args) (rs:=rs)); [reflexivity| |].
      * eapply Forall2_imp; [|exact M]. cbn beta. intros x y Hx Nx. exact (IH s x m y Hx Nx).
      * intros E. rewrite E in N. apply N; reflexivity.
Qed.

(* structural characterisation on resolved terms: to_python is py_of *)
Theorem to_python_spec n : forall s r, free_in s r -> to_python n s r <> POof -> to_python n s r = py_of r.
Proof.
  intros s r F N. destruct (gv_total_of_free F) as [m G]. exact (to_python_resolve n s r m G N).
Qed.

Lemma py_of_atom a : a <> nil_name -> py_of (TAtom a) = POk (PStr a).
Proof. intros H. simpl. apply str_eqb_neq in H. rewrite H. reflexivity. Qed.
Lemma py_of_nil : py_of (TAtom nil_name) = POk (PList []).
Proof. reflexivity. Qed.
Lemma py_of_unbound v : py_of (TVar v) = POk PNone.
Proof. reflexivity. Qed.
Lemma py_of_int z : py_of (TInt z) = POk (PInt z).
Proof. reflexivity. Qed.
Lemma py_of_pystr x : py_of (TStr x) = POk (PStr x).
Proof. reflexivity. Qed.

Lemma py_of_dot h t x l : py_of h = POk x -> py_of t = POk (PList l) -> py_of (TFun dot [h; t]) = POk (PList (x :: l)).
Proof. intros Hh Ht. cbn [py_of]. rewrite str_eqb_refl, Hh, Ht. reflexivity. Qed.

Lemma py_of_list xs ys : Forall2 (fun x y => py_of x = POk y) xs ys -> py_of (mklist xs) = POk (PList ys).
Proof.
  induction 1 as [|x y l rs Hx Hr IH]; [reflexivity|]. apply py_of_dot; assumption.
Qed.

Lemma py_of_compound f args ys : f <> dot -> Forall2 (fun x y => py_of x = POk y) args ys ->
  py_of (TFun f args) = POk (PPair f ys).
Proof.
  intros Hf H. cbn [py_of]. rewrite py_of_go. apply str_eqb_neq in Hf. rewrite Hf.
  assert (E : mapP py_of args = inr ys).
  { induction H as [|x y l rs Hx Hr IH]; [reflexivity|]. simpl. rewrite Hx, IH. reflexivity. }
  rewrite E. reflexivity.
Qed.

(* a partial list or a list ending in something else is a TypeError in the code ([h] + non-list) *)
Lemma py_of_improper h t v : py_of h = POk v -> (forall l, py_of t <> POk (PList l)) -> (exists w, py_of t = POk w) ->
  py_of (TFun dot [h; t]) = PErr TypeError.
Proof.
  intros Hh Hn [w Hw]. cbn [py_of]. rewrite str_eqb_refl.
  rewrite Hh, Hw. destruct w; try reflexivity. exfalso. eapply Hn; exact Hw.
Qed.

Theorem to_python_spec_cases :
  (forall a, a <> nil_name -> py_of (TAtom a) = POk (PStr a)) /\
  py_of (TAtom nil_name) = POk (PList []) /\
  (forall v, py_of (TVar v) = POk PNone) /\
  (forall z, py_of (TInt z) = POk (PInt z)) /\
  (forall x, py_of (TStr x) = POk (PStr x)) /\
  (forall xs ys, Forall2 (fun x y => py_of x = POk y) xs ys -> py_of (mklist xs) = POk (PList ys)) /\
  (forall f args ys, f <> dot -> Forall2 (fun x y => py_of x = POk y) args ys ->
      py_of (TFun f args) = POk (PPair f ys)).
Proof.
  repeat split; [exact py_of_atom | exact py_of_list | exact py_of_compound].
Qed.

(* a saved ground value converts to the same Python value whatever the bindings are later *)
Theorem ground_to_python_stable r : ground r ->
  forall n s', to_python n s' r <> POof -> to_python n s' r = py_of r.
Proof. intros G n s' N. apply to_python_spec; auto. apply ground_free; exact G. Qed.

Theorem get_value_is_resolve n s t r : gv n s t = Some r ->
  resolved s t r /\ free_in s r /\ (wf s -> r = den s t) /\ (forall m r', gv m s t = Some r' -> r' = r).
Proof.
  intros H. split; [eapply gv_resolved; exact H|]. split; [eapply gv_free; exact H|]. split.
  - intros W. eapply gv_den; eauto.
  - intros m r' H'. eapply gv_det; eauto.
Qed.
