(* exception_passthrough at MACHINE level (C03 / C20).

   Sem/NativeExc.nqueryE is the big-step engine that carries the exception OBJECT (XDepth / XUnify / XGoal / XCode are the
   engine's own, XPy tag is the object a registered Python predicate raised); forgetting which exception it was gives
   Sem/Native.nquery (erase_nqueryE), and whatever ends a query is the very object that was raised (exception_provenance).
   The frame machine refines nquery (RefineNative.machine_refines_nquery).  Composition:

     the consumer of the machine's generator object receives exactly the answers that nqueryE produced before the exception,
     in order, each with exactly that answer's bindings; the next resumption raises iff nqueryE ends with an exception object
     e - and then the heap is the initial one again -, and e is the engine's own or the object raised by a registered
     predicate (nothing in the emitted code, the builtins or YP.query creates, wraps or replaces one).

   The machine itself records only THAT an exception travels (GenMachine.res: RRaise): it has no construct that catches one;
   between the raising step and the consumer only iterators are closed (GenMachine.loop / unwind). *)
From Coq Require Import String.
From Coq Require Import List Arith Bool Lia ZArith NArith.
Import ListNotations.
From YP Require Import Base.Str Term.Term Unify.UnifyGen Comp.IR Comp.CompileClause Sem.Machine Sem.Native
  Engine.GenMachine Engine.IRMachine Engine.Refine Engine.RefineCompiled Engine.RefineNative.
From YP Require Sem.NativeExc.
Local Open Scope list_scope.

Module NE := YP.Sem.NativeExc.

Definition mkwE (ir : ir_program) (efix : str -> nat -> option NE.nfunE) (evar : str -> option NE.nfunE)
    (dyn : str -> nat -> list frow) : NE.worldE := {| NE.e_ir := ir; NE.e_fix := efix; NE.e_var := evar; NE.e_dyn := dyn |}.

Definition rendE (o : option NE.exn) : GenMachine.res := match o with Some _ => RRaise | None => RStop end.

(* the Python predicate of the property over rows, raising the object XPy tag after its last row (or not raising) *)
Definition pyrows_funE (rows : list frow) (vals : list bool) (tag : option nat) : NE.nfunE :=
  fun args s => let '(xs, e) := native_rows rows vals args s in (xs, if e then Some NE.XUnify else option_map NE.XPy tag).
Definition is_some {A} (o : option A) : bool := match o with Some _ => true | None => false end.

Theorem pyrows_realizesE ir dyn ufix uvar rows vals tag :
  realizes ir dyn ufix uvar (pyrows rows (is_some tag)) (NE.erf (pyrows_funE rows vals tag)).
Proof.
  apply (realizes_ext ir dyn ufix uvar _ (pyrows_fun rows vals (is_some tag))); [|apply pyrows_realizes].
  intros args s. unfold NE.erf, pyrows_funE, pyrows_fun. destruct (native_rows rows vals args s) as [xs e].
  cbn [fst snd]. destruct e, tag; reflexivity.
Qed.

Section Exc.
  Variable p : Ast.program.
  Variable ir : ir_program.
  Hypothesis HC : compile_program p = Some ir.
  Variable dyn : str -> nat -> list frow.
  Variable ufix : str -> nat -> option ucode.
  Variable uvar : str -> option ucode.
  Variable efix : str -> nat -> option NE.nfunE.
  Variable evar : str -> option NE.nfunE.
  (* the machine code of every registered predicate yields the answers of its answer function and ends as it says *)
  Hypothesis Hf : forall name k, orealizes ir dyn ufix uvar (ufix name k) (option_map NE.erf (efix name k)).
  Hypothesis Hv : forall name, orealizes ir dyn ufix uvar (uvar name) (option_map NE.erf (evar name)).

  Notation wE := (mkwE ir efix evar dyn).

  Lemma nquery_erase d name args s :
    nquery d (mkw ir (fun n k => option_map NE.erf (efix n k)) (fun n => option_map NE.erf (evar n)) dyn) name args s
    = NE.er (NE.nqueryE d wE name args s).
  Proof. symmetry. exact (NE.erase_nqueryE wE d name args s). Qed.

  (* every abandonment point k: the first k answers of the engine-with-exception-objects, in order; past the last answer
     the generator ends by StopIteration, or raises iff nqueryE ends with an exception object; the heap is then the initial one *)
  Theorem machine_refines_nqueryE d name args nx h k : wf h ->
    exists N hf itf, forall n, N <= n ->
      w_nexts ir dyn ufix uvar n d k h (w_query ir dyn ufix uvar name args nx) =
      Some (hf, itf, map sto (firstn k (fst (NE.nqueryE d wE name args (mkst h nx)))),
            if Nat.leb k (length (fst (NE.nqueryE d wE name args (mkst h nx)))) then RYield
            else rendE (snd (NE.nqueryE d wE name args (mkst h nx))))
      /\ (length (fst (NE.nqueryE d wE name args (mkst h nx))) < k -> hf = h).
  Proof.
    intros W.
    destruct (compiled_machine_refines_nquery p ir HC dyn ufix uvar _ _ Hf Hv d name args nx h k W) as [N [hf [itf H]]].
    exists N, hf, itf. intros n Ln. specialize (H n Ln). rewrite !nquery_erase in H. unfold NE.er in H. cbn [fst snd] in H.
    replace (rendE (snd (NE.nqueryE d wE name args (mkst h nx)))) with (rend (NE.eb (snd (NE.nqueryE d wE name args (mkst h nx)))))
      by (destruct (snd (NE.nqueryE d wE name args (mkst h nx))); reflexivity).
    exact H.
  Qed.

  Lemma machine_runs_nqueryE d name args nx h xs o : wf h ->
    NE.nqueryE d wE name args (mkst h nx) = (xs, o) ->
    exists N itf, forall n, N <= n ->
      w_nexts ir dyn ufix uvar n d (S (length xs)) h (w_query ir dyn ufix uvar name args nx) =
      Some (h, itf, map sto xs, rendE o).
  Proof.
    intros W E.
    pose proof (nquery_erase d name args (mkst h nx)) as E'. rewrite E in E'.
    destruct (gen_refines_all _ _ d name args nx h xs (NE.eb o)
                (call_ok_w ir dyn ufix uvar (mkw ir _ _ dyn) eq_refl (fun _ _ => eq_refl) Hf Hv (compiled_ir_ok p ir HC) d) W E') as [N [itf H]].
    exists N, itf. destruct o; exact H.
  Qed.

  (* exception_passthrough: if the query ends with the exception object e after the answers xs, the consumer of the generator
     object receives exactly xs (the bindings visible at each answer are exactly that answer's), then the next resumption
     raises, and the heap is the initial one when the exception arrives; e is the engine's own or THE object a registered
     Python predicate raised - for every property Q of exception objects that the engine's own exceptions and the ones the
     registered predicates raise have (take Q e := e = XPy tag \/ engine_exn e, or Q e := e = the object ...) *)
  Theorem machine_exception_passthrough d name args nx h xs e : wf h ->
    NE.nqueryE d wE name args (mkst h nx) = (xs, Some e) ->
    (exists N itf, forall n, N <= n ->
       w_nexts ir dyn ufix uvar n d (S (length xs)) h (w_query ir dyn ufix uvar name args nx) =
       Some (h, itf, map sto xs, RRaise))
    /\ (forall Q : NE.exn -> Prop, Q NE.XDepth -> Q NE.XUnify -> Q NE.XGoal -> Q NE.XCode ->
          (forall name k f args s e, efix name k = Some f -> snd (f args s) = Some e -> Q e) ->
          (forall name f args s e, evar name = Some f -> snd (f args s) = Some e -> Q e) -> Q e).
  Proof.
    intros W E. split.
    - exact (machine_runs_nqueryE d name args nx h xs (Some e) W E).
    - intros Q Q1 Q2 Q3 Q4 Qf Qv.
      apply (NE.exception_provenance Q Q1 Q2 Q3 Q4 wE Qf Qv d name args (mkst h nx) e). rewrite E. reflexivity.
  Qed.

  (* ... and a query that ends normally ends normally in the machine *)
  Theorem machine_no_exception d name args nx h xs : wf h ->
    NE.nqueryE d wE name args (mkst h nx) = (xs, None) ->
    exists N itf, forall n, N <= n ->
      w_nexts ir dyn ufix uvar n d (S (length xs)) h (w_query ir dyn ufix uvar name args nx) =
      Some (h, itf, map sto xs, RStop).
  Proof. intros W E. exact (machine_runs_nqueryE d name args nx h xs None W E). Qed.
End Exc.
