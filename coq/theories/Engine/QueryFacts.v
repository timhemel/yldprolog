(* Sem/Machine.query extended with a database of dynamic facts, as YP.query runs them: the facts of
   name/arity first, in order (each matched against a copy with new variables: Answer.match), then the
   compiled function / builtin.  With an empty database it IS Sem.Machine.query (queryF_nofacts). *)
From Coq Require Import String.
From Coq Require Import List Arith Bool Lia ZArith NArith.
Import ListNotations.
From YP Require Import Base.Str Term.Term Term.Fast Unify.Unify Unify.Fast Comp.IR Comp.CompileBody
  Sem.IRSem Sem.Machine Sem.ProgramCorrect Sem.NativeThms Unify.UnifyGen Engine.GenMachine Engine.IRMachine.
Local Open Scope list_scope.

(* answers of the facts, "an exception ended it", the cell counter afterwards *)
Fixpoint fact_answers (fs : list fact) (args : list term) (s : st) : list st * bool * nat :=
  match fs with
  | [] => ([], false, nxt s)
  | (m, vals) :: r =>
      let s1 := {| sto := sto s; nxt := nxt s + m |} in
      match unify_arrays_fast ufuel (sto s) args (map (fact_shift (nxt s)) vals) with
      | UOk s' => let '(ys, e, nx) := fact_answers r args s1 in ({| sto := s'; nxt := nxt s + m |} :: ys, e, nx)
      | UFail => fact_answers r args s1
      | _ => ([], true, nxt s + m)
      end
  end.

Section QF.
Variable p : ir_program.
Variable F : str -> nat -> list fact.

Fixpoint queryF (n : nat) (name : str) (args : list term) (s : st) {struct n} : list st * bool :=
  match n with
  | O => ([], true)
  | S n' =>
      let '(fa, fe, nx) := fact_answers (F name (length args)) args s in
      if fe then (fa, true) else
      let s' := {| sto := sto s; nxt := nx |} in
      let '(ys, e) :=
        match find_func p name (length args) with
        | Some f =>
            let '(ys, k) := run_function (Machine.iter (queryF n')) assign (fn_body f) (bind_args 0 args, s') in
            (map snd ys, match k with CErr => true | _ => false end)
        | None =>
            match builtin (queryF n') name args s' with
            | Some r => r
            | None => ([], false)
            end
        end in
      (fa ++ ys, e)
  end.
End QF.

Theorem queryF_nofacts p n : forall name args s, queryF p (fun _ _ => []) n name args s = query n p name args s.
Proof.
  induction n as [|n IH]; intros name args s; [reflexivity|].
  cbn [queryF query fact_answers app].
  replace {| sto := sto s; nxt := nxt s |} with s by (destruct s; reflexivity).
  destruct (find_func p name (length args)) as [f|].
  - rewrite (@run_function_ext cfg assign _ _ (NativeThms.iter_ext _ _ IH)).
    destruct (run_function (Machine.iter (query n p)) assign (fn_body f) (bind_args 0 args, s)) as [ys k]. reflexivity.
  - rewrite (ProgramCorrect.builtin_ext _ _ IH). destruct (builtin (query n p) name args s) as [[ys e]|]; reflexivity.
Qed.
