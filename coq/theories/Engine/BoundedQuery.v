(* A concrete recursive query model for C17: depth-first, left-to-right SLD resolution of pure
   clauses over the C02 unification model, step-indexed by CALL DEPTH (the nesting of predicate
   calls - what consumes the interpreter's recursion depth).  call 0 = "the recursion limit is hit
   here" (Err); an Err ends the whole enumeration but everything delivered before it stays
   delivered, exactly like a RecursionError that travels up through the nested generators.

   Proved: the answer sequence is prefix-monotone in the depth (sld_ans_mono), which is the
   hypothesis ans_mono of Engine/Bounded.v.  So all theorems there hold for these queries. *)
From Coq Require Import List Arith Bool Lia ZArith.
Import ListNotations.
From YP Require Import Base.Str Term.Term Unify.Unify Engine.Bounded.
Set Implicit Arguments.

Definition app_res {X} (r1 r2 : res X) : res X :=
  match snd r1 with Norm => (fst r1 ++ fst r2, snd r2) | Err => r1 end.

(* for x in (l ending with f): deliver k x *)
Fixpoint bind {X Y} (l : list X) (f : fin) (k : X -> res Y) : res Y :=
  match l with
  | [] => ([], f)
  | x :: l' => app_res (k x) (bind l' f k)
  end.

Lemma app_res_mono {X} (a a' b b' : res X) : res_le a a' -> res_le b b' -> res_le (app_res a b) (app_res a' b').
Proof.
  destruct a as [la fa], a' as [la' fa'], b as [lb fb], b' as [lb' fb'].
  unfold res_le, app_res; simpl. destruct fa.
  - intros E. injection E as -> ->. simpl. destruct fb.
    + intros E. injection E as -> ->. reflexivity.
    + intros P. apply prefix_app; exact P.
  - intros P _. simpl. destruct fa'; simpl; [|exact P].
    eapply prefix_trans; [exact P | apply prefix_app_l].
Qed.

Lemma bind_mono_gen {X Y} (k k' : X -> res Y) (f f' : fin) (x : list X) :
  (forall a, res_le (k a) (k' a)) -> (f = Norm -> x = [] /\ f' = Norm) ->
  forall l, res_le (bind l f k) (bind (l ++ x) f' k').
Proof.
  intros K F. induction l as [|a l IH]; simpl.
  - destruct f.
    + destruct (F eq_refl) as [-> ->]. apply res_le_refl.
    + unfold res_le; simpl. apply prefix_nil.
  - apply app_res_mono; auto.
Qed.

Lemma bind_mono {X Y} (r r' : res X) (k k' : X -> res Y) :
  res_le r r' -> (forall a, res_le (k a) (k' a)) -> res_le (bind (fst r) (snd r) k) (bind (fst r') (snd r') k').
Proof.
  intros R K. destruct r as [l f], r' as [l' f']. unfold res_le in R. simpl in *. destruct f.
  - injection R as -> ->.
    pose proof (@bind_mono_gen _ _ k k' Norm Norm [] K (fun _ => conj eq_refl eq_refl) l) as H.
    rewrite app_nil_r in H. exact H.
  - destruct R as [x ->]. apply bind_mono_gen; auto. discriminate.
Qed.

Definition clause : Type := (term * list term)%type.      (* head :- goals *)
Definition sstate : Type := (store * nat)%type.           (* active bindings, next unused variable *)

Fixpoint shift (off : nat) (t : term) : term :=
  match t with
  | TVar v => TVar (v + off)
  | TFun f args => TFun f (map (shift off) args)
  | _ => t
  end.

Fixpoint maxvar (t : term) : nat :=
  match t with
  | TVar v => S v
  | TFun _ args => fold_right (fun a m => Nat.max (maxvar a) m) 0 args
  | _ => 0
  end.

Definition cl_vars (c : clause) : nat :=
  Nat.max (maxvar (fst c)) (fold_right (fun a m => Nat.max (maxvar a) m) 0 (snd c)).

Section Sld.
  Variable P : list clause.
  Variable fu : nat.                       (* fuel of the unification model; independent of the depth *)

  Section Goals.
    Variable I : term -> sstate -> res sstate.      (* how a call is answered *)
    (* the nested for loops of a clause body.  (The name hides the constructor `conj` of `and` in every file
       that imports this one: write `Logic.conj` there.) *)
    Fixpoint conj (goals : list term) (st : sstate) : res sstate :=
      match goals with
      | [] => ([st], Norm)
      | g :: gs => let r := I g st in bind (fst r) (snd r) (conj gs)
      end.

    (* the clauses of the predicate function, in order; each with fresh variables *)
    Fixpoint clauses (cs : list clause) (g : term) (st : sstate) : res sstate :=
      match cs with
      | [] => ([], Norm)
      | c :: cs' =>
          let nv := snd st in
          let r := match unify fu (fst st) g (shift nv (fst c)) with
                   | UOk s' => conj (map (shift nv) (snd c)) (s', nv + cl_vars c)
                   | _ => ([], Norm)
                   end in
          app_res r (clauses cs' g st)
      end.
  End Goals.

  Fixpoint call (n : nat) (g : term) (st : sstate) : res sstate :=
    match n with
    | O => ([], Err)
    | S n' => clauses (call n') P g st
    end.

  Lemma conj_mono I I' : (forall g st, res_le (I g st) (I' g st)) ->
    forall goals st, res_le (conj I goals st) (conj I' goals st).
  Proof.
    intros H. induction goals as [|g gs IH]; intros st; simpl; [apply res_le_refl|].
    apply bind_mono; auto.
  Qed.

  Lemma clauses_mono I I' : (forall g st, res_le (I g st) (I' g st)) ->
    forall cs g st, res_le (clauses I cs g st) (clauses I' cs g st).
  Proof.
    intros H. induction cs as [|c cs IH]; intros g st; simpl; [apply res_le_refl|].
    apply app_res_mono; auto.
    destruct (unify fu (fst st) g (shift (snd st) (fst c))); try apply res_le_refl.
    apply conj_mono; auto.
  Qed.

  Lemma call_mono_S n : forall g st, res_le (call n g st) (call (S n) g st).
  Proof.
    induction n as [|n IH]; intros g st.
    - unfold res_le; simpl. apply prefix_nil.
    - change (res_le (clauses (call n) P g st) (clauses (call (S n)) P g st)).
      apply clauses_mono. exact IH.
  Qed.

  Theorem call_mono n m g st : n <= m -> res_le (call n g st) (call m g st).
  Proof.
    induction 1 as [|m L IH]; [apply res_le_refl|].
    eapply res_le_trans; [exact IH | apply call_mono_S].
  Qed.

  (* the answers of the query q, as the caller sees them: q resolved at each answer *)
  Definition sld_ans (q : term) (n : nat) : res term :=
    let r := call n q ([], maxvar q) in (map (fun st => den (fst st) q) (fst r), snd r).

  Theorem sld_ans_mono q n m : n <= m -> res_le (sld_ans q n) (sld_ans q m).
  Proof.
    intros L. pose proof (call_mono q ([], maxvar q) L) as H. unfold sld_ans, res_le in *. simpl.
    destruct (snd (call n q ([], maxvar q))) eqn:E.
    - rewrite H, E. reflexivity.
    - destruct H as [x ->]. rewrite map_app. apply prefix_app_l.
  Qed.
End Sld.

Section SldBounded.
  Variable P : list clause.
  Variable fu : nat.
  Variable q : term.
  Variable B : Type.
  Variable proj : nat -> term -> nat -> pout B * nat.
  Variable budget : nat -> nat -> nat.
  Variable cur : nat.

  Definition eb := evaluate_bounded (sld_ans P fu q) (fun _ => ERuntime) proj budget cur true.

  Theorem sld_prefix_mono n m : n <= m ->
    prefix (fst (sld_ans P fu q n)) (fst (sld_ans P fu q m)) /\
    (snd (sld_ans P fu q n) = Norm -> sld_ans P fu q m = sld_ans P fu q n).
  Proof. apply prefix_mono. apply sld_ans_mono. Qed.

  Theorem sld_result_is_prefix st limit res_ : gs st = Susp 0 ->
    fst (eb st limit) = Return res_ -> running cur st ->
    forall m, budget limit cur <= m ->
    exists l0, prefix l0 (fst (sld_ans P fu q m)) /\ projected proj 0 l0 res_.
  Proof. apply result_is_prefix. apply sld_ans_mono. Qed.

  Theorem sld_complete_when_shallow st limit : gs st = Susp 0 -> running cur st ->
    setrl cur limit = inr limit ->
    snd (sld_ans P fu q (budget limit cur)) = Norm ->
    (forall k a r, exists b, proj k a r = (PVal b, r)) ->
    exists res_, fst (eb st limit) = Return res_ /\
      forall m, budget limit cur <= m -> projected proj 0 (fst (sld_ans P fu q m)) res_ /\ snd (sld_ans P fu q m) = Norm.
  Proof.
    intros G R S1 N T.
    exact (@complete_when_shallow _ _ (sld_ans P fu q) (@sld_ans_mono P fu q) (fun _ => ERuntime) proj budget cur true st limit G R S1 N T).
  Qed.
End SldBounded.
