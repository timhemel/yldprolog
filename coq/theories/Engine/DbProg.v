(* Database operations issued FROM COMPILED CODE: clause bodies that call asserta/assertz/retract/
   retractall and goals on dynamic facts, run depth first with backtracking on a shared heap, the
   database being threaded through the whole search (engine.py: YP.query = match_dynamic, then the
   compiled function; the emitted code is one nested `for` per goal, every goal being
   `query(name, args)`; asserta/assertz/retract/retractall are registered functions reached by that
   same query()).

   What is followed literally:
   - a goal name(args): the facts stored under (name, arity) WHEN THE GOAL IS REACHED (the list object
     is kept: a snapshot), each tried in order through Answer.match (a copy with new variables, then
     unify_arrays under the current bindings); for every match the REST OF THE BODY runs - and may
     change the database - before the next fact is tried; when the facts are exhausted, the clauses of
     the compiled predicate name/arity in order (head unification argument by argument, then its body
     followed by the rest of the caller's body);
   - retract(T): T is dereferenced first; the snapshot is the list current at that moment; for every
     fact of the snapshot that matches, the engine looks at the list that is current NOW, and only if
     that very Answer object is still in it publishes the current list without it and runs the rest of
     the body; then continues in the snapshot;
   - asserta/assertz(T): T dereferenced; Functor -> (name,args), Atom -> (name,[]), anything else:
     succeeds and stores nothing; the stored arguments are a copy (Answer.__init__) under the bindings
     of that moment; the new list is published under the key;
   - retractall(T): one pass over the current list, publishes the facts that do not match, succeeds
     once (fails for a non-callable T); bindings of every match are undone.
   Bindings are a store that is passed down the search path (undoing = returning to the caller's
   store); the database, the Answer identities and the allocation counter are global: they are
   threaded through the search in execution order and never reset by backtracking.
   Control: a body is a list of goals (a conjunction) whose elements may be `!` (GCut), `fail`,
   `( A ; B )` (GOr), `( C -> T ; E )` (GIf; `( C -> T )` is GIf c t [GFail], `\+ C` is GIf c [GFail] [], as the
   compiler rewrites them), with the semantics of the repaired compiler (reference: Sem/RefSem.v):
   - the search is in continuation style as the compiler's rewriting is: `(A ; B), R` runs A,R then B,R;
     `(C -> T ; E), R` runs C and, at its FIRST answer, T,R - else E,R; the rest of the body runs INSIDE
     the loops of the goals before it, so every loop that a cut or a commit leaves was suspended;
   - a cut runs the rest of the body (and of the callers' bodies) and then ends every loop of its clause
     and the clause loop of its predicate (tryclauses); it is not propagated to the caller; a cut inside
     a condition (or under \+) ends only the loops of the condition; the else branch is then tried;
   - how a run ended is a flag `option nat`: None = exhausted; Some j = the j-th enclosing frame (and with
     it every frame inside) is being left (frames: clause bodies, opened by tryclauses and ended by the
     marker GPop; conditions - two frames each: the condition proper, which a cut of its own leaves, and
     the if-then-else, which the marker GCommit leaves after the then branch); every loop stops at a flag;
   - the database, the Answer identities and the allocation counter are threaded through ALL of it: what
     a discarded branch (the goals before a cut, a condition, the goal of a \+) has written stays.
   Not modelled here: call/N, findall (C09); a program is a list of clauses (name, number of variables,
   head arguments, list of goals).  GPop / GCommit never occur in a source program (DbProgCut.src_prog; the
   safety theorems of DbProgThms / DbProgInv / DbProgSim hold for every list of goals, markers or not; DbProgCut.v
   proves, for source programs, that a query ends with flag None: a cut is not propagated to the caller).

   The result of [solve] carries, besides the answers (the stores at the solutions, in order), the
   trace of the atomic database updates in the order in which they happened, in the vocabulary of the
   cursor machine (DbCursor.out: OIns / ORet / ORAll, and OAns for every fact a goal matched). *)
From Coq Require Import List Arith Bool Lia ZArith.
Import ListNotations.
From YP Require Import Base.Str Term.Term Term.Fast Unify.Unify Unify.Fast Engine.Db Engine.DbCursor Engine.DbFacts.
Set Implicit Arguments.

(* evaluation-friendly versions of Answer.__init__ / Answer.match (den is exponential when evaluated):
   the same functions, see the _eq lemmas; the model below runs these *)
Definition copy_args_fast (s : store) (values : list term) (n : nat) : list term * nat :=
  let r := ren_list (map (den_fast s) values) ([], n) in (fst r, snd (snd r)).
Definition answer_init_fast := copy_args_fast.
Definition answer_match_fast (fuel : nat) (s : store) (n : nat) (goal stored : list term) : ures * nat :=
  let (cs, n') := copy_args_fast s stored n in (unify_arrays_fast fuel s goal cs, n').

Lemma copy_args_fast_eq s values n : copy_args_fast s values n = copy_args s values n.
Proof. unfold copy_args_fast, copy_args. rewrite (map_ext _ _ (den_fast_eq s)). reflexivity. Qed.
Lemma answer_init_fast_eq s n values : answer_init_fast s values n = answer_init s n values.
Proof. apply copy_args_fast_eq. Qed.
Lemma answer_match_fast_eq fuel s n goal stored : answer_match_fast fuel s n goal stored = answer_match fuel s n goal stored.
Proof.
  unfold answer_match_fast, answer_match. rewrite copy_args_fast_eq. destruct (copy_args s stored n).
  rewrite unify_arrays_fast_eq. reflexivity.
Qed.

Inductive goal :=
| GUnify (a b : term)                      (* A = B *)
| GCall (name : str) (args : list term)    (* name(args): dynamic facts, then compiled clauses *)
| GAssert (front : bool) (t : term)        (* asserta(T) / assertz(T) *)
| GRetract (t : term)
| GRetractAll (t : term)
| GFail                                    (* fail *)
| GCut                                     (* ! *)
| GOr (a b : list goal)                    (* ( A ; B ) *)
| GIf (c t e : list goal)                  (* ( C -> T ; E ) *)
| GPop                                     (* marker: end of a clause body *)
| GCommit.                                 (* marker: end of a condition ($CUTIF) *)

Definition GNot (c : list goal) : goal := GIf c [GFail] [].          (* \+ C  =>  ( C -> fail ; true ) *)
Definition GIfThen (c t : list goal) : goal := GIf c t [GFail].      (* ( C -> T )  =>  ( C -> T ; fail ) *)

Section GoalInd.
  Variable P : goal -> Prop.
  Hypothesis Hu : forall a b, P (GUnify a b).
  Hypothesis Hc : forall n args, P (GCall n args).
  Hypothesis Ha : forall fr t, P (GAssert fr t).
  Hypothesis Hr : forall t, P (GRetract t).
  Hypothesis Hra : forall t, P (GRetractAll t).
  Hypothesis Hf : P GFail.
  Hypothesis Hcut : P GCut.
  Hypothesis Hor : forall a b, Forall P a -> Forall P b -> P (GOr a b).
  Hypothesis Hif : forall c t e, Forall P c -> Forall P t -> Forall P e -> P (GIf c t e).
  Hypothesis Hpop : P GPop.
  Hypothesis Hcommit : P GCommit.
  Fixpoint goal_ind' (g : goal) : P g :=
    let go := fix go (l : list goal) : Forall P l :=
      match l with [] => Forall_nil P | x :: r => Forall_cons x (goal_ind' x) (go r) end in
    match g with
    | GUnify a b => Hu a b | GCall n args => Hc n args | GAssert fr t => Ha fr t
    | GRetract t => Hr t | GRetractAll t => Hra t | GFail => Hf | GCut => Hcut
    | GOr a b => Hor (go a) (go b)
    | GIf c t e => Hif (go c) (go t) (go e)
    | GPop => Hpop | GCommit => Hcommit
    end.
End GoalInd.

Record clause := mkcl { cname : str; cnv : nat; chead : list term; cbody : list goal }.
Definition program := list clause.

(* the variables of a clause are 0 .. cnv-1; an activation at allocation counter k uses cells k .. k+cnv-1 *)
Fixpoint shift (k : nat) (t : term) : term :=
  match t with
  | TVar v => TVar (k + v)
  | TFun f args => TFun f (map (shift k) args)
  | _ => t
  end.
Fixpoint shift_goal (k : nat) (g : goal) : goal :=
  match g with
  | GUnify a b => GUnify (shift k a) (shift k b)
  | GCall n args => GCall n (map (shift k) args)
  | GAssert fr t => GAssert fr (shift k t)
  | GRetract t => GRetract (shift k t)
  | GRetractAll t => GRetractAll (shift k t)
  | GOr a b => GOr (map (shift_goal k) a) (map (shift_goal k) b)
  | GIf c t e => GIf (map (shift_goal k) c) (map (shift_goal k) t) (map (shift_goal k) e)
  | GFail | GCut | GPop | GCommit => g
  end.

Definition clauses_of (p : program) (name : str) (ar : nat) : list clause :=
  filter (fun c => str_eqb (cname c) name && Nat.eqb (length (chead c)) ar) p.

(* global state: fact store, next Answer identity, allocation counter of Variable cells *)
(* gw: work budget (every activation of the search consumes one unit; 0 = give up: the model returns
   None, like an exhausted fuel) *)
Record glob := mkg { gdb : db; gid : nat; gn : nat; gw : nat }.
Definition set_n (g : glob) (n : nat) : glob := mkg (gdb g) (gid g) n (gw g).

(* how a run ended: None = the alternatives are exhausted; Some j = frame j (counted outwards from the
   innermost one) is being left *)
Definition cutflag := option nat.
Definition res := option (glob * list store * list out * cutflag).

(* x, and - unless x ended with a flag that [lv] turns into a stop - then f from the global state x left.
   lv c = None: go on with f; lv c = Some c': stop, the flag becomes c' *)
Definition alt (lv : cutflag -> option cutflag) (x : res) (f : glob -> res) : res :=
  match x with
  | None => None
  | Some (g1, a1, t1, c1) =>
      match lv c1 with
      | Some c' => Some (g1, a1, t1, c')
      | None => match f g1 with None => None | Some (g2, a2, t2, c2) => Some (g2, a1 ++ a2, t1 ++ t2, c2) end
      end
  end.

(* a loop inside a frame: any flag stops it and is passed on *)
Definition lv_loop (c : cutflag) : option cutflag := match c with None => None | Some j => Some (Some j) end.
(* the clause loop of a predicate: the frame of the clause body is frame 0 *)
Definition lv_clause (c : cutflag) : option cutflag :=
  match c with None => None | Some 0 => Some None | Some (S j) => Some (Some j) end.
(* if-then-else: frame 0 = the condition (left by a cut of its own: the else branch is tried), frame 1 = the
   if-then-else (left by GCommit after the then branch: the else branch is skipped) *)
Definition lv_if (c : cutflag) : option cutflag :=
  match c with None | Some 0 => None | Some 1 => Some None | Some (S (S j)) => Some (Some j) end.

Definition bindr := alt lv_loop.

Definition tag (o : out) (x : res) : res :=
  match x with None => None | Some (g1, a1, t1, c1) => Some (g1, a1, o :: t1, c1) end.
Definition mapflag (f : cutflag -> cutflag) (x : res) : res :=
  match x with None => None | Some (g1, a1, t1, c1) => Some (g1, a1, t1, f c1) end.

Definition fl_cut (c : cutflag) : cutflag := Some (match c with None => 0 | Some j => j end).
Definition fl_pop (c : cutflag) : cutflag := match c with None => None | Some j => Some (S j) end.
Definition fl_commit (c : cutflag) : cutflag := Some (match c with None => 1 | Some j => S (S j) end).

(* retractall: one pass; the facts that stay, the identities of the others, the allocation counter *)
Fixpoint rallh (uf : nat) (s : store) (args : list term) (l : list fact) (n : nat) : option (list fact * list nat * nat) :=
  match l with
  | [] => Some ([], [], n)
  | f :: r =>
      match answer_match_fast uf s n args (fargs f) with
      | (UOk _, n1) => match rallh uf s args r n1 with Some (keep, gone, n2) => Some (keep, fid f :: gone, n2) | None => None end
      | (UFail, n1) => match rallh uf s args r n1 with Some (keep, gone, n2) => Some (f :: keep, gone, n2) | None => None end
      | _ => None
      end
  end.

Section Loops.
  Variable uf : nat.                                         (* fuel of one unification *)
  Variable rec : list goal -> store -> glob -> res.          (* the search one level down *)

  (* _match_all_clauses over the snapshot l, the rest of the body r being run at every match *)
  Fixpoint scanq (args : list term) (r : list goal) (s : store) (l : list fact) (g : glob) : res :=
    match l with
    | [] => Some (g, [], [], None)
    | f :: l' =>
        match answer_match_fast uf s (gn g) args (fargs f) with
        | (UOk s', n1) =>
            bindr (tag (OAns (fid f) (map (den_fast s') args)) (rec r s' (set_n g n1))) (scanq args r s l')
        | (UFail, n1) => scanq args r s l' (set_n g n1)
        | _ => None
        end
    end.

  (* YP.retract over the snapshot l *)
  Fixpoint scanr (k : key) (args : list term) (r : list goal) (s : store) (l : list fact) (g : glob) : res :=
    match l with
    | [] => Some (g, [], [], None)
    | f :: l' =>
        match answer_match_fast uf s (gn g) args (fargs f) with
        | (UOk s', n1) =>
            if has_id (fid f) (gdb g k) then
              bindr (tag (ORet k (fid f) (map (den_fast s') args))
                         (rec r s' (mkg (upd k (del_id (fid f) (gdb g k)) (gdb g)) (gid g) n1 (gw g))))
                    (scanr k args r s l')
            else scanr k args r s l' (set_n g n1)
        | (UFail, n1) => scanr k args r s l' (set_n g n1)
        | _ => None
        end
    end.

  (* the compiled function: its clauses in order; the body of a clause is a frame of its own, closed by GPop:
     a cut in it ends this loop and goes no further *)
  Fixpoint tryclauses (args : list term) (r : list goal) (s : store) (cls : list clause) (g : glob) : res :=
    match cls with
    | [] => Some (g, [], [], None)
    | c :: cs =>
        let k := gn g in
        let g0 := set_n g (k + cnv c) in
        match unify_arrays_fast uf s args (map (shift k) (chead c)) with
        | UOk s' => alt lv_clause (rec (map (shift_goal k) (cbody c) ++ GPop :: r) s' g0) (tryclauses args r s cs)
        | UFail => tryclauses args r s cs g0
        | _ => None
        end
    end.
End Loops.

Section Solve.
  Variable uf : nat.
  Variable prog : program.

  Fixpoint solve (n : nat) (gs : list goal) (s : store) (g : glob) {struct n} : res :=
    match n, gw g with
    | O, _ | _, O => None
    | S n', S w =>
        let g := mkg (gdb g) (gid g) (gn g) w in
        match gs with
        | [] => Some (g, [s], [], None)
        | GUnify a b :: r =>
            match unify_fast uf s a b with
            | UOk s' => solve n' r s' g
            | UFail => Some (g, [], [], None)
            | _ => None
            end
        | GCall name args :: r =>
            bindr (scanq uf (solve n') args r s (gdb g (name, length args)) g)
                  (tryclauses uf (solve n') args r s (clauses_of prog name (length args)))
        | GAssert front t :: r =>
            match callable (den_fast s t) with
            | None => solve n' r s g
            | Some (name, args) =>
                let (stored, n1) := answer_init_fast s args (gn g) in
                let k := (name, length args) in
                let f := mkfact (gid g) stored in
                tag (OIns k front f) (solve n' r s (mkg (upd k (ins front f (gdb g k)) (gdb g)) (S (gid g)) n1 (gw g)))
            end
        | GRetract t :: r =>
            match callable (den_fast s t) with
            | None => Some (g, [], [], None)
            | Some (name, args) => scanr uf (solve n') (name, length args) args r s (gdb g (name, length args)) g
            end
        | GRetractAll t :: r =>
            match callable (den_fast s t) with
            | None => Some (g, [], [], None)
            | Some (name, args) =>
                let k := (name, length args) in
                match rallh uf s args (gdb g k) (gn g) with
                | None => None
                | Some (keep, gone, n1) => tag (ORAll k gone) (solve n' r s (mkg (upd k keep (gdb g)) (gid g) n1 (gw g)))
                end
            end
        | GFail :: _ => Some (g, [], [], None)
        | GCut :: r => mapflag fl_cut (solve n' r s g)
        | GOr a b :: r => bindr (solve n' (a ++ r) s g) (solve n' (b ++ r) s)
        | GIf c t e :: r => alt lv_if (solve n' (c ++ GCommit :: t ++ r) s g) (solve n' (e ++ r) s)
        | GPop :: r => mapflag fl_pop (solve n' r s g)
        | GCommit :: r => mapflag fl_commit (solve n' r s g)
        end
    end.
End Solve.

Definition ginit (nvars work : nat) : glob := mkg empty_db 0 nvars work.

Lemma tag_some o x g' a tr c : tag o x = Some (g', a, tr, c) -> exists t0, tr = o :: t0 /\ x = Some (g', a, t0, c).
Proof.
  destruct x as [[[[g1 a1] t1] c1]|]; [|discriminate]. simpl. intros H. injection H as <- <- <- <-.
  exists t1. split; reflexivity.
Qed.

Lemma mapflag_some f x g' a tr c : mapflag f x = Some (g', a, tr, c) -> exists c0, c = f c0 /\ x = Some (g', a, tr, c0).
Proof.
  destruct x as [[[[g1 a1] t1] c1]|]; [|discriminate]. simpl. intros H. injection H as <- <- <- <-.
  exists c1. split; reflexivity.
Qed.

Inductive alt_case (lv : cutflag -> option cutflag) (x : res) (f : glob -> res) : glob -> list store -> list out -> cutflag -> Prop :=
| alt_stop g1 a1 t1 c1 c' : x = Some (g1, a1, t1, c1) -> lv c1 = Some c' -> alt_case lv x f g1 a1 t1 c'
| alt_go g1 a1 t1 c1 g2 a2 t2 c2 : x = Some (g1, a1, t1, c1) -> lv c1 = None -> f g1 = Some (g2, a2, t2, c2) ->
    alt_case lv x f g2 (a1 ++ a2) (t1 ++ t2) c2.

Lemma alt_some lv x f g' a tr c : alt lv x f = Some (g', a, tr, c) -> alt_case lv x f g' a tr c.
Proof.
  unfold alt. destruct x as [[[[g1 a1] t1] c1]|]; [|discriminate].
  destruct (lv c1) as [c'|] eqn:LV.
  - intros H. injection H as <- <- <- <-. eapply alt_stop; [reflexivity|exact LV].
  - destruct (f g1) as [[[[g2 a2] t2] c2]|] eqn:E; [|discriminate].
    intros H. injection H as <- <- <- <-. eapply alt_go; [reflexivity|exact LV|exact E].
Qed.

Lemma alt_case_eq lv x f g' a tr c : alt_case lv x f g' a tr c -> alt lv x f = Some (g', a, tr, c).
Proof.
  intros [g1 a1 t1 c1 c' Ex LV|g1 a1 t1 c1 g2 a2 t2 c2 Ex LV Ef]; unfold alt; rewrite Ex, LV; [reflexivity|].
  rewrite Ef. reflexivity.
Qed.

Inductive rallh_case uf s args f r n : list fact -> list nat -> nat -> Prop :=
| rallh_hit s1 n1 keep gone n' : answer_match_fast uf s n args (fargs f) = (UOk s1, n1) ->
    rallh uf s args r n1 = Some (keep, gone, n') -> rallh_case uf s args f r n keep (fid f :: gone) n'
| rallh_miss n1 keep gone n' : answer_match_fast uf s n args (fargs f) = (UFail, n1) ->
    rallh uf s args r n1 = Some (keep, gone, n') -> rallh_case uf s args f r n (f :: keep) gone n'.

Lemma rallh_cons uf s args f r n keep gone n' : rallh uf s args (f :: r) n = Some (keep, gone, n') ->
  rallh_case uf s args f r n keep gone n'.
Proof.
  cbn [rallh]. destruct (answer_match_fast uf s n args (fargs f)) as [u n1] eqn:M.
  destruct u as [s1| | |]; try discriminate;
    (destruct (rallh uf s args r n1) as [[[k' g'] n2]|] eqn:R; [|discriminate]); intros H; injection H as <- <- <-.
  - eapply rallh_hit; [exact M|exact R].
  - eapply rallh_miss; [exact M|exact R].
Qed.

(* One level of the search, [rec] being the search one level down and [after name args r s] what a call does once the
   facts are exhausted.  [level] is the body of [solve] with these two left open; [step_case] says the same as a
   relation: which goal was in front, what it tested, and the runs one level down that the result is made of - there
   the global state is the one with the work budget already decreased. *)
Section OneLevel.
  Variable uf : nat.
  Variable rec : list goal -> store -> glob -> res.
  Variable after : str -> list term -> list goal -> store -> glob -> res.

  Definition level (gs : list goal) (s : store) (g : glob) : res :=
    match gw g with
    | O => None
    | S w =>
        let g := mkg (gdb g) (gid g) (gn g) w in
        match gs with
        | [] => Some (g, [s], [], None)
        | GUnify a b :: r =>
            match unify_fast uf s a b with
            | UOk s' => rec r s' g
            | UFail => Some (g, [], [], None)
            | _ => None
            end
        | GCall name args :: r => bindr (scanq uf rec args r s (gdb g (name, length args)) g) (after name args r s)
        | GAssert front t :: r =>
            match callable (den_fast s t) with
            | None => rec r s g
            | Some (name, args) =>
                let (stored, n1) := answer_init_fast s args (gn g) in
                let k := (name, length args) in
                let f := mkfact (gid g) stored in
                tag (OIns k front f) (rec r s (mkg (upd k (ins front f (gdb g k)) (gdb g)) (S (gid g)) n1 (gw g)))
            end
        | GRetract t :: r =>
            match callable (den_fast s t) with
            | None => Some (g, [], [], None)
            | Some (name, args) => scanr uf rec (name, length args) args r s (gdb g (name, length args)) g
            end
        | GRetractAll t :: r =>
            match callable (den_fast s t) with
            | None => Some (g, [], [], None)
            | Some (name, args) =>
                let k := (name, length args) in
                match rallh uf s args (gdb g k) (gn g) with
                | None => None
                | Some (keep, gone, n1) => tag (ORAll k gone) (rec r s (mkg (upd k keep (gdb g)) (gid g) n1 (gw g)))
                end
            end
        | GFail :: _ => Some (g, [], [], None)
        | GCut :: r => mapflag fl_cut (rec r s g)
        | GOr a b :: r => bindr (rec (a ++ r) s g) (rec (b ++ r) s)
        | GIf c t e :: r => alt lv_if (rec (c ++ GCommit :: t ++ r) s g) (rec (e ++ r) s)
        | GPop :: r => mapflag fl_pop (rec r s g)
        | GCommit :: r => mapflag fl_commit (rec r s g)
        end
    end.

  Inductive step_case : list goal -> store -> glob -> glob -> list store -> list out -> cutflag -> Prop :=
  | sc_nil s g : step_case [] s g g [s] [] None
  | sc_unify a b r s g s' g' ans tr c : unify_fast uf s a b = UOk s' -> rec r s' g = Some (g', ans, tr, c) ->
      step_case (GUnify a b :: r) s g g' ans tr c
  | sc_unify_fail a b r s g : unify_fast uf s a b = UFail -> step_case (GUnify a b :: r) s g g [] [] None
  | sc_call name args r s g g' ans tr c :
      alt_case lv_loop (scanq uf rec args r s (gdb g (name, length args)) g) (after name args r s) g' ans tr c ->
      step_case (GCall name args :: r) s g g' ans tr c
  | sc_assert_skip front t r s g g' ans tr c : callable (den_fast s t) = None -> rec r s g = Some (g', ans, tr, c) ->
      step_case (GAssert front t :: r) s g g' ans tr c
  | sc_assert front t r s g name args stored n1 g' ans tr c : callable (den_fast s t) = Some (name, args) ->
      answer_init_fast s args (gn g) = (stored, n1) ->
      rec r s (mkg (upd (name, length args) (ins front (mkfact (gid g) stored) (gdb g (name, length args))) (gdb g))
                   (S (gid g)) n1 (gw g)) = Some (g', ans, tr, c) ->
      step_case (GAssert front t :: r) s g g' ans (OIns (name, length args) front (mkfact (gid g) stored) :: tr) c
  | sc_retract_skip t r s g : callable (den_fast s t) = None -> step_case (GRetract t :: r) s g g [] [] None
  | sc_retract t r s g name args g' ans tr c : callable (den_fast s t) = Some (name, args) ->
      scanr uf rec (name, length args) args r s (gdb g (name, length args)) g = Some (g', ans, tr, c) ->
      step_case (GRetract t :: r) s g g' ans tr c
  | sc_retractall_skip t r s g : callable (den_fast s t) = None -> step_case (GRetractAll t :: r) s g g [] [] None
  | sc_retractall t r s g name args keep gone n1 g' ans tr c : callable (den_fast s t) = Some (name, args) ->
      rallh uf s args (gdb g (name, length args)) (gn g) = Some (keep, gone, n1) ->
      rec r s (mkg (upd (name, length args) keep (gdb g)) (gid g) n1 (gw g)) = Some (g', ans, tr, c) ->
      step_case (GRetractAll t :: r) s g g' ans (ORAll (name, length args) gone :: tr) c
  | sc_fail r s g : step_case (GFail :: r) s g g [] [] None
  | sc_cut r s g g' ans tr c : rec r s g = Some (g', ans, tr, c) -> step_case (GCut :: r) s g g' ans tr (fl_cut c)
  | sc_or a b r s g g' ans tr c : alt_case lv_loop (rec (a ++ r) s g) (rec (b ++ r) s) g' ans tr c ->
      step_case (GOr a b :: r) s g g' ans tr c
  | sc_if cd t e r s g g' ans tr c : alt_case lv_if (rec (cd ++ GCommit :: t ++ r) s g) (rec (e ++ r) s) g' ans tr c ->
      step_case (GIf cd t e :: r) s g g' ans tr c
  | sc_pop r s g g' ans tr c : rec r s g = Some (g', ans, tr, c) -> step_case (GPop :: r) s g g' ans tr (fl_pop c)
  | sc_commit r s g g' ans tr c : rec r s g = Some (g', ans, tr, c) -> step_case (GCommit :: r) s g g' ans tr (fl_commit c).

  Lemma step_case_call name args r s g g' a tr c : step_case (GCall name args :: r) s g g' a tr c ->
    alt_case lv_loop (scanq uf rec args r s (gdb g (name, length args)) g) (after name args r s) g' a tr c.
  Proof. intros C. inversion C; subst. assumption. Qed.

  Lemma level_cases gs s g g' a tr c : level gs s g = Some (g', a, tr, c) ->
    exists w, gw g = S w /\ step_case gs s (mkg (gdb g) (gid g) (gn g) w) g' a tr c.
  Proof.
    unfold level. destruct (gw g) as [|w]; [discriminate|]. intros H. exists w. split; [reflexivity|].
    set (gt := mkg (gdb g) (gid g) (gn g) w) in *. clearbody gt.
    destruct gs as [|[x y|name args|front t|t|t| | |ga gb|gc gt' ge| | ] r].
    - injection H as <- <- <- <-. constructor.
    - destruct (unify_fast uf s x y) as [s'| | |] eqn:U; try discriminate.
      + eapply sc_unify; eauto.
      + injection H as <- <- <- <-. apply sc_unify_fail. exact U.
    - apply sc_call. apply alt_some. exact H.
    - destruct (callable (den_fast s t)) as [[name args]|] eqn:CA.
      + destruct (answer_init_fast s args (gn gt)) as [stored n1] eqn:AI.
        apply tag_some in H as [t0 [-> E]]. eapply sc_assert; eauto.
      + apply sc_assert_skip; assumption.
    - destruct (callable (den_fast s t)) as [[name args]|] eqn:CA.
      + eapply sc_retract; eauto.
      + injection H as <- <- <- <-. apply sc_retract_skip. exact CA.
    - destruct (callable (den_fast s t)) as [[name args]|] eqn:CA.
      + destruct (rallh uf s args (gdb gt (name, length args)) (gn gt)) as [[[keep gone] n1]|] eqn:RA; [|discriminate].
        apply tag_some in H as [t0 [-> E]]. eapply sc_retractall; eauto.
      + injection H as <- <- <- <-. apply sc_retractall_skip. exact CA.
    - injection H as <- <- <- <-. constructor.
    - apply mapflag_some in H as [c0 [-> E]]. apply sc_cut. exact E.
    - apply sc_or. apply alt_some. exact H.
    - apply sc_if. apply alt_some. exact H.
    - apply mapflag_some in H as [c0 [-> E]]. apply sc_pop. exact E.
    - apply mapflag_some in H as [c0 [-> E]]. apply sc_commit. exact E.
  Qed.
End OneLevel.

Lemma solve_S_cases uf prog n gs s g g' a tr c : solve uf prog (S n) gs s g = Some (g', a, tr, c) ->
  exists w, gw g = S w /\
    step_case uf (solve uf prog n) (fun name args r s => tryclauses uf (solve uf prog n) args r s (clauses_of prog name (length args)))
              gs s (mkg (gdb g) (gid g) (gn g) w) g' a tr c.
Proof. exact (@level_cases uf _ _ gs s g g' a tr c). Qed.
