(* Theorems about database operations issued from compiled code (DbProg.v), for every program, every
   body, every store and every nesting of suspended goals (a goal is suspended while the rest of the
   body - which may contain further goals and updates on the same predicate - runs for one of its
   answers; bodies with !, fail, ( A ; B ), ( C -> T ; E ), \+ C: the updates made in branches that a cut or a
   commit discards are part of the trace and of the fold - alt_post holds whatever the flags are):

   - the trace of a run is a sequence of ATOMIC LIST OPERATIONS, each applied to the list that is current
     when it happens: an assert conses/appends one new Answer, an answer of retract deletes one Answer
     that is in the current list at that moment, retractall filters the current list
     (valid_trace); the database after the run is the fold of these operations over the database
     before it, in execution order (nothing is lost, no stale list is ever republished);
   - identities stay unique (ids_ok is an invariant), and over the whole run - all retract goals, however
     nested, and all retractall calls - every Answer is removed at most once (NoDup (removed tr)).

   The vocabulary (out, apply_out, apply_outs, removed, ids_ok) is that of the cursor machine
   (DbCursor.v, DbCursorThms.v; valid_out, valid_trace, is_ins are its out_ok, outs_ok, out_ids): these are the statements C14_no_lost_update / C14_retract_at_most_once
   with `run mt s evs` replaced by the execution of a compiled body, where goals share variables and
   bindings. *)
From Coq Require Import String.
From Coq Require Import List Arith Bool Lia ZArith.
Import ListNotations.
From YP Require Import Base.Str Term.Term Term.Fast Unify.Unify Unify.Fast Engine.Db Engine.DbCursor Engine.DbCursorThms Engine.DbFacts Engine.DbProg Engine.DbProgMeta.
Set Implicit Arguments.

Definition is_ins (o : out) : nat := match o with OIns _ _ _ => 1 | _ => 0 end.
Fixpoint count_ins (tr : list out) : nat := match tr with [] => 0 | o :: r => is_ins o + count_ins r end.

(* o is an atomic update that makes sense in the database d, nid being the next free identity *)
Definition valid_out (d : db) (nid : nat) (o : out) : Prop :=
  match o with
  | OIns _ _ f => fid f = nid
  | ORet k i _ => In i (map fid (d k))
  | ORAll k gone => NoDup gone /\ forall i, In i gone -> In i (map fid (d k))
  | _ => True
  end.

Fixpoint valid_trace (d : db) (nid : nat) (tr : list out) : Prop :=
  match tr with
  | [] => True
  | o :: r => valid_out d nid o /\ valid_trace (apply_out o d) (nid + is_ins o) r
  end.

Lemma valid_out_ids_ok d nid o : ids_ok d nid -> valid_out d nid o -> ids_ok (apply_out o d) (nid + is_ins o).
Proof. exact (@apply_out_ids_ok d nid o). Qed.

Lemma valid_trace_removed tr : forall d nid, ids_ok d nid -> valid_trace d nid tr -> NoDup (removed tr).
Proof. intros d nid I V. apply (@outs_ok_removed tr d nid [] I V); [intros i []|constructor]. Qed.

Lemma valid_out_ext d1 d2 nid o : (forall k, d1 k = d2 k) -> valid_out d1 nid o -> valid_out d2 nid o.
Proof.
  intros E. destruct o; simpl; auto; try (rewrite <- E; auto; fail).
Qed.

Lemma valid_trace_ext tr : forall d1 d2 nid, (forall k, d1 k = d2 k) -> valid_trace d1 nid tr -> valid_trace d2 nid tr.
Proof.
  induction tr as [|o r IH]; intros d1 d2 nid E H; simpl in *; auto. destruct H as [A B]. split.
  - eapply valid_out_ext; eauto.
  - eapply IH; [|exact B]. apply apply_out_ext. exact E.
Qed.

Lemma apply_outs_app a b d : apply_outs (a ++ b) d = apply_outs b (apply_outs a d).
Proof. unfold apply_outs. apply fold_left_app. Qed.

Lemma count_ins_app a b : count_ins (a ++ b) = count_ins a + count_ins b.
Proof. induction a as [|o a IH]; simpl; auto. rewrite IH. lia. Qed.

Lemma valid_trace_app a : forall b d nid,
  valid_trace d nid (a ++ b) <-> valid_trace d nid a /\ valid_trace (apply_outs a d) (nid + count_ins a) b.
Proof.
  induction a as [|o a IH]; intros b d nid; simpl.
  - rewrite Nat.add_0_r. tauto.
  - rewrite IH. replace (nid + is_ins o + count_ins a) with (nid + (is_ins o + count_ins a)) by lia. tauto.
Qed.

Lemma valid_trace_ids_ok tr : forall d nid, ids_ok d nid -> valid_trace d nid tr ->
  ids_ok (apply_outs tr d) (nid + count_ins tr).
Proof.
  induction tr as [|o r IH]; intros d nid I V; simpl in *.
  - rewrite Nat.add_0_r. exact I.
  - destruct V as [A B]. replace (nid + (is_ins o + count_ins r)) with (nid + is_ins o + count_ins r) by lia.
    apply IH; auto. apply valid_out_ids_ok; auto.
Qed.

Definition post (g g' : glob) (tr : list out) : Prop :=
  valid_trace (gdb g) (gid g) tr /\ (forall k, gdb g' k = apply_outs tr (gdb g) k) /\ gid g' = gid g + count_ins tr.

Lemma post_ids_ok g g' tr : ids_ok (gdb g) (gid g) -> post g g' tr -> ids_ok (gdb g') (gid g').
Proof.
  intros I [V [E N]]. rewrite N. apply (@ids_ok_ext (apply_outs tr (gdb g))); [intros k; symmetry; apply E|].
  exact (@valid_trace_ids_ok tr _ _ I V).
Qed.

Lemma post_refl g : post g g [].
Proof. repeat split; simpl; auto. Qed.

Lemma post_same g g' : (forall k, gdb g' k = gdb g k) -> gid g' = gid g -> post g g' [].
Proof. intros E N. repeat split; simpl; auto. lia. Qed.

Lemma post_trans g g1 g2 t1 t2 : post g g1 t1 -> post g1 g2 t2 -> post g g2 (t1 ++ t2).
Proof.
  intros [V1 [E1 N1]] [V2 [E2 N2]]. split; [|split].
  - apply valid_trace_app. split; auto. rewrite <- N1. eapply valid_trace_ext; [|exact V2]. exact E1.
  - intros k. rewrite E2, apply_outs_app. apply apply_outs_ext. exact E1.
  - rewrite N2, N1, count_ins_app. lia.
Qed.

Lemma post_cons g g1 g' o t1 : valid_out (gdb g) (gid g) o ->
  (forall k, gdb g1 k = apply_out o (gdb g) k) -> gid g1 = gid g + is_ins o -> post g1 g' t1 -> post g g' (o :: t1).
Proof.
  intros V E N [V1 [E1 N1]]. split; [|split].
  - simpl. split; auto. rewrite <- N. eapply valid_trace_ext; [|exact V1]. exact E.
  - intros k. rewrite E1. simpl. apply apply_outs_ext. exact E.
  - rewrite N1, N. simpl. lia.
Qed.

(* retractall, one pass under the heap: what stays is the current list without the identities in gone *)
Lemma rallh_spec uf s args : forall l n keep gone n', NoDup (map fid l) -> rallh uf s args l n = Some (keep, gone, n') ->
  keep = del_ids gone l /\ (forall i, In i gone -> In i (map fid l)) /\ NoDup gone.
Proof.
  induction l as [|f r IH]; intros n keep gone n' N H.
  - injection H as <- <- <-. repeat split; auto; try constructor; intros; contradiction.
  - inversion N as [|? ? N1 N2]; subst.
    destruct (rallh_cons _ _ _ _ _ _ H) as [s1 n1 k' g' n2 M R|n1 k' g' n2 M R]; destruct (IH _ _ _ _ N2 R) as [A [B C]].
    + repeat split.
      * rewrite del_ids_hit, del_ids_cons_notin; auto.
      * intros i [<-|Hi]; simpl; auto.
      * constructor; auto.
    + assert (NG: existsb (Nat.eqb (fid f)) g' = false).
      { destruct (existsb (Nat.eqb (fid f)) g') eqn:X; auto. apply existsb_exists in X as [i [Hi E]].
        apply Nat.eqb_eq in E. subst i. exfalso. apply N1. auto. }
      repeat split; auto.
      * rewrite del_ids_miss; auto. f_equal. exact A.
      * intros i Hi. simpl. right. auto.
Qed.

Definition good_rec (rec : list goal -> store -> glob -> res) : Prop :=
  forall gs s g g' a tr c, ids_ok (gdb g) (gid g) -> rec gs s g = Some (g', a, tr, c) -> post g g' tr.

(* the combinators of the search, whatever the flags are *)
Lemma alt_post lv (x : res) (f : glob -> res) g g' a tr c :
  ids_ok (gdb g) (gid g) ->
  (forall g1 a1 t1 c1, x = Some (g1, a1, t1, c1) -> post g g1 t1) ->
  (forall g1 g2 a2 t2 c2, ids_ok (gdb g1) (gid g1) -> f g1 = Some (g2, a2, t2, c2) -> post g1 g2 t2) ->
  alt_case lv x f g' a tr c -> post g g' tr.
Proof.
  intros I Hx Hf H. destruct H as [g1 a1 t1 c1 c' Ex _|g1 a1 t1 c1 g2 a2 t2 c2 Ex _ Ef].
  - eapply Hx. exact Ex.
  - pose proof (Hx _ _ _ _ Ex) as P1. eapply post_trans; [exact P1|]. eapply Hf; [|exact Ef].
    eapply post_ids_ok; eauto.
Qed.

Section Loops.
  Variable uf : nat.
  Variable rec : list goal -> store -> glob -> res.
  Hypothesis Hrec : good_rec rec.

  Lemma scanq_post args r s : forall l g g' a tr c, ids_ok (gdb g) (gid g) ->
    scanq uf rec args r s l g = Some (g', a, tr, c) -> post g g' tr.
  Proof.
    induction l as [|f l IH]; intros g g' a tr c I H; cbn [scanq] in H.
    - injection H as <- <- <- <-. apply post_refl.
    - destruct (answer_match_fast uf s (gn g) args (fargs f)) as [u n1]. destruct u as [s'| | |]; try discriminate.
      + eapply alt_post; [exact I| |intros g1 g2 a2 t2 c2 I1 E; eapply IH; eauto|apply alt_some; exact H].
        intros g1 a1 t1 c1 E. apply tag_some in E as [t0 [-> ER]].
        apply (@post_cons g (set_n g n1) g1 (OAns (fid f) (map (den_fast s') args)) t0); simpl; auto.
        eapply Hrec; [|exact ER]. exact I.
      + apply (@post_trans g (set_n g n1) g' [] tr).
        * apply post_same; reflexivity.
        * eapply IH; [|exact H]. exact I.
  Qed.

  Lemma scanr_post k args r s : forall l g g' a tr c, ids_ok (gdb g) (gid g) ->
    scanr uf rec k args r s l g = Some (g', a, tr, c) -> post g g' tr.
  Proof.
    induction l as [|f l IH]; intros g g' a tr c I H; cbn [scanr] in H.
    - injection H as <- <- <- <-. apply post_refl.
    - destruct (answer_match_fast uf s (gn g) args (fargs f)) as [u n1]. destruct u as [s'| | |]; try discriminate.
      + destruct (has_id (fid f) (gdb g k)) eqn:HI.
        * eapply alt_post; [exact I| |intros g1 g2 a2 t2 c2 I1 E; eapply IH; eauto|apply alt_some; exact H].
          intros g1 a1 t1 c1 E. apply tag_some in E as [tx [-> ER]].
          set (g0 := mkg (upd k (del_id (fid f) (gdb g k)) (gdb g)) (gid g) n1 (gw g)) in *.
          assert (V: valid_out (gdb g) (gid g) (ORet k (fid f) (map (den_fast s') args))) by (simpl; apply has_id_in; exact HI).
          apply (@post_cons g g0 g1 _ tx V); simpl; auto.
          eapply Hrec; [|exact ER].
          apply (@valid_out_ids_ok _ _ _ I) in V. simpl in V. rewrite Nat.add_0_r in V. exact V.
        * apply (@post_trans g (set_n g n1) g' [] tr).
          -- apply post_same; reflexivity.
          -- eapply IH; [|exact H]. exact I.
      + apply (@post_trans g (set_n g n1) g' [] tr).
        * apply post_same; reflexivity.
        * eapply IH; [|exact H]. exact I.
  Qed.

  Lemma tryclauses_post args r s : forall cls g g' a tr c, ids_ok (gdb g) (gid g) ->
    tryclauses uf rec args r s cls g = Some (g', a, tr, c) -> post g g' tr.
  Proof.
    induction cls as [|cl cs IH]; intros g g' a tr c I H; cbn [tryclauses] in H.
    - injection H as <- <- <- <-. apply post_refl.
    - destruct (unify_arrays_fast uf s args (map (shift (gn g)) (chead cl))) as [s'| | |]; try discriminate.
      + apply (@post_trans g (set_n g (gn g + cnv cl)) g' [] tr).
        * apply post_same; reflexivity.
        * eapply alt_post; [exact I| |intros g1 g2 a2 t2 c2 I1 E; eapply IH; eauto|apply alt_some; exact H].
          intros g1 a1 t1 c1 E. eapply Hrec; [|exact E]. exact I.
      + apply (@post_trans g (set_n g (gn g + cnv cl)) g' [] tr).
        * apply post_same; reflexivity.
        * eapply IH; [|exact H]. exact I.
  Qed.
End Loops.

Lemma step_good uf rec after : good_rec rec ->
  (forall name args r s g g' a tr c, ids_ok (gdb g) (gid g) -> after name args r s g = Some (g', a, tr, c) -> post g g' tr) ->
  forall gs s g g' a tr c, ids_ok (gdb g) (gid g) -> step_case uf rec after gs s g g' a tr c -> post g g' tr.
Proof.
  intros Hrec Hafter gs s g g' a tr c I C.
  destruct C as [s g|x y r s g s' g' ans tr c U E|x y r s g U|name args r s g g' ans tr c A
                |front t r s g g' ans tr c CA E|front t r s g name args stored n1 g' ans tr c CA AI E
                |t r s g CA|t r s g name args g' ans tr c CA E|t r s g CA|t r s g name args keep gone n1 g' ans tr c CA RA E
                |r s g|r s g g' ans tr c E|ga gb r s g g' ans tr c A|gc gt ge r s g g' ans tr c A
                |r s g g' ans tr c E|r s g g' ans tr c E];
    try apply post_refl; try (eapply Hrec; eauto; fail).
  - eapply alt_post; [exact I| | |exact A].
    + intros g1 a1 t1 c1 E. eapply scanq_post; eauto.
    + intros g1 g2 a2 t2 c2 I1 E. eapply Hafter; eauto.
  - set (k := (name, length args)) in *. set (f := mkfact (gid g) stored) in *.
    set (g0 := mkg (upd k (ins front f (gdb g k)) (gdb g)) (S (gid g)) n1 (gw g)) in *.
    assert (V: valid_out (gdb g) (gid g) (OIns k front f)) by reflexivity.
    apply (@post_cons g g0 g' _ tr V); simpl; auto; [lia|]. eapply Hrec; [|exact E].
    apply (@valid_out_ids_ok _ _ _ I) in V. simpl in V. replace (gid g + 1) with (S (gid g)) in V by lia. exact V.
  - eapply scanr_post; eauto.
  - set (k := (name, length args)) in *. set (g0 := mkg (upd k keep (gdb g)) (gid g) n1 (gw g)) in *.
    destruct (rallh_spec _ _ _ _ _ (proj1 I k) RA) as [A [B C]].
    assert (V: valid_out (gdb g) (gid g) (ORAll k gone)) by (simpl; auto).
    assert (E0: forall k0, gdb g0 k0 = apply_out (ORAll k gone) (gdb g) k0) by (intros k0; simpl; rewrite A; reflexivity).
    apply (@post_cons g g0 g' _ tr V E0); simpl; auto. eapply Hrec; [|exact E].
    apply (@valid_out_ids_ok _ _ _ I) in V. simpl in V. rewrite Nat.add_0_r in V. rewrite <- A in V. exact V.
  - eapply alt_post; [exact I| | |exact A]; intros; eapply Hrec; eauto.
  - eapply alt_post; [exact I| | |exact A]; intros; eapply Hrec; eauto.
Qed.

Section Solve.
  Variable uf : nat.
  Variable prog : program.

  Lemma solve_good : forall n, good_rec (solve uf prog n).
  Proof.
    induction n as [|n IH]; intros gs s g g' a tr c I H; [discriminate|].
    destruct (solve_S_cases _ _ _ _ _ _ H) as [w [_ C]].
    eapply (step_good IH) in C; [exact C| |exact I].
    intros name args r s0 g0 g1 a1 t1 c1 I0 E. eapply tryclauses_post; eauto.
  Qed.

  (* every database update issued from compiled code is an atomic list operation on the list that is
     current at that moment, and the database after the run is their fold: no modification is lost *)
  Theorem prog_no_lost_update n gs s g g' a tr c :
    ids_ok (gdb g) (gid g) -> solve uf prog n gs s g = Some (g', a, tr, c) ->
    valid_trace (gdb g) (gid g) tr /\ (forall k, gdb g' k = apply_outs tr (gdb g) k) /\ ids_ok (gdb g') (gid g').
  Proof.
    intros I H. pose proof (@solve_good n gs s g g' a tr c I H) as P. destruct P as [V [E N]].
    split; auto. split; auto. eapply post_ids_ok; eauto. repeat split; eauto.
  Qed.

  (* over all retract goals of the run, however nested, and all retractall calls: every Answer is removed
     (and returned by a retract) at most once *)
  Theorem prog_retract_at_most_once n gs s g g' a tr c :
    ids_ok (gdb g) (gid g) -> solve uf prog n gs s g = Some (g', a, tr, c) -> NoDup (removed tr).
  Proof.
    intros I H. destruct (@solve_good n gs s g g' a tr c I H) as [V _].
    exact (@valid_trace_removed tr _ _ I V).
  Qed.
End Solve.

(* The same theorems for DbProgMeta.msolve: for every program, body (call/N, once/1, findall/3, =, \= reached by name;
   goals arriving in bound variables; the targets being dynamic predicates, rules, assertz / asserta / retract /
   retractall, further meta-calls, to any depth), store, global state, fuel:
   - the trace of a run is a sequence of atomic list operations each applied to the list current at that moment
     (valid_trace), the database after the run is their fold in execution order, identities stay unique;
   - every Answer is removed (returned by a retract, however reached) at most once;
   - findall is atomic with respect to the rest of the body: the updates its goal performs are a contiguous block of
     the trace, in front of everything the rest of the body does (findall_block).
   The loop lemmas and step_good are generic in the search function: only what a call does after the facts is new. *)
Lemma pre_some t0 x g' a tr c : pre t0 x = Some (g', a, tr, c) -> exists t1, tr = t0 ++ t1 /\ x = Some (g', a, t1, c).
Proof.
  destruct x as [[[[g1 a1] t1] c1]|]; [|discriminate]. simpl. intros H. injection H as <- <- <- <-.
  exists t1. split; reflexivity.
Qed.

Lemma copy_each_length tm : forall ans n copies n2, copy_each tm ans n = (copies, n2) -> length copies = length ans.
Proof.
  induction ans as [|s0 r0 IH]; intros n0 copies n2 CE; cbn [copy_each] in CE.
  - injection CE as <- _. reflexivity.
  - destruct (copy_args_fast s0 [tm] n0) as [c0 n1]. destruct (copy_each tm r0 n1) as [cs n3] eqn:E.
    injection CE as <- _. simpl. f_equal. exact (IH _ _ _ E).
Qed.

Lemma post_set_n g g' n tr : post g g' tr -> post g (set_n g' n) tr.
Proof. intros [A [B C]]. repeat split; auto. Qed.

Section MSolve.
  Variable uf : nat.
  Variable prog : program.

  (* the function under bindr in DbProgMeta.msolve, named so that msolve (S n) is DbProg.level of it *)
  Definition mafter (n : nat) (name : str) (args : list term) (r : list goal) (s : store) (g1 : glob) : res :=
    match clauses_of prog name (length args) with
    | cl :: cls => tryclauses uf (msolve uf prog n) args r s (cl :: cls) g1
    | [] =>
        match builtin_of s name args with
        | BGoals b => msolve uf prog n (b ++ r) s g1
        | BFindall t gl bag =>
            match call_target s gl [] with
            | None => None
            | Some (nm, a) =>
                match msolve uf prog n [GCall nm a] s g1 with
                | None => None
                | Some (g2, answers, t1, _) =>
                    let (copies, n2) := copy_each t answers (gn g2) in
                    match unify_fast uf s bag (mk_list copies) with
                    | UOk s' => pre t1 (msolve uf prog n r s' (set_n g2 n2))
                    | UFail => Some (set_n g2 n2, [], t1, None)
                    | _ => None
                    end
                end
            end
        | BRaise => None
        | BNone => Some (g1, [], [], None)
        end
    end.

  Lemma msolve_S_cases n gs s g g' a tr c : msolve uf prog (S n) gs s g = Some (g', a, tr, c) ->
    exists w, gw g = S w /\ step_case uf (msolve uf prog n) (mafter n) gs s (mkg (gdb g) (gid g) (gn g) w) g' a tr c.
  Proof. exact (@level_cases uf _ _ gs s g g' a tr c). Qed.

  Lemma msolve_good : forall n, good_rec (msolve uf prog n).
  Proof.
    induction n as [|n IH]; intros gs s g g' a tr c I H; [discriminate|].
    destruct (msolve_S_cases _ _ _ _ H) as [w [_ C]].
    eapply (step_good IH) in C; [exact C| |exact I].
    clear - IH. intros name args r s g1 g' a tr c I1 E. unfold mafter in E.
    destruct (clauses_of prog name (length args)) as [|cl cls]; [|eapply tryclauses_post; eauto].
    destruct (builtin_of s name args) as [b|tm gl bag| |].
    - exact (IH _ _ _ _ _ _ _ I1 E).
    - destruct (call_target s gl []) as [[nm a0]|]; [|discriminate].
      destruct (msolve uf prog n [GCall nm a0] s g1) as [[[[g3 ans] t1] c1]|] eqn:E1; [|discriminate].
      pose proof (IH _ _ _ _ _ _ _ I1 E1) as P1.
      destruct (copy_each tm ans (gn g3)) as [copies n2].
      pose proof (post_set_n n2 P1) as P2.
      destruct (unify_fast uf s bag (mk_list copies)) as [s'| | |]; try discriminate.
      + apply pre_some in E as [t0 [-> E2]]. eapply post_trans; [exact P2|].
        eapply IH; [|exact E2]. eapply post_ids_ok; [exact I1|exact P2].
      + inversion E; subst. exact P2.
    - discriminate.
    - inversion E; subst. apply post_refl.
  Qed.

  (* every database update issued from compiled code - directly or through call/N, once/1, findall/3, to any depth -
     is an atomic list operation on the list that is current at that moment, and the database after the run is
     their fold: no modification is lost *)
  Theorem mprog_no_lost_update n gs s g g' a tr c :
    ids_ok (gdb g) (gid g) -> msolve uf prog n gs s g = Some (g', a, tr, c) ->
    valid_trace (gdb g) (gid g) tr /\ (forall k, gdb g' k = apply_outs tr (gdb g) k) /\ ids_ok (gdb g') (gid g').
  Proof.
    intros I H. pose proof (@msolve_good n gs s g g' a tr c I H) as P. destruct P as [V [E N]].
    split; auto. split; auto. eapply post_ids_ok; eauto. repeat split; eauto.
  Qed.

  Theorem mprog_retract_at_most_once n gs s g g' a tr c :
    ids_ok (gdb g) (gid g) -> msolve uf prog n gs s g = Some (g', a, tr, c) -> NoDup (removed tr).
  Proof.
    intros I H. destruct (@msolve_good n gs s g g' a tr c I H) as [V _].
    exact (@valid_trace_removed tr _ _ I V).
  Qed.

  (* findall(T, G, B), R on a predicate findall/3 without facts and without clauses: the run of G is complete (a run of
     its own, from the state in which findall was reached, with an empty continuation: every goal it suspends is resumed
     to its end inside it) and its updates are a block of the trace in front of everything R does; R starts in the
     database the block leaves; the bindings of G's answers are not visible to R (it runs under the store of the
     caller extended by the unification of the bag) *)
  Theorem findall_block n tm gl bag r s g g' a tr c :
    clauses_of prog (d "findall"%string) 3 = [] -> gdb g (d "findall"%string, 3) = [] ->
    msolve uf prog (S n) (GCall (d "findall"%string) [tm; gl; bag] :: r) s g = Some (g', a, tr, c) ->
    exists nm args g0 g1 answers t1 c1 copies n2,
      call_target s gl [] = Some (nm, args) /\
      (forall k, gdb g0 k = gdb g k) /\ gid g0 = gid g /\
      msolve uf prog n [GCall nm args] s g0 = Some (g1, answers, t1, c1) /\
      copy_each tm answers (gn g1) = (copies, n2) /\ length copies = length answers /\
      match unify_fast uf s bag (mk_list copies) with
      | UOk s' => exists t2, tr = t1 ++ t2 /\ msolve uf prog n r s' (set_n g1 n2) = Some (g', a, t2, c)
      | UFail => tr = t1 /\ a = [] /\ g' = set_n g1 n2
      | _ => False
      end.
  Proof.
    intros EC EF H. destruct (msolve_S_cases _ _ _ _ H) as [w [_ C]].
    set (g0 := mkg (gdb g) (gid g) (gn g) w) in *.
    apply step_case_call in C. cbn [length gdb g0] in C. rewrite EF in C.
    (* no facts: the search goes on to the function of findall/3 *)
    destruct C as [g1 a1 t1 c1 c' Ex LV|g1 a1 t0 c1 g2 a2 t2 c2 Ex _ Ef]; cbn [scanq] in Ex; injection Ex as <- <- <- <-;
      [discriminate|].
    unfold mafter in Ef. cbn [length] in Ef. rewrite EC in Ef.
    change (builtin_of s (d "findall"%string) [tm; gl; bag]) with (BFindall tm gl bag) in Ef. cbv iota in Ef.
    destruct (call_target s gl []) as [[nm a0]|] eqn:CT; [|discriminate].
    destruct (msolve uf prog n [GCall nm a0] s g0) as [[[[g3 ans] t1] c1]|] eqn:E1; [|discriminate].
    destruct (copy_each tm ans (gn g3)) as [copies n2] eqn:CE.
    exists nm, a0, g0, g3, ans, t1, c1, copies, n2. repeat split; auto.
    - exact (copy_each_length _ _ _ CE).
    - destruct (unify_fast uf s bag (mk_list copies)) as [s'| | |]; try discriminate.
      + apply pre_some in Ef as [t4 [-> E2]]. exists t4. split; [reflexivity|exact E2].
      + injection Ef as <- <- <- <-. repeat split; reflexivity.
  Qed.
End MSolve.
