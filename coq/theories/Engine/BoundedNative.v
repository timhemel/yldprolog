(* C17 for the full YP.query (Sem/Native.v, Sem/NativeExc.v): loaded script + dynamic facts + registered Python
   predicates that may raise.  The enumeration can end in three ways: exhausted, cut short by the recursion limit
   (RecursionError, caught by evaluate_bounded), or by the exception object of a Python predicate (propagates through
   evaluate_bounded like an exception of the projection function). *)
From Coq Require Import String.
From Coq Require Import List Arith Bool.
Import ListNotations.
From YP Require Import Base.Str Term.Term Term.Fast Unify.Unify Lang.Ast Comp.IR Sem.ExecMono Sem.Machine Sem.RunSem
  Sem.Native Sem.NativeExc Engine.Bounded Engine.RunBoundedM Engine.BoundedMachine Engine.NativeMono.
Local Open Scope list_scope.

(* the Python exception class of the model's exception objects: the engine's RecursionError is a RuntimeError; a goal that
   is not callable, a malformed iterator and the objects of the Python predicates are of other classes *)
Definition exc_of (e : exn) : exc :=
  match e with
  | XDepth | XUnify => ERuntime
  | XGoal => EOther 4
  | XCode => EOther 5
  | XPy t => EOther (10 + t)
  end.

Definition world_ans (w : worldE) (name : str) (args : list term) (nq : nat) (n : nat) : res (list term) :=
  let r := nqueryE n w name args (st0 nq) in (map (answer_of nq) (fst r), fin_of_bool (eb (snd r))).

Definition world_gexc (w : worldE) (name : str) (args : list term) (nq : nat) (n : nat) : exc :=
  match snd (nqueryE n w name args (st0 nq)) with Some e => exc_of e | None => ERuntime end.

Theorem world_ans_mono w name args nq n m : n <= m -> res_le (world_ans w name args nq n) (world_ans w name args nq m).
Proof.
  intros L. unfold world_ans.
  pose proof (erase_nqueryE w n name args (st0 nq)) as En. pose proof (erase_nqueryE w m name args (st0 nq)) as Em.
  pose proof (@nquery_depth_mono (erase_world w) n m L name args (st0 nq)) as M. rewrite <- En, <- Em in M.
  apply (le_b_res_le (answer_of nq)) in M. exact M.
Qed.

Section WorldBounded.
  Variable w : worldE.
  Variable name : str.
  Variable args : list term.
  Variable nq : nat.
  Variable B : Type.
  Variable proj : nat -> list term -> nat -> pout B * nat.
  Variable budget : nat -> nat -> nat.
  Variable cur : nat.

  Definition ebw := evaluate_bounded (world_ans w name args nq) (world_gexc w name args nq) proj budget cur true.

  Theorem world_result_is_prefix st limit res_ : gs st = Susp 0 ->
    fst (ebw st limit) = Return res_ -> running cur st ->
    forall m, budget limit cur <= m ->
    exists l0, prefix l0 (fst (world_ans w name args nq m)) /\ projected proj 0 l0 res_.
  Proof. apply result_is_prefix. intros; apply world_ans_mono; assumption. Qed.

  (* what escapes is not a recursion-depth error: a ValueError for a limit below 1, an exception that the projection
     function raised, or the exception object of a Python predicate / a goal that is not callable *)
  Theorem world_no_depth_error_escapes st limit e : running cur st ->
    fst (ebw st limit) = Propagate e ->
    caught e = false /\
    ((limit < 1 /\ e = value_error) \/ (exists k a r0 r1, proj k a r0 = (PRaise e, r1)) \/
     (exists x, snd (nqueryE (budget limit cur) w name args (st0 nq)) = Some x /\ e = exc_of x /\ x <> XDepth /\ x <> XUnify)).
  Proof.
    intros R H. destruct (@no_depth_error_escapes _ _ (world_ans w name args nq) (world_gexc w name args nq) proj budget cur true st limit e R H) as [C [A|[A|[A1 A2]]]]; split; auto.
    right; right. unfold world_gexc, depth_of in A1. unfold world_ans, depth_of in A2. cbn [snd] in A2.
    destruct (snd (nqueryE (budget limit cur) w name args (st0 nq))) as [x|]; cbn in A2; [|discriminate].
    exists x. split; [reflexivity|]. split; [exact A1|]. subst e. destruct x; cbn in C; try discriminate; split; discriminate.
  Qed.
End WorldBounded.
