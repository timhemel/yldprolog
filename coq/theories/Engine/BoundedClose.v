(* C17: evaluate_bounded when query.close() itself RAISES.

   engine.py:
        finally:
            sys.setrecursionlimit(old_recursionlimit)
            if hasattr(query, 'close'):
                query.close()
   The two statements are consecutive, not nested try/finally: an exception raised by the second one leaves the finally
   block at once.  close() of a suspended YP.query raises what the clean-up of a registered Python predicate raises when
   it is closed early and is reached from the query by `yield from` delegation only (goal of the query itself, call/N).
   Engine/Bounded.v models close() as total; here it may raise: `cexc g` = what close() raises on a generator in state g.
   The recursion limit is restored all the same BECAUSE it is restored first; with the two statements swapped
   (finally_swapped) it is not - `swapped_order_leaks` exhibits the difference, so the theorem really is about the order. *)
From Coq Require Import List Arith Bool.
Import ListNotations.
From YP Require Import Engine.Bounded.
Set Implicit Arguments.

Section CloseRaises.
  Variables A B : Type.
  Variable ans : nat -> res A.
  Variable gexc : nat -> exc.
  Variable proj : nat -> A -> nat -> pout B * nat.
  Variable budget : nat -> nat -> nat.
  Variable cur : nat.
  (* query.close() on a generator in state g: None = it returns, Some e = the clean-up of a Python predicate raised e *)
  Variable cexc : gstate -> option exc.

  (* the finally block of engine.py: limit first, then close; an exception of close() replaces the pending outcome *)
  Definition finally_c (old r : nat) (g : gstate) (o : outcome B) : outcome B * istate :=
    match setrl cur old with
    | inl e => (Propagate e, {| rl := r; gs := g |})
    | inr r' => match cexc g with
                | Some e => (Propagate e, {| rl := r'; gs := Done |})
                | None => (o, {| rl := r'; gs := Done |})
                end
    end.

  Definition evaluate_bounded_c (st : istate) (limit : nat) : outcome B * istate :=
    let old := rl st in
    match setrl cur limit with
    | inl e => finally_c old (rl st) (gs st) (handle (Some e) [])
    | inr r1 =>
        match gs st with
        | Done => finally_c old r1 Done (Return [])
        | Susp k0 =>
            let d := depth_of budget cur limit in
            match loop proj (gexc d) (skipn k0 (fst (ans d))) (snd (ans d)) k0 r1 [] with
            | (e, acc, r2, g2) => finally_c old r2 g2 (handle e acc)
            end
        end
    end.

  Lemma evaluate_bounded_c_try st limit :
    evaluate_bounded_c st limit =
    let '(r, g, o) := try_part ans gexc proj budget cur st limit in finally_c (rl st) r g o.
  Proof.
    unfold evaluate_bounded_c, try_part. destruct (setrl cur limit); [reflexivity|].
    destruct (gs st); [|reflexivity].
    destruct (loop _ _ _ _ _ _ _) as [[[e acc] r2] g2]. reflexivity.
  Qed.

  Lemma finally_c_running st r g o : running cur st ->
    snd (finally_c (rl st) r g o) = {| rl := rl st; gs := Done |}.
  Proof.
    intros R. unfold finally_c. rewrite (setrl_old R). destruct (cexc g); reflexivity.
  Qed.

  (* limit restored and generator finished on EVERY branch, whatever close() raises *)
  Theorem close_raises_state st limit : running cur st ->
    snd (evaluate_bounded_c st limit) = {| rl := rl st; gs := Done |}.
  Proof.
    intros R. rewrite evaluate_bounded_c_try.
    destruct (try_part _ _ _ _ _ _ _) as [[r g] o]. apply finally_c_running. exact R.
  Qed.

  Theorem close_raises_rlimit_restored st limit : running cur st ->
    rl (snd (evaluate_bounded_c st limit)) = rl st.
  Proof. intros R. rewrite (close_raises_state limit R). reflexivity. Qed.

  Lemma finally_c_out st r g o : running cur st ->
    fst (finally_c (rl st) r g o) = match cexc g with Some e => Propagate e | None => o end.
  Proof. intros R. unfold finally_c. rewrite (setrl_old R). destruct (cexc g); reflexivity. Qed.

  (* what comes out: the exception of close(), or exactly what Bounded.evaluate_bounded (total close) gives *)
  Theorem close_raises_outcome st limit : running cur st ->
    (exists g e, cexc g = Some e /\ fst (evaluate_bounded_c st limit) = Propagate e) \/
    fst (evaluate_bounded_c st limit) = fst (evaluate_bounded ans gexc proj budget cur true st limit).
  Proof.
    intros R. rewrite evaluate_bounded_c_try, (evaluate_bounded_running _ _ _ _ true limit R).
    destruct (try_part _ _ _ _ _ _ _) as [[r g] o]. rewrite (finally_c_out r g o R).
    destruct (cexc g) as [e|] eqn:E; [left; exists g, e; split; [exact E|reflexivity] | right; reflexivity].
  Qed.

  (* a close() that never raises: the model of Bounded.v *)
  Theorem close_total_same st limit : running cur st -> (forall g, cexc g = None) ->
    evaluate_bounded_c st limit = evaluate_bounded ans gexc proj budget cur true st limit.
  Proof.
    intros R N. rewrite evaluate_bounded_c_try, (evaluate_bounded_running _ _ _ _ true limit R).
    destruct (try_part _ _ _ _ _ _ _) as [[r g] o].
    unfold finally_c. rewrite (setrl_old R), N. reflexivity.
  Qed.

  Definition finally_swapped (old r : nat) (g : gstate) (o : outcome B) : outcome B * istate :=
    match cexc g with
    | Some e => (Propagate e, {| rl := r; gs := Done |})          (* the restore is skipped *)
    | None => match setrl cur old with
              | inl e => (Propagate e, {| rl := r; gs := Done |})
              | inr r' => (o, {| rl := r'; gs := Done |})
              end
    end.

  Definition evaluate_bounded_swapped (st : istate) (limit : nat) : outcome B * istate :=
    let old := rl st in
    match setrl cur limit with
    | inl e => finally_swapped old (rl st) (gs st) (handle (Some e) [])
    | inr r1 =>
        match gs st with
        | Done => finally_swapped old r1 Done (Return [])
        | Susp k0 =>
            let d := depth_of budget cur limit in
            match loop proj (gexc d) (skipn k0 (fst (ans d))) (snd (ans d)) k0 r1 [] with
            | (e, acc, r2, g2) => finally_swapped old r2 g2 (handle e acc)
            end
        end
    end.
End CloseRaises.

(* the order matters: two answers, the projection raises at the first (the query stays suspended), close() of the suspended query
   raises; interpreter limit 1000, bound 150, caller at depth 10.  engine.py's order gives back 1000, the swapped order 150. *)
Definition ex_ans (_ : nat) : res nat := ([7; 8], Norm).
Definition ex_proj (k : nat) (_ : nat) (r : nat) : pout nat * nat := (PRaise (EOther 3), r).
Definition ex_cexc (g : gstate) : option exc := match g with Susp _ => Some (EOther 9) | Done => None end.
Definition ex_st : istate := {| rl := 1000; gs := Susp 0 |}.

Lemma swapped_order_leaks :
  running 10 ex_st /\
  evaluate_bounded_c ex_ans (fun _ => ERuntime) ex_proj (fun l c => l - c) 10 ex_cexc ex_st 150
    = (Propagate (EOther 9), {| rl := 1000; gs := Done |}) /\
  evaluate_bounded_swapped ex_ans (fun _ => ERuntime) ex_proj (fun l c => l - c) 10 ex_cexc ex_st 150
    = (Propagate (EOther 9), {| rl := 150; gs := Done |}).
Proof. split; [apply Nat.ltb_lt; reflexivity|]. split; reflexivity. Qed.
