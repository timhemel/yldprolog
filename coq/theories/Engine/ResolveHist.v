(* For EVERY history of engine operations (register in its three styles, loads that succeed
   or raise with either overwrite flag, assert_fact, clear, queries started / resumed / closed
   in between) the dictionaries of the engine are the ones the property text describes:
   a total map  key -> list of definitions  and a total map  name/arity -> list of facts,
   updated by the readable rules of spec_step.  One-step simulation lifted over fold_left. *)
From Coq Require Import String.
From Coq Require Import List Arith NArith Bool Lia.
Import ListNotations.
From YP Require Import Base.Str Engine.Resolve Engine.ResolveProofs Engine.ResolveLate Engine.RunResolve.

Definition sctx := str -> list def.
Definition sdb := (str * nat) -> list fact.

Definition load_fails (sc : script) : bool := s_broken sc || existsb is_fail (s_stmts sc).

(* the property text, one operation at a time *)
Definition spec_step (o : op) (sp : sctx * sdb) : sctx * sdb :=
  let (sc, sd) := sp in
  match o with
  | ORegister name st d =>                                  (* exactly one key is assigned *)
      ((fun k => if str_eqb k (mkkey name (reg_arity st d)) then [d] else sc k), sd)
  | OLoad s ow =>
      if load_fails s then sp                               (* a load that raises: unchanged *)
      else ((fun k => match last_def (s_stmts s) k with
                      | None => sc k                        (* not mentioned: unaffected *)
                      | Some d => if ow then [d]            (* overwrite: replaced *)
                                  else sc k ++ [d]          (* combine: appended, load order *)
                      end), sd)
  | OAssert name vals app =>
      (sc, fun k => if dbkey_eqb k (name, length vals)
                    then (if app then sd (name, length vals) ++ [vals] else vals :: sd (name, length vals))
                    else sd k)
  | OClear => ((fun _ => []), (fun _ => []))
  | OStart _ _ | ONext _ | OClose _ => sp                   (* queries change nothing *)
  end.

(* which definitions a call name/N uses, on the spec side *)
Definition spec_defs (sc : sctx) (name : str) (n : nat) : list def :=
  match sc (mkkey name (AFix n)) with
  | [] => sc (mkkey name AVar)
  | ds => ds
  end.

(* the last clause (no key holds an empty chain) makes "no definition" and "not bound" the same thing, so that
   spec_defs can test the exact key with `[]` *)
Definition abs_ok (e : engine) (sp : sctx * sdb) : Prop :=
  (forall k, chain_of (e_ctx e) k = fst sp k) /\
  (forall k, db_get (e_db e) k = snd sp k) /\
  (forall k, ctx_get (e_ctx e) k <> Some []).

(* the operations the property text speaks about: what is registered / loaded are functions
   (scripts made of definitions and raising statements, broken text included) *)
Definition plain_op (o : op) : bool :=
  match o with
  | ORegister _ _ d => match d_const d with None => true | Some _ => false end
  | OLoad sc _ => plain_script sc
  | _ => true
  end.

Lemma load_fails_iff c sc ow : plain_script sc = true -> (load_fails sc = true <-> load c sc ow = None).
Proof.
  intros Hp. unfold load_fails. split.
  - intros H. apply load_fail_atomic. apply orb_true_iff in H. destruct H as [H|H]; [left; exact H|right].
    apply existsb_exists in H. destruct H as [st [Hin Hf]]. destruct st; try discriminate. exact Hin.
  - intros H. destruct (s_broken sc) eqn:Eb; [reflexivity|]. simpl.
    destruct (existsb is_fail (s_stmts sc)) eqn:Ef; [reflexivity|]. exfalso.
    assert (Hex : exists c', load c sc ow = Some c').
    { apply load_ok_iff. split; [exact Eb|]. rewrite (exec_ok_plain _ Hp), Ef. reflexivity. }
    destruct Hex as [c' Hc']. congruence.
Qed.

(* what `next` reports for a step of the generator *)
Definition step_obs (n : nat) (st : step) : obs :=
  match st with
  | Done Norm => otag "stop" []
  | Done Cut => otag "cut" []
  | Done Raise => otag "raised" []
  | Done Oof => otag "oof" []
  | Yield s _ => otag "ans" [ans_obs n s]
  end.

Definition next_gen (st : step) : option gen :=
  match st with Done _ => None | Yield _ k => Some k end.

(* a `next` applies the suspended generator to the engine of the moment of the `next` *)
Lemma do_op_next fuel i st g n : nth_error (st_susp st) i = Some (Some g, n) ->
  do_op fuel (ONext i) st =
  (step_obs n (g (st_eng st)), mkState (st_eng st) (set_nth (st_susp st) i (next_gen (g (st_eng st)), n))).
Proof. intros H. cbn [do_op]. rewrite H. destruct (g (st_eng st)) as [[| | |]|s k]; reflexivity. Qed.

Lemma queries_keep_engine fuel o st :
  match o with OStart _ _ | ONext _ | OClose _ => True | _ => False end ->
  st_eng (snd (do_op fuel o st)) = st_eng st.
Proof.
  destruct o as [name sty d | sc ow | name vals app | | name n | i | i]; intros H; try destruct H.
  - reflexivity.
  - destruct (nth_error (st_susp st) i) as [[[g|] n]|] eqn:E.
    + rewrite (do_op_next fuel _ _ _ _ E). reflexivity.
    + cbn [do_op]. rewrite E. reflexivity.
    + cbn [do_op]. rewrite E. reflexivity.
  - cbn [do_op]. destruct (nth_error (st_susp st) i) as [[g n]|]; reflexivity.
Qed.

Lemma step_simulation fuel o st sp :
  plain_op o = true ->
  abs_ok (st_eng st) sp -> abs_ok (st_eng (snd (do_op fuel o st))) (spec_step o sp).
Proof.
  destruct sp as [sc sd]. intros Hp H.
  destruct o as [name sty d | s ow | name vals app | | name n | i | i].
  5-7: rewrite queries_keep_engine by exact I; exact H.
  - (* register *)
    destruct H as [Hc [Hd Hne]]. cbn [plain_op] in Hp.
    assert (Hrr : register_raises sty d = false).
    { unfold register_raises. destruct sty; try reflexivity. destruct (d_const d); [discriminate | reflexivity]. }
    cbn [do_op]. rewrite Hrr. split; [|split; [exact Hd|]]; intros k; cbn [snd st_eng e_ctx spec_step fst].
    + unfold chain_of. rewrite register_get.
      destruct (str_eqb k (mkkey name (reg_arity sty d))); [reflexivity | apply Hc].
    + rewrite register_get.
      destruct (str_eqb k (mkkey name (reg_arity sty d))); [discriminate | apply Hne].
  - (* load *)
    cbn [plain_op] in Hp. cbn [spec_step do_op].
    pose proof (load_fails_iff (e_ctx (st_eng st)) s ow Hp) as Hf.
    destruct (load (e_ctx (st_eng st)) s ow) as [c'|] eqn:El.
    + destruct (load_fails s); [discriminate (proj1 Hf eq_refl)|].
      destruct H as [Hc [Hd Hne]]. split; [|split; [exact Hd|]]; intros k; cbn [snd st_eng e_ctx fst].
      * unfold chain_of. rewrite (load_get_plain _ _ _ _ k Hp El).
        destruct (last_def (s_stmts s) k) as [d|]; [|apply Hc].
        destruct ow; [reflexivity|]. rewrite <- Hc. reflexivity.
      * rewrite (load_get_plain _ _ _ _ k Hp El).
        destruct (last_def (s_stmts s) k) as [d|]; [|apply Hne].
        destruct ow; [discriminate|]. destruct (chain_of (e_ctx (st_eng st)) k); discriminate.
    + rewrite (proj2 Hf eq_refl). exact H.
  - (* assert_fact *)
    destruct H as [Hc [Hd Hne]]. split; [exact Hc|]. split; [|exact Hne].
    intros k. cbn. rewrite assert_fact_get, !Hd. reflexivity.
  - (* clear *)
    split; [reflexivity|]. split; [reflexivity | discriminate].
Qed.

(* the states the history runner goes through *)
Definition exec_ops (fuel : nat) (ops : list op) (st : state) : state :=
  fold_left (fun st o => snd (do_op fuel o st)) ops st.

Definition spec_run (ops : list op) (sp : sctx * sdb) : sctx * sdb :=
  fold_left (fun sp o => spec_step o sp) ops sp.

Lemma history_simulation fuel ops : forall st sp,
  forallb plain_op ops = true ->
  abs_ok (st_eng st) sp -> abs_ok (st_eng (exec_ops fuel ops st)) (spec_run ops sp).
Proof.
  induction ops as [|o ops IH]; intros st sp Hp H; [exact H|].
  cbn [forallb] in Hp. apply andb_true_iff in Hp. destruct Hp as [Hp1 Hp2].
  simpl. apply IH; [exact Hp2|]. apply step_simulation; assumption.
Qed.

Definition spec_init : sctx * sdb := ((fun _ => []), (fun _ => [])).

Theorem history_refines_spec fuel ops :
  forallb plain_op ops = true ->
  abs_ok (st_eng (exec_ops fuel ops (mkState empty_engine []))) (spec_run ops spec_init).
Proof.
  intros Hp. apply history_simulation; [exact Hp|]. unfold abs_ok, spec_init. simpl.
  split; [reflexivity|]. split; [reflexivity | discriminate].
Qed.

(* ... and a call uses exactly the definitions the spec map gives for exactly its arity, the
   variadic ones only when there is none *)
Theorem defs_of_spec e sp name n :
  abs_ok e sp -> defs_of (e_ctx e) name n = spec_defs (fst sp) name n.
Proof.
  intros [Hc [_ Hne]]. unfold defs_of, resolve, spec_defs. rewrite <- !Hc. unfold chain_of.
  destruct (ctx_get (e_ctx e) (mkkey name (AFix n))) as [[|d ds]|] eqn:E1.
  - exfalso. exact (Hne _ E1).
  - reflexivity.
  - reflexivity.
Qed.

(* A LOAD IS ATOMIC, for every script (whatever it binds: functions, constants, None; deletions;
   statements that raise half-way; text that does not compile) and in every state: either it
   raises and the state is the SAME state - nothing of what the script did before it raised is
   visible -, or it returns and every key is bound as load_val says (all of the script merged). *)
Theorem load_op_atomic fuel sc ow st :
  (load (e_ctx (st_eng st)) sc ow = None /\ do_op fuel (OLoad sc ow) st = (otag "raised" [], st)) \/
  (exists c', load (e_ctx (st_eng st)) sc ow = Some c' /\
     do_op fuel (OLoad sc ow) st = (otag "ok" [], mkState (mkEngine (e_db (st_eng st)) c') (st_susp st)) /\
     forall k, ctx_val c' k =
       match last_eff (s_stmts sc) k with
       | Some (Some v) =>
           if same_value (ctx_val (e_ctx (st_eng st)) k) v then ctx_val (e_ctx (st_eng st)) k
           else if ow then Some v
           else Some (VChain (old_members (e_ctx (st_eng st)) k ++ members v))
       | _ => ctx_val (e_ctx (st_eng st)) k
       end).
Proof.
  cbn [do_op]. destruct (load (e_ctx (st_eng st)) sc ow) as [c'|] eqn:El.
  - right. exists c'. split; [reflexivity|]. split; [reflexivity|]. intros k. apply (load_val _ _ _ _ k El).
  - left. split; reflexivity.
Qed.

Theorem raised_load_resolves_as_before fuel sc ow st :
  fst (do_op fuel (OLoad sc ow) st) = otag "raised" [] -> snd (do_op fuel (OLoad sc ow) st) = st.
Proof.
  destruct (load_op_atomic fuel sc ow st) as [[_ H]|[c' [_ [H _]]]]; rewrite H; [reflexivity|].
  cbn [fst]. intros Hx. vm_compute in Hx. discriminate.
Qed.

Lemma run_ops_states fuel lim probes ops : forall st,
  length (run_ops fuel lim probes ops st) = length ops.
Proof.
  induction ops as [|o ops IH]; intros st; [reflexivity|].
  simpl. destruct (do_op fuel o st) as [ob st']. simpl. rewrite IH. reflexivity.
Qed.

(* Creating a query object runs nothing (a Python generator function only runs at the first
   `next`): the object holds the name and the arguments, no fact list and no definition.  So
   before its first resumption nothing is fixed: whatever is done to the engine between
   `q = yp.query(..)` and the first `next(q)` - and whatever the engine was when q was
   created - the first `next` is computed from the engine of THAT moment (and from then on
   Engine/ResolveLate.v resolution_at_first_resumption applies). *)

(* operations that neither resume nor close the suspended query number i *)
Definition leaves (i : nat) (o : op) : bool :=
  match o with ONext j | OClose j => negb (Nat.eqb i j) | _ => true end.

Lemma set_nth_other {A} (l : list A) : forall j i x, i <> j -> nth_error (set_nth l j x) i = nth_error l i.
Proof.
  induction l as [|y l IH]; intros j i x Hne; [destruct j; reflexivity|].
  destruct j as [|j]; destruct i as [|i]; simpl; try reflexivity; [congruence|].
  apply IH. congruence.
Qed.

Lemma do_op_keeps_susp fuel o st i x :
  leaves i o = true -> nth_error (st_susp st) i = Some x ->
  nth_error (st_susp (snd (do_op fuel o st))) i = Some x.
Proof.
  intros Hl Hn.
  destruct o as [name sty d | sc ow | name vals app | | name n | j | j].
  - cbn [do_op]. destruct (register_raises sty d); exact Hn.
  - cbn [do_op]. destruct (load (e_ctx (st_eng st)) sc ow); exact Hn.
  - exact Hn.
  - exact Hn.
  - cbn [do_op snd st_susp]. rewrite nth_error_app1; [exact Hn|]. apply nth_error_Some. congruence.
  - cbn [leaves] in Hl. apply negb_true_iff, Nat.eqb_neq in Hl.
    destruct (nth_error (st_susp st) j) as [[[g|] n]|] eqn:E.
    + rewrite (do_op_next fuel _ _ _ _ E). cbn [snd st_susp]. rewrite set_nth_other by exact Hl. exact Hn.
    + cbn [do_op]. rewrite E. exact Hn.
    + cbn [do_op]. rewrite E. exact Hn.
  - cbn [leaves] in Hl. apply negb_true_iff, Nat.eqb_neq in Hl. cbn [do_op].
    destruct (nth_error (st_susp st) j) as [[g n]|]; try exact Hn.
    cbn [snd st_susp]. rewrite set_nth_other by exact Hl. exact Hn.
Qed.

Lemma exec_ops_keeps_susp fuel i x ops : forall st,
  forallb (leaves i) ops = true -> nth_error (st_susp st) i = Some x ->
  nth_error (st_susp (exec_ops fuel ops st)) i = Some x.
Proof.
  induction ops as [|o ops IH]; intros st Hl Hn; [exact Hn|].
  cbn [forallb] in Hl. apply andb_true_iff in Hl. destruct Hl as [Ho Hl].
  unfold exec_ops. cbn [fold_left]. apply IH; [exact Hl|]. apply do_op_keeps_susp; assumption.
Qed.

(* the query object created by `start` in ANY state is the same closed object - it does not
   mention the engine it was created in - and it is still that object after any operations
   (engine changes, other queries) that do not resume it *)
Theorem created_query_unresolved fuel name n st ops :
  let i := length (st_susp st) in
  forallb (leaves i) ops = true ->
  nth_error (st_susp (exec_ops fuel ops (snd (do_op fuel (OStart name n) st)))) i =
  Some (Some (query_gen fuel name (seq 0 n) n []), n).
Proof.
  intros i Hl. apply exec_ops_keeps_susp; [exact Hl|].
  cbn [do_op snd st_susp]. unfold i. rewrite nth_error_app2 by lia. rewrite Nat.sub_diag. reflexivity.
Qed.

Theorem next_uses_current_engine fuel i st g n :
  nth_error (st_susp st) i = Some (Some g, n) ->
  fst (do_op fuel (ONext i) st) = step_obs n (g (st_eng st)).
Proof. intros Hn. rewrite (do_op_next fuel _ _ _ _ Hn). reflexivity. Qed.

(* together: the first `next` of a query created earlier sees the engine of the first `next` *)
Theorem unstarted_query_sees_engine_of_first_next fuel name n st ops :
  let i := length (st_susp st) in
  forallb (leaves i) ops = true ->
  let st' := exec_ops fuel ops (snd (do_op fuel (OStart name n) st)) in
  fst (do_op fuel (ONext i) st') = step_obs n (query_gen fuel name (seq 0 n) n [] (st_eng st')).
Proof.
  intros i Hl st'. apply next_uses_current_engine. apply created_query_unresolved. exact Hl.
Qed.

(* witness: p(f) and p(old) exist when q is created; before its first next p(g) is put in front
   of the facts and p(old) is replaced by p(new): q answers g, f, new *)
Local Open Scope string_scope.
Example unstarted_query_witness :
  let df (a : string) := mkDef (Some 1) [mkClause 0 [GUnify 0 (d a)]] in
  let ld (a : string) := OLoad (mkScript false [SDef (mkkey (d "p") (AFix 1)) (df a)]) true in
  run_history 3 5 []
    [OAssert (d "p") [d "f"] true; ld "old"; OStart (d "p") 1; ld "new"; OAssert (d "p") [d "g"] false;
     ONext 0; ONext 0; ONext 0; ONext 0] =
  OL (map (fun o => OL [o; OL []])
       [otag "ok" []; otag "ok" []; otag "ok" []; otag "ok" []; otag "ok" [];
        otag "ans" [OL [OS (d "g")]]; otag "ans" [OL [OS (d "f")]]; otag "ans" [OL [OS (d "new")]]; otag "stop" []]).
Proof. vm_compute. reflexivity. Qed.

(* The theorems of Engine/ResolveLate.v speak about run_sched (a generator resumed under a list of
   engines); the correspondence check runs HISTORIES (run_ops).  They are the same thing: the
   results of the `next` operations on suspended query i in a history are the run of its generator
   under the schedule made of the engines current at these `next`. *)

Definition is_close (i : nat) (o : op) : bool := match o with OClose j => Nat.eqb i j | _ => false end.
Definition is_next (i : nat) (o : op) : bool := match o with ONext j => Nat.eqb i j | _ => false end.

(* results of the `next i` operations of a history, in order / the engines they were made in *)
Fixpoint nexts_of (fuel i : nat) (ops : list op) (st : state) : list obs :=
  match ops with
  | [] => []
  | o :: r => if is_next i o then fst (do_op fuel o st) :: nexts_of fuel i r (snd (do_op fuel o st))
              else nexts_of fuel i r (snd (do_op fuel o st))
  end.

Fixpoint engines_at (fuel i : nat) (ops : list op) (st : state) : list engine :=
  match ops with
  | [] => []
  | o :: r => if is_next i o then st_eng st :: engines_at fuel i r (snd (do_op fuel o st))
              else engines_at fuel i r (snd (do_op fuel o st))
  end.

(* what a sequence of `next` reports for a generator (None = it has ended) under a schedule *)
Fixpoint sched_obs (n : nat) (es : list engine) (g : option gen) : list obs :=
  match es with
  | [] => []
  | e :: r =>
      match g with
      | None => otag "stop" [] :: sched_obs n r None
      | Some g => match g e with
                  | Done f => step_obs n (Done f) :: sched_obs n r None
                  | Yield s k => otag "ans" [ans_obs n s] :: sched_obs n r (Some k)
                  end
      end
  end.

Lemma sched_obs_cons n e r g :
  sched_obs n (e :: r) (Some g) = step_obs n (g e) :: sched_obs n r (next_gen (g e)).
Proof. cbn [sched_obs]. destruct (g e); reflexivity. Qed.

Lemma set_nth_same {A} (l : list A) : forall i x y, nth_error l i = Some y -> nth_error (set_nth l i x) i = Some x.
Proof.
  induction l as [|z l IH]; intros [|i] x y H; simpl in *; try discriminate; [reflexivity|].
  eapply IH. exact H.
Qed.

Lemma leaves_of i o : is_next i o = false -> is_close i o = false -> leaves i o = true.
Proof.
  destruct o; simpl; intros H1 H2; try reflexivity; [rewrite H1 | rewrite H2]; reflexivity.
Qed.

Theorem nexts_are_schedule fuel i n ops : forall st g,
  nth_error (st_susp st) i = Some (g, n) ->
  forallb (fun o => negb (is_close i o)) ops = true ->
  nexts_of fuel i ops st = sched_obs n (engines_at fuel i ops st) g.
Proof.
  induction ops as [|o ops IH]; intros st g Hn Hc; [reflexivity|].
  cbn [forallb] in Hc. apply andb_true_iff in Hc. destruct Hc as [Ho Hc]. apply negb_true_iff in Ho.
  cbn [nexts_of engines_at]. destruct (is_next i o) eqn:En.
  - destruct o as [| | | | | j | j]; try discriminate. cbn [is_next] in En. apply Nat.eqb_eq in En. subst j.
    destruct g as [g|].
    + rewrite (do_op_next fuel _ _ _ _ Hn), sched_obs_cons. cbn [fst snd]. f_equal.
      apply IH; [|exact Hc]. cbn [st_susp]. eapply set_nth_same. exact Hn.
    + cbn [sched_obs do_op]. rewrite Hn. cbn [fst snd]. f_equal. apply IH; assumption.
  - apply IH; [|exact Hc]. apply do_op_keeps_susp; [|exact Hn]. apply leaves_of; assumption.
Qed.

Definition run_obs (n len : nat) (r : list store * option fin) : list obs :=
  map (fun s => otag "ans" [ans_obs n s]) (fst r) ++
  match snd r with
  | None => []
  | Some f => step_obs n (Done f) :: repeat (otag "stop" []) (len - S (length (fst r)))
  end.

Lemma sched_obs_none n es : sched_obs n es None = repeat (otag "stop" []) (length es).
Proof. induction es as [|e r IH]; simpl; [reflexivity|]. rewrite IH. reflexivity. Qed.

Lemma sched_obs_run n es : forall g, sched_obs n es (Some g) = run_obs n (length es) (run_sched es g).
Proof.
  induction es as [|e r IH]; intros g; [reflexivity|].
  cbn [sched_obs run_sched]. destruct (g e) as [f|s k].
  - unfold run_obs. cbn [fst snd map app length]. rewrite sched_obs_none.
    replace (S (length r) - 1) with (length r) by lia. reflexivity.
  - rewrite IH. destruct (run_sched r k) as [l fo]. unfold run_obs. cbn [fst snd map app length]. reflexivity.
Qed.

(* CALL-TIME RESOLUTION OVER HISTORIES.  Take the query object q of a call name/n (created by
   `start`, not yet resumed) in two states and let two arbitrary histories run (never closing q).
   If the FIRST `next` of q finds the same engine e0 in both, the definitions e0 holds for name/n
   make no calls, and q is resumed equally often, then every `next` of q reports the same in both
   histories - whatever else the histories do to the engine before, between and after. *)
Theorem history_call_time_resolution f name n i1 i2 ops1 ops2 st1 st2 e0 es1 es2 :
  let q := query_gen (S f) name (seq 0 n) n [] in
  nth_error (st_susp st1) i1 = Some (Some q, n) -> nth_error (st_susp st2) i2 = Some (Some q, n) ->
  forallb (fun o => negb (is_close i1 o)) ops1 = true -> forallb (fun o => negb (is_close i2 o)) ops2 = true ->
  engines_at (S f) i1 ops1 st1 = e0 :: es1 -> engines_at (S f) i2 ops2 st2 = e0 :: es2 ->
  length es1 = length es2 ->
  forallb callfree (call_defs e0 name n) = true ->
  nexts_of (S f) i1 ops1 st1 = nexts_of (S f) i2 ops2 st2.
Proof.
  intros q H1 H2 Hc1 Hc2 He1 He2 Hl Hcf.
  rewrite (nexts_are_schedule _ _ _ _ _ _ H1 Hc1), (nexts_are_schedule _ _ _ _ _ _ H2 Hc2), He1, He2.
  rewrite !sched_obs_run. cbn [length]. rewrite Hl. f_equal.
  apply call_time_resolution; [|exact Hl]. rewrite seq_length. exact Hcf.
Qed.

(* witness: after `assert p(f); load p(old); q = query p(X)` the history that replaces p(old) by
   p(new) and asserts p(g) while q is suspended on the fact, and the history that leaves the
   engine alone, report the same three `next` of q: f, old, stop *)
Example history_call_time_witness :
  let df (a : string) := mkDef (Some 1) [mkClause 0 [GUnify 0 (d a)]] in
  let ld (a : string) := OLoad (mkScript false [SDef (mkkey (d "p") (AFix 1)) (df a)]) true in
  let st := exec_ops 3 [OAssert (d "p") [d "f"] true; ld "old"; OStart (d "p") 1] (mkState empty_engine []) in
  nth_error (st_susp st) 0 = Some (Some (query_gen 3 (d "p") (seq 0 1) 1 []), 1) /\
  nexts_of 3 0 [ONext 0; ld "new"; OAssert (d "p") [d "g"] false; ONext 0; OClear; ONext 0] st =
    [otag "ans" [OL [OS (d "f")]]; otag "ans" [OL [OS (d "old")]]; otag "stop" []] /\
  nexts_of 3 0 [ONext 0; ONext 0; ONext 0] st =
    [otag "ans" [OL [OS (d "f")]]; otag "ans" [OL [OS (d "old")]]; otag "stop" []].
Proof. repeat split; vm_compute; reflexivity. Qed.
