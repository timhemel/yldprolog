(* C04, same engine: the hypothesis of Slots.slots_alone (sinv, for an abstract family of cell sets) holds in every
   engine state that is reached by a history in which each query is started over variables that do not occur in
   the queries held in the other slots at that moment ("simultaneously suspended queries over disjoint variables").

   PQc c = the cells of the generator c: the cells its query number names (everything it allocates) and the
   variables of its argument terms.  Invariant R of (engine record, heap):
     - every held generator has a query number below the start counter, argument variables that are user cells
       of this engine, and holds terms over PQc c only;
     - generators in different slots have different query numbers and no argument variable in common;
     - every binding of a cell of this engine that is in the heap is in the trail of a held generator.
   R holds initially, is kept by EVERY operation (a start must satisfy start_ok), and implies sinv. *)
From Coq Require Import String.
From Coq Require Import List Arith Bool Lia ZArith.
Import ListNotations.
From YP Require Import Base.Str Term.Term Unify.Unify Engine.Deref Engine.Frame Engine.Db Engine.World Engine.CursorFrame
  Engine.Isolation Engine.Footprint Engine.Slots.

Lemma occurs_rn_list f v l : existsb (occurs v) (map (rn f) l) = true -> exists k, v = f k.
Proof.
  intros H. apply existsb_exists in H as [x [Hx Ho]]. apply in_map_iff in Hx as [y [<- _]].
  exact (occurs_rn f v y Ho).
Qed.

Fixpoint tvars (t : term) : list nat :=
  match t with TVar v => [v] | TFun _ args => flat_map tvars args | _ => [] end.
Lemma occurs_tvars v t : occurs v t = true -> In v (tvars t).
Proof.
  induction t as [a|z|s|w|g args IH] using term_ind'; simpl; try discriminate.
  - intros H. apply Nat.eqb_eq in H. left. congruence.
  - intros H. apply existsb_exists in H as [x [Hx Ho]]. apply in_flat_map. exists x.
    rewrite Forall_forall in IH. split; [exact Hx|exact (IH x Hx Ho)].
Qed.

Lemma unbind_notin tr h v t : In (v, t) (unbind tr h) -> ~ In v (map fst tr).
Proof.
  unfold unbind. intros H Hin. apply filter_In in H as [_ H]. cbn [fst] in H.
  apply negb_true_iff in H. assert (E : existsb (Nat.eqb v) (map fst tr) = true).
  { apply existsb_exists. exists v. split; [exact Hin|apply Nat.eqb_refl]. }
  congruence.
Qed.

(* a step first takes the bindings of c's current answer out of the heap; hstep: or changes nothing (model error) *)
Definition hrel (c : cursor) (h : store) (c' : cursor) (h' : store) : Prop :=
  forall v t, In (v, t) h' -> In (v, t) (ctrail c') \/ (In (v, t) h /\ ~ In v (map fst (ctrail c))).
Definition hstep (c : cursor) (h : store) (c' : cursor) (h' : store) : Prop :=
  (c' = c /\ h' = h) \/ hrel c h c' h'.

Lemma hstep_in c h c' h' v t : hstep c h c' h' -> In (v, t) h' ->
  In (v, t) (ctrail c') \/ (In (v, t) h /\ (In (v, t) (ctrail c) -> In (v, t) (ctrail c'))).
Proof.
  intros [[-> ->]|Hs] Hin; [right; auto|].
  destruct (Hs v t Hin) as [T|[Hh Nn]]; [left; exact T|right]. split; [exact Hh|].
  intros T. destruct Nn. exact (in_map fst _ _ T).
Qed.

Lemma hstep_trans c h c1 h1 c2 h2 : hstep c h c1 h1 -> hstep c1 h1 c2 h2 -> hstep c h c2 h2.
Proof.
  intros [[-> ->]|A] [[-> ->]|B]; try (left; split; reflexivity); try (right; assumption).
  right. intros v t H. destruct (B v t H) as [H1|[H1 N1]]; [left; exact H1|].
  destruct (A v t H1) as [H2|H2]; [|right; exact H2].
  exfalso. apply N1. apply (in_map fst) in H2. exact H2.
Qed.

Lemma cnext_shape fuel d fresh h c c' h' r nm d' : cnext fuel d fresh h c = (c', h', r, nm, d') ->
  cargs c' = cargs c /\ hstep c h c' h'.
Proof.
  unfold cnext. destruct (search fuel (unbind (ctrail c) h) fresh (qfid (cown c)) (mkms d (cnf c) (cfr c) [])) as [tr m|m|k m];
    intros E; injection E as <- <- <- <- <-; cbn [cargs ctrail]; (split; [reflexivity|]).
  - right. intros v t H. cbn [ctrail].
    apply in_app_or in H as [H|H]; [left; exact H|right].
    split; [eapply unbind_in; eauto|eapply unbind_notin; eauto].
  - right. intros v t H. right.
    split; [eapply unbind_in; eauto|eapply unbind_notin; eauto].
  - left. auto.
Qed.

Lemma cdrain_shape fresh : forall m fuel d h c acc names c' h' answers err names' d',
  cdrain m fuel d fresh h c acc names = (c', h', answers, err, names', d') ->
  cargs c' = cargs c /\ hstep c h c' h'.
Proof.
  induction m as [|m IH]; intros fuel d h c acc names c' h' answers err names' d' E; cbn [cdrain] in E.
  - injection E as <- <- <- <- <- <-. split; [reflexivity|]. left. auto.
  - destruct (cnext fuel d fresh h c) as [[[[c1 h1] r] nm] d1] eqn:E1.
    destruct (cnext_shape _ _ _ _ _ _ _ _ _ _ E1) as [A1 S1].
    destruct r as [vals| |k].
    2, 3: injection E as <- <- <- <- <- <-; auto.
    destruct (IH _ _ _ _ _ _ _ _ _ _ _ _ E) as [A2 S2].
    split; [congruence|]. eapply hstep_trans; eauto.
Qed.

Lemma cop_shape fuel fresh k d h c c' h' ob lg d' : cop fuel fresh k d h c = (c', h', ob, lg, d') ->
  cargs c' = cargs c /\ hstep c h c' h'.
Proof.
  intros E. destruct k; cbn [cop] in E.
  - destruct (cnext fuel d fresh h c) as [[[[c1 h1] r] lg1] d1] eqn:E1. injection E as <- <- <- <- <-.
    exact (cnext_shape _ _ _ _ _ _ _ _ _ _ E1).
  - injection E as <- <- <- <- <-. unfold cclose. cbn [fst snd cargs]. split; [reflexivity|].
    right. intros v t H. right. split; [eapply unbind_in; eauto|eapply unbind_notin; eauto].
  - destruct (cdrain fuel fuel d fresh h c [] []) as [[[[[c1 h1] answers] err] lg1] d1] eqn:E1. injection E as <- <- <- <- <-.
    exact (cdrain_shape _ _ _ _ _ _ _ _ _ _ _ _ _ _ E1).
Qed.

Section Reach.
Variables n i : nat.
Hypothesis Hi : i < n.

Definition argvar (c : cursor) (v : nat) : bool := existsb (occurs v) (cargs c).
Definition PQc (c : cursor) (v : nat) : bool :=
  Pe n i v && (Nat.eqb (owner n v) (S (cown c)) || argvar c v).
Definition PQ_of (e : engine) (q : nat) : nat -> bool :=
  match aget Nat.eqb q (cursors e) with Some c => PQc c | None => fun _ => false end.

Record R (e : engine) (h : store) : Prop := mkR {
  R_cur : forall q c, aget Nat.eqb q (cursors e) = Some c ->
            cown c < nstart e
            /\ (forall v, argvar c v = true -> Pe n i v = true /\ owner n v = 0)
            /\ cgood (PQc c) c;
  R_dis : forall q1 q2 c1 c2, q1 <> q2 ->
            aget Nat.eqb q1 (cursors e) = Some c1 -> aget Nat.eqb q2 (cursors e) = Some c2 ->
            cown c1 <> cown c2 /\ (forall v, argvar c1 v = true -> argvar c2 v = false);
  R_heap : forall v t, In (v, t) h -> Pe n i v = true ->
            exists q c, aget Nat.eqb q (cursors e) = Some c /\ In (v, t) (ctrail c) }.

(* the condition on a start: its variables do not occur in the queries held in the other slots *)
Definition start_ok (e : engine) (q : nat) (args : list term) : Prop :=
  forall q' c', q' <> q -> aget Nat.eqb q' (cursors e) = Some c' ->
  forall v, existsb (occurs v) (map (rn (ucell n i)) args) = true -> argvar c' v = false.
Definition op_ok (e : engine) (o : op) : Prop :=
  match o with OStart q _ args => start_ok e q args | _ => True end.
Fixpoint hist_ok (fuel : nat) (ops : list op) (e : engine) (h : store) : Prop :=
  match ops with
  | [] => True
  | o :: r => op_ok e o /\ hist_ok fuel r (fst (fst (estep fuel n i o e h))) (snd (fst (estep fuel n i o e h)))
  end.

Definition start_okb (e : engine) (q : nat) (args : list term) : bool :=
  forallb (fun qc : nat * cursor =>
             Nat.eqb (fst qc) q
             || forallb (fun v => negb (argvar (snd qc) v)) (flat_map tvars (map (rn (ucell n i)) args)))
          (cursors e).
Definition op_okb (e : engine) (o : op) : bool :=
  match o with OStart q _ args => start_okb e q args | _ => true end.
Fixpoint hist_okb (fuel : nat) (ops : list op) (e : engine) (h : store) : bool :=
  match ops with
  | [] => true
  | o :: r => op_okb e o && let '(e', h', _) := estep fuel n i o e h in hist_okb fuel r e' h'
  end.

Lemma start_okb_ok e q args : start_okb e q args = true -> start_ok e q args.
Proof.
  intros H q' c' N G v Hv. apply aget_In in G.
  unfold start_okb in H. rewrite forallb_forall in H. specialize (H _ G). cbn [fst snd] in H.
  destruct (Nat.eqb_spec q' q); [contradiction|]. cbn [orb] in H.
  rewrite forallb_forall in H. apply negb_true_iff. apply H.
  apply existsb_exists in Hv as [t [Ht Ho]]. apply in_flat_map. exists t.
  split; [exact Ht|apply occurs_tvars; exact Ho].
Qed.

Lemma hist_okb_ok fuel : forall ops e h, hist_okb fuel ops e h = true -> hist_ok fuel ops e h.
Proof.
  induction ops as [|o r IH]; intros e h H; cbn [hist_okb hist_ok] in *; [exact I|].
  apply andb_true_iff in H as [H1 H2]. destruct (estep fuel n i o e h) as [[e' h'] ob]. split.
  - destruct o; try exact I. apply start_okb_ok. exact H1.
  - apply IH. exact H2.
Qed.

Lemma PQc_disj e h q1 q2 c1 c2 v : R e h -> q1 <> q2 ->
  aget Nat.eqb q1 (cursors e) = Some c1 -> aget Nat.eqb q2 (cursors e) = Some c2 ->
  PQc c1 v = true -> PQc c2 v = false.
Proof.
  intros Rr N H1 H2 P1. unfold PQc in *.
  apply andb_true_iff in P1 as [Pv P1]. rewrite Pv. cbn [andb].
  destruct (R_dis _ _ Rr q1 q2 c1 c2 N H1 H2) as [No Na].
  destruct (R_dis _ _ Rr q2 q1 c2 c1 (not_eq_sym N) H2 H1) as [_ Na'].
  destruct (R_cur _ _ Rr q1 c1 H1) as [_ [U1 _]]. destruct (R_cur _ _ Rr q2 c2 H2) as [_ [U2 _]].
  apply orb_true_iff in P1 as [P1|P1].
  - apply Nat.eqb_eq in P1. apply orb_false_iff. split.
    + apply Nat.eqb_neq. lia.
    + destruct (argvar c2 v) eqn:A2; auto. destruct (U2 v A2) as [_ O]. lia.
  - destruct (U1 v P1) as [_ O]. apply orb_false_iff. split.
    + apply Nat.eqb_neq. lia.
    + apply Na. exact P1.
Qed.

Lemma PQ_of_disj e h : R e h -> forall q q' v, q <> q' -> PQ_of e q v = true -> PQ_of e q' v = false.
Proof.
  intros Rr q q' v N H. unfold PQ_of in *.
  destruct (aget Nat.eqb q (cursors e)) as [c|] eqn:E1; [|discriminate].
  destruct (aget Nat.eqb q' (cursors e)) as [c'|] eqn:E2; [|reflexivity].
  eapply PQc_disj; eauto.
Qed.

Lemma PQc_fresh c k : PQc c (ccell n i (cown c) k) = true.
Proof.
  unfold PQc. rewrite (P_ccell n i Hi), (owner_ccell n i _ _ Hi), Nat.eqb_refl. reflexivity.
Qed.

Lemma R_trail e h q c : R e h -> aget Nat.eqb q (cursors e) = Some c -> good (PQc c) (ctrail c).
Proof. intros Rr Eq. exact (proj2 (proj2 (proj2 (proj2 (R_cur _ _ Rr q c Eq))))). Qed.

Theorem R_sinv e h : R e h -> sinv n i (PQ_of e) e h.
Proof.
  intros Rr. split.
  - intros q v t Hin HP. unfold PQ_of in *.
    destruct (aget Nat.eqb q (cursors e)) as [c|] eqn:Eq; [|discriminate].
    assert (Pv : Pe n i v = true) by (unfold PQc in HP; apply andb_true_iff in HP; tauto).
    destruct (R_heap _ _ Rr v t Hin Pv) as [q' [c' [Eq' Ht]]].
    destruct (Nat.eq_dec q' q) as [->|N].
    + rewrite Eq in Eq'. injection Eq' as <-. exact (proj2 (R_trail e h q c Rr Eq v t Ht)).
    + pose proof (proj1 (R_trail e h q' c' Rr Eq' v t Ht)) as P'.
      rewrite (PQc_disj e h q' q c' c v Rr N Eq' Eq P') in HP. discriminate.
  - intros q c Eq. unfold PQ_of. rewrite Eq.
    destruct (R_cur _ _ Rr q c Eq) as [_ [_ G]]. split; [exact G|apply PQc_fresh].
Qed.

Lemma PQc_ext c c' : cown c' = cown c -> cargs c' = cargs c -> PQc c' = PQc c.
Proof. intros O A. unfold PQc, argvar. rewrite O, A. reflexivity. Qed.

Lemma R_same_cursors e h e' : cursors e' = cursors e -> nstart e <= nstart e' -> R e h -> R e' h.
Proof.
  intros Ec Hn [A B C]. split; rewrite ?Ec; auto.
  intros q c H. destruct (A q c H) as [L X]. split; [lia|exact X].
Qed.

Lemma R_slot_step e h q c c' e' h' :
  R e h -> aget Nat.eqb q (cursors e) = Some c ->
  cursors e' = aset Nat.eqb q c' (cursors e) -> nstart e' = nstart e ->
  cown c' = cown c -> cargs c' = cargs c -> cgood (PQc c) c' -> hstep c h c' h' ->
  R e' h'.
Proof.
  intros Rr Eq Ec En Ow Ar G Hs.
  pose proof (PQc_ext c c' Ow Ar) as EP.
  split.
  - intros q0 c0 H. rewrite Ec in H. rewrite En. apply aget_aset_inv in H as [[-> ->]|[N H]].
    + destruct (R_cur _ _ Rr q c Eq) as [L [U _]]. rewrite Ow, EP. unfold argvar in *. rewrite Ar.
      split; [exact L|]. split; [exact U|exact G].
    + exact (R_cur _ _ Rr q0 c0 H).
  - intros q1 q2 c1 c2 N H1 H2. rewrite Ec in H1, H2. unfold argvar.
    apply aget_aset_inv in H1 as [[-> ->]|[N1 H1]]; apply aget_aset_inv in H2 as [[-> ->]|[N2 H2]].
    + contradiction.
    + rewrite Ow, Ar. exact (R_dis _ _ Rr q q2 c c2 N Eq H2).
    + rewrite Ow, Ar. exact (R_dis _ _ Rr q1 q c1 c N H1 Eq).
    + exact (R_dis _ _ Rr q1 q2 c1 c2 N H1 H2).
  - intros v t Hin Pv. rewrite Ec.
    destruct (hstep_in _ _ _ _ v t Hs Hin) as [T|[Hh Tc]]; [exists q, c'; rewrite aget_aset_eq; auto|].
    destruct (R_heap _ _ Rr v t Hh Pv) as [q0 [c0 [E0 T0]]].
    destruct (Nat.eq_dec q q0) as [<-|N0].
    + rewrite Eq in E0. injection E0 as <-. exists q, c'. rewrite aget_aset_eq. auto.
    + exists q0, c0. rewrite aget_aset_neq by exact N0. auto.
Qed.

Lemma R_qop fuel o q e h e' h' ob : slot_of o = Some q -> R e h ->
  estep fuel n i o e h = (e', h', ob) -> R e' h'.
Proof.
  intros So Rr E. rewrite (estep_slot fuel n i o q e h So) in E.
  destruct (aget Nat.eqb q (cursors e)) as [c|] eqn:Eq; [|injection E as <- <- <-; exact Rr].
  destruct (cop fuel (ccell n i (cown c)) (slotop_of o) (edb e) h c) as [[[[c1 h1] ob1] lg1] d1] eqn:Ec.
  injection E as <- <- <-.
  destruct (R_cur _ _ Rr q c Eq) as [_ [_ G]].
  (* closedness of the heap for PQc c comes from R *)
  pose proof (R_sinv e h Rr) as [HC _]. specialize (HC q). unfold PQ_of in HC. rewrite Eq in HC.
  destruct (cop_frame (PQc c) _ _ _ _ _ _ _ _ _ _ _ (PQc_fresh c) HC G Ec) as [_ F].
  destruct (cop_shape _ _ _ _ _ _ _ _ _ _ _ Ec) as [Ar Hs].
  apply (R_slot_step e h q c c1 _ h1 Rr Eq); [reflexivity|reflexivity|exact (fr_own F)|exact Ar|exact (fr_good F)|exact Hs].
Qed.

Lemma R_start fuel q nm args e h e' h' ob : R e h -> start_ok e q args ->
  estep fuel n i (OStart q nm args) e h = (e', h', ob) -> R e' h'.
Proof.
  intros Rr Ok E. rewrite estep_start in E.
  set (c0 := cstart (nstart e) nm (map (rn (ucell n i)) args)) in *.
  assert (Ec : cursors e' = aset Nat.eqb q c0 (cursors e)) by (injection E as <- _ _; reflexivity).
  assert (En : nstart e' = S (nstart e)) by (injection E as <- _ _; reflexivity).
  assert (U0 : forall v, argvar c0 v = true -> Pe n i v = true /\ owner n v = 0).
  { intros v H. unfold argvar, c0 in H. cbn [cargs cstart] in H.
    destruct (occurs_rn_list _ _ _ H) as [k ->]. split; [apply (P_ucell n i Hi)|apply owner_ucell; exact Hi]. }
  assert (G0 : cgood (PQc c0) c0).
  { apply cstart_good. apply Forall_forall. intros x Hx w Hw. unfold PQc.
    assert (A : argvar c0 w = true).
    { unfold argvar, c0. cbn [cargs cstart]. apply existsb_exists. exists x. auto. }
    rewrite A, (proj1 (U0 w A)), orb_true_r. reflexivity. }
  (* the heap: the generator that was in the slot is closed *)
  assert (Hh : forall v t, In (v, t) h' -> In (v, t) h /\
               forall c, aget Nat.eqb q (cursors e) = Some c -> ~ In v (map fst (ctrail c))).
  { intros v t H. injection E as _ <- _. destruct (aget Nat.eqb q (cursors e)) as [c|].
    - split; [eapply unbind_in; eauto|].
      intros c1 E1. injection E1 as <-. eapply unbind_notin; eauto.
    - split; [exact H|]. intros c1 E1. discriminate. }
  split.
  - intros q1 c1 H. rewrite Ec in H. rewrite En. apply aget_aset_inv in H as [[-> ->]|[N H]].
    + split; [cbn; lia|]. split; [exact U0|exact G0].
    + destruct (R_cur _ _ Rr q1 c1 H) as [L X]. split; [lia|exact X].
  - intros q1 q2 c1 c2 N H1 H2. rewrite Ec in H1, H2.
    apply aget_aset_inv in H1 as [[-> ->]|[N1 H1]]; apply aget_aset_inv in H2 as [[-> ->]|[N2 H2]].
    + contradiction.
    + destruct (R_cur _ _ Rr q2 c2 H2) as [L _]. split; [cbn [cown c0 cstart]; lia|].
      intros v Hv. exact (Ok q2 c2 N2 H2 v Hv).
    + destruct (R_cur _ _ Rr q1 c1 H1) as [L _]. split; [cbn [cown c0 cstart]; lia|].
      intros v Hv. destruct (argvar c0 v) eqn:A0; auto.
      rewrite (Ok q1 c1 N1 H1 v A0) in Hv. discriminate.
    + exact (R_dis _ _ Rr q1 q2 c1 c2 N H1 H2).
  - intros v t Hin Pv. destruct (Hh v t Hin) as [Hold Nn].
    destruct (R_heap _ _ Rr v t Hold Pv) as [q1 [c1 [E1 T1]]]. rewrite Ec.
    destruct (Nat.eq_dec q q1) as [<-|N].
    + exfalso. apply (Nn c1 E1). apply (in_map fst) in T1. exact T1.
    + exists q1, c1. rewrite aget_aset_neq by exact N. auto.
Qed.

Theorem R_step fuel o e h e' h' ob : R e h -> op_ok e o -> estep fuel n i o e h = (e', h', ob) -> R e' h'.
Proof.
  intros Rr Ok E.
  destruct (slot_of o) as [q|] eqn:So; [exact (R_qop fuel o q e h e' h' ob So Rr E)|].
  destruct o as [nm|app nm args|nm args|nm ar rows|ov script| |q nm args|q|q|q|ts]; try discriminate So;
    try (eapply R_start; eassumption); cbn [estep] in E.
  (* every other operation but retract leaves the generators and the start counter alone *)
  all: try (injection E as <- <- <-; apply (R_same_cursors e h); auto; fail).
  destruct (retract_list h (ccell n i (nstart e)) (map (rn (ucell n i)) args) (find_facts (edb e) nm (length args)));
    injection E as <- <- <-; [|exact Rr]. apply (R_same_cursors e h); [reflexivity|cbn; lia|exact Rr].
Qed.

Theorem R_run fuel : forall ops e h e' h' bs,
  R e h -> hist_ok fuel ops e h -> erun n i fuel ops e h = (e', h', bs) -> R e' h'.
Proof.
  induction ops as [|o r IH]; intros e h e' h' bs Rr Ok E; cbn [erun] in E.
  - injection E as <- <- <-. exact Rr.
  - destruct Ok as [Oo Or].
    destruct (estep fuel n i o e h) as [[e1 h1] ob] eqn:E1. cbn [fst snd] in Or.
    destruct (erun n i fuel r e1 h1) as [[e2 h2] bs2] eqn:E2. injection E as -> -> <-.
    apply (IH e1 h1 e' h' bs2); auto. apply (R_step fuel o e h e1 h1 ob); auto.
Qed.

Lemma R_init h : (forall v t, In (v, t) h -> Pe n i v = false) -> R init_engine h.
Proof.
  intros Hh. split.
  - intros q c H. discriminate.
  - intros q1 q2 c1 c2 _ H. discriminate.
  - intros v t Hin Pv. rewrite (Hh v t Hin) in Pv. discriminate.
Qed.

(* the property text: from a new engine, after ANY history in which queries are started over variables that do not
   occur in the other queries held at that moment, and for ANY sequence of next / close / drain operations on
   the slots: what is observed on slot q is what is observed when only the operations on q are run - provided the steps on
   q touch only the keys K of the fact store and the steps on the other slots write only keys outside K *)
Theorem disjoint_queries_alone_K K fuel pre ops e h bs0 q :
  hist_ok fuel pre init_engine [] -> erun n i fuel pre init_engine [] = (e, h, bs0) -> Forall qop ops ->
  foot_ok n i K q fuel ops e h ->
  pick q ops (snd (erun n i fuel ops e h))
  = snd (erun n i fuel (filter (is_slot q) ops) e (fP (PQ_of e q) h)).
Proof.
  intros Ok E F FO.
  assert (Rr : R e h).
  { eapply R_run; eauto. apply R_init. intros v t []. }
  apply (same_engine_slots_K n i (PQ_of e) (PQ_of_disj e h Rr) K); auto. apply R_sinv. exact Rr.
Qed.

Theorem disjoint_queries_alone fuel pre ops e h bs0 q :
  hist_ok fuel pre init_engine [] -> erun n i fuel pre init_engine [] = (e, h, bs0) -> Forall qop ops ->
  nowrite n i fuel ops e h ->
  pick q ops (snd (erun n i fuel ops e h))
  = snd (erun n i fuel (filter (is_slot q) ops) e (fP (PQ_of e q) h)).
Proof.
  intros Ok E F NW. eapply disjoint_queries_alone_K; eauto. apply nowrite_foot. exact NW.
Qed.

End Reach.

Lemma erun_app n i fuel a : forall b e h,
  erun n i fuel (a ++ b) e h =
  let '(e1, h1, o1) := erun n i fuel a e h in
  let '(e2, h2, o2) := erun n i fuel b e1 h1 in (e2, h2, o1 ++ o2).
Proof.
  induction a as [|o r IH]; intros b e h; cbn [app erun].
  - destruct (erun n i fuel b e h) as [[e2 h2] o2]. reflexivity.
  - destruct (estep fuel n i o e h) as [[e1 h1] ob]. rewrite IH.
    destruct (erun n i fuel r e1 h1) as [[e2 h2] o2]. destruct (erun n i fuel b e2 h2) as [[e3 h3] o3]. reflexivity.
Qed.
Lemma erun_eta n i fuel ops e h :
  erun n i fuel ops e h
  = (fst (fst (erun n i fuel ops e h)), snd (fst (erun n i fuel ops e h)), snd (erun n i fuel ops e h)).
Proof. destruct (erun n i fuel ops e h) as [[e' h'] bs]. reflexivity. Qed.
Lemma erun_length n i fuel : forall a e h, length (snd (erun n i fuel a e h)) = length a.
Proof.
  induction a as [|o r IH]; intros e h; cbn [erun]; [reflexivity|].
  destruct (estep fuel n i o e h) as [[e1 h1] ob]. specialize (IH e1 h1).
  destruct (erun n i fuel r e1 h1) as [[e2 h2] o2]. cbn [snd length] in *. rewrite IH. reflexivity.
Qed.

(* any number of engines, ANY schedule; the operations of engine i are a history pre (queries started over variables
   not occurring in the other queries held) followed by next / close / drain operations ops, interleaved in any way
   with the operations of the other engines: what engine i observes on slot q during ops is what the slot shows when
   it is the only one advanced, in an engine that ran alone (footprint condition as above) *)
Theorem world_disjoint_queries_alone_K K fuel n i sched pre ops e h bs0 q : i < n ->
  map snd (only i sched) = pre ++ ops ->
  hist_ok n i fuel pre init_engine [] -> erun n i fuel pre init_engine [] = (e, h, bs0) -> Forall qop ops ->
  foot_ok n i K q fuel ops e h ->
  pick q ops (skipn (length pre) (proj i (snd (wrun fuel (init_world n) sched))))
  = snd (erun n i fuel (filter (is_slot q) ops) e (fP (PQ_of n i e q) h)).
Proof.
  intros Hi Es Ok E F FO.
  rewrite (interleave_alone_init fuel n sched i Hi), Es, erun_app, E.
  pose proof (erun_length n i fuel pre init_engine []) as L. rewrite E in L. cbn [snd] in L.
  destruct (erun n i fuel ops e h) as [[e2 h2] o2] eqn:E2. cbn [snd].
  rewrite <- L, skipn_app, Nat.sub_diag, skipn_all. cbn [skipn app].
  pose proof (disjoint_queries_alone_K n i Hi K fuel pre ops e h bs0 q Ok E F FO) as D.
  rewrite E2 in D. exact D.
Qed.

Theorem world_disjoint_queries_alone fuel n i sched pre ops e h bs0 q : i < n ->
  map snd (only i sched) = pre ++ ops ->
  hist_ok n i fuel pre init_engine [] -> erun n i fuel pre init_engine [] = (e, h, bs0) -> Forall qop ops ->
  nowrite n i fuel ops e h ->
  pick q ops (skipn (length pre) (proj i (snd (wrun fuel (init_world n) sched))))
  = snd (erun n i fuel (filter (is_slot q) ops) e (fP (PQ_of n i e q) h)).
Proof.
  intros Hi Es Ok E F NW. eapply world_disjoint_queries_alone_K; eauto. apply nowrite_foot. exact NW.
Qed.
