(* The scope of a cut in DbProg.v: which flag a run can end with.

   A run of DbProg.solve ends with a flag (None: exhausted; Some j: frame j is being left).  [may gs fl] reads off
   the goals still to run which flags are possible: a cut leaves frame 0 or passes on what the rest of the body
   says; the end of a clause body (GPop) shifts the frames of the rest by one, the end of a condition (GCommit) by
   two and leaves frame 1 itself; a disjunction / an if-then-else passes on what its branches (continued by the
   rest) say - an if-then-else consuming the two frames of its condition; a call, =, assert, retract, retractall
   pass on what the rest says - in particular NOTHING of what happens inside the called predicate.

   solve_may: every run of every program whose clause bodies are source bodies (no markers) obeys it.
   Consequences: a query (a call with nothing behind it) ends with None - a cut is never propagated to the caller
   (call_ends_normally); a body without markers ends with None or Some 0 (source_body_flag). *)
From Coq Require Import List Arith Bool Lia ZArith.
Import ListNotations.
From YP Require Import Base.Str Term.Term Term.Fast Unify.Unify Unify.Fast Engine.Db Engine.DbCursor Engine.DbFacts Engine.DbProg.
Set Implicit Arguments.

Fixpoint src (gl : goal) : bool :=
  match gl with
  | GPop | GCommit => false
  | GOr a b => forallb src a && forallb src b
  | GIf c t e => forallb src c && forallb src t && forallb src e
  | _ => true
  end.
Definition src_prog (p : program) : Prop := forall c, In c p -> forallb src (cbody c) = true.

Definition simple (gl : goal) : bool :=
  match gl with GUnify _ _ | GCall _ _ | GAssert _ _ | GRetract _ | GRetractAll _ => true | _ => false end.

Inductive may : list goal -> cutflag -> Prop :=
| may_none gs : may gs None
| may_cut0 r : may (GCut :: r) (Some 0)
| may_cut r j : may r (Some j) -> may (GCut :: r) (Some j)
| may_pop r j : may r (Some j) -> may (GPop :: r) (Some (S j))
| may_commit1 r : may (GCommit :: r) (Some 1)
| may_commit r j : may r (Some j) -> may (GCommit :: r) (Some (S (S j)))
| may_or_l a b r j : may (a ++ r) (Some j) -> may (GOr a b :: r) (Some j)
| may_or_r a b r j : may (b ++ r) (Some j) -> may (GOr a b :: r) (Some j)
| may_if_c c t e r j : may (c ++ GCommit :: t ++ r) (Some (S (S j))) -> may (GIf c t e :: r) (Some j)
| may_if_e c t e r j : may (e ++ r) (Some j) -> may (GIf c t e :: r) (Some j)
| may_skip x r j : simple x = true -> may r (Some j) -> may (x :: r) (Some j).

(* goals still to run: source goals and, at top level, markers *)
Definition pok (x : goal) : Prop := src x = true \/ x = GPop \/ x = GCommit.
Definition wt (x : goal) : nat := match x with GPop => 1 | GCommit => 2 | _ => 0 end.
Fixpoint weight (l : list goal) : nat := match l with [] => 0 | x :: r => wt x + weight r end.

Lemma weight_app a b : weight (a ++ b) = weight a + weight b.
Proof. induction a as [|x a IH]; simpl; auto. rewrite IH. lia. Qed.

Lemma src_wt x : src x = true -> wt x = 0.
Proof. destruct x; simpl; auto; discriminate. Qed.

Lemma srcl_weight l : forallb src l = true -> weight l = 0.
Proof.
  induction l as [|x l IH]; simpl; auto. intros H. apply andb_true_iff in H as [A B]. rewrite (src_wt _ A), IH; auto.
Qed.

Lemma srcl_pok l : forallb src l = true -> Forall pok l.
Proof. intros H. apply Forall_forall. intros x Hx. left. rewrite forallb_forall in H. auto. Qed.

Lemma pok_app a r : forallb src a = true -> Forall pok r -> Forall pok (a ++ r).
Proof. intros Sa Or. apply Forall_app. split; [apply srcl_pok; exact Sa|exact Or]. Qed.

Lemma weight_src_app a r : forallb src a = true -> weight (a ++ r) = weight r.
Proof. intros Sa. rewrite weight_app, (srcl_weight _ Sa). reflexivity. Qed.

Lemma pok_or a b : pok (GOr a b) -> forallb src a = true /\ forallb src b = true.
Proof. intros [S|[S|S]]; try discriminate. simpl in S. apply andb_true_iff in S. exact S. Qed.

Lemma pok_if c t e : pok (GIf c t e) -> forallb src c = true /\ forallb src t = true /\ forallb src e = true.
Proof.
  intros [S|[S|S]]; try discriminate. simpl in S. apply andb_true_iff in S as [S Se]. apply andb_true_iff in S as [Sc St]. auto.
Qed.

Lemma pok_cond c t r : forallb src c = true -> forallb src t = true -> Forall pok r -> Forall pok (c ++ GCommit :: t ++ r).
Proof. intros Sc St Or. apply pok_app; [exact Sc|]. constructor; [right; right; reflexivity|]. apply pok_app; assumption. Qed.

Lemma weight_cond c t r : forallb src c = true -> forallb src t = true -> weight (c ++ GCommit :: t ++ r) = 2 + weight r.
Proof. intros Sc St. rewrite weight_src_app by exact Sc. simpl. rewrite weight_src_app by exact St. reflexivity. Qed.

Lemma may_some gs fl : (forall j, fl = Some j -> may gs fl) -> may gs fl.
Proof. destruct fl as [j|]; [eauto|constructor]. Qed.

Lemma may_simple x r fl : simple x = true -> may r fl -> may (x :: r) fl.
Proof. intros Sx M. apply may_some. intros j ->. apply may_skip; assumption. Qed.

(* a flag that names a frame beyond those of the goals in front comes from the goals behind them, counted from there *)
Lemma may_split : forall gs fl, may gs fl -> forall pre r j, gs = pre ++ r -> fl = Some (weight pre + S j) -> Forall pok pre ->
  may r (Some (S j)).
Proof.
  (* induction on the derivation, keeping the derivation itself: for pre = [] it is the claim *)
  intros gs fl M. pose proof M as M0. revert M0.
  induction M as [gs|r0|r0 j M IH|r0 j M IH|r0|r0 j M IH|a b r0 j M IH|a b r0 j M IH|c t e r0 j M IH|c t e r0 j M IH|x r0 j Sx M IH];
    intros M0 pre r i E F OK; try discriminate;
    (destruct pre as [|y pre]; [simpl in E, F; rewrite E, F in M0; exact M0|]);
    simpl in E; injection E as <- E; inversion OK as [|? ? Oy Opre]; subst r0; simpl in F.
  - (* cut, frame 0 *) injection F as F. lia.
  - exact (IH M _ _ _ eq_refl F Opre).
  - (* GPop *) injection F as F. exact (IH M _ _ _ eq_refl (f_equal Some F) Opre).
  - (* commit, frame 1 *) injection F as F. lia.
  - injection F as F. exact (IH M _ _ _ eq_refl (f_equal Some F) Opre).
  - destruct (pok_or Oy) as [Sa Sb].
    apply (IH M (a ++ pre) r i); [apply app_assoc|rewrite weight_src_app by exact Sa; exact F|apply pok_app; assumption].
  - destruct (pok_or Oy) as [Sa Sb].
    apply (IH M (b ++ pre) r i); [apply app_assoc|rewrite weight_src_app by exact Sb; exact F|apply pok_app; assumption].
  - destruct (pok_if Oy) as [Sc [St Se]].
    apply (IH M (c ++ GCommit :: t ++ pre) r i).
    + rewrite <- app_assoc. simpl. rewrite <- app_assoc. reflexivity.
    + rewrite weight_cond by assumption. injection F as ->. reflexivity.
    + apply pok_cond; assumption.
  - destruct (pok_if Oy) as [Sc [St Se]].
    apply (IH M (e ++ pre) r i); [apply app_assoc|rewrite weight_src_app by exact Se; exact F|apply pok_app; assumption].
  - assert (Wx: wt x = 0) by (destruct x; simpl in Sx; try discriminate; reflexivity).
    rewrite Wx in F. exact (IH M _ _ _ eq_refl F Opre).
Qed.

(* what comes out of the frames in front of a GPop is what the rest behind it said *)
Lemma peel pre r j : Forall pok pre -> may (pre ++ GPop :: r) (Some (weight pre + 1 + j)) -> may r (Some j).
Proof.
  intros OK M. assert (X: may (GPop :: r) (Some (S j))).
  { eapply may_split; [exact M|reflexivity|f_equal; lia|exact OK]. }
  inversion X; [assumption|discriminate].
Qed.

(* a flag never names a frame that is not there *)
Lemma may_bound : forall gs fl, may gs fl -> forall i, fl = Some i -> Forall pok gs -> i <= weight gs.
Proof.
  intros gs fl M i -> OK. destruct (le_lt_dec i (weight gs)) as [L|L]; [exact L|]. exfalso.
  assert (X: may [] (Some (S (i - weight gs - 1)))).
  { eapply may_split; [exact M|symmetry; apply app_nil_r|f_equal; lia|exact OK]. }
  inversion X.
Qed.

Lemma src_shift k gl : src (shift_goal k gl) = src gl.
Proof.
  induction gl as [a b|nm args|fr t|t|t| | |a b IHa IHb|c t e IHc IHt IHe| | ] using goal_ind'; try reflexivity.
  - cbn [shift_goal src]. f_equal.
    + clear IHb. induction IHa as [|x l Hx _ IH]; simpl; auto. rewrite Hx, IH. reflexivity.
    + clear IHa. induction IHb as [|x l Hx _ IH]; simpl; auto. rewrite Hx, IH. reflexivity.
  - cbn [shift_goal src]. f_equal; [f_equal|].
    + clear IHt IHe. induction IHc as [|x l Hx _ IH]; simpl; auto. rewrite Hx, IH. reflexivity.
    + clear IHc IHe. induction IHt as [|x l Hx _ IH]; simpl; auto. rewrite Hx, IH. reflexivity.
    + clear IHc IHt. induction IHe as [|x l Hx _ IH]; simpl; auto. rewrite Hx, IH. reflexivity.
Qed.

Lemma srcl_shift k l : forallb src (map (shift_goal k) l) = forallb src l.
Proof. induction l as [|x l IH]; simpl; auto. rewrite src_shift, IH. reflexivity. Qed.

Definition flag_rec (P : cutflag -> Prop) (rec : list goal -> store -> glob -> res) (r : list goal) : Prop :=
  forall s g g' a tr fl, rec r s g = Some (g', a, tr, fl) -> P fl.

Lemma alt_loop_flag (P : cutflag -> Prop) (x : res) (f : glob -> res) g' a tr fl :
  (forall g1 a1 t1 c1, x = Some (g1, a1, t1, c1) -> P c1) ->
  (forall g1 g2 a2 t2 c2, f g1 = Some (g2, a2, t2, c2) -> P c2) ->
  alt_case lv_loop x f g' a tr fl -> P fl.
Proof.
  intros Hx Hf [g1 a1 t1 c1 c' Ex LV|g1 a1 t1 c1 g2 a2 t2 c2 Ex _ Ef]; [|eapply Hf; eauto].
  destruct c1 as [j|]; [|discriminate]. injection LV as <-. eapply Hx. exact Ex.
Qed.

Section Loops.
  Variable uf : nat.
  Variable rec : list goal -> store -> glob -> res.
  Variable P : cutflag -> Prop.
  Hypothesis PNone : P None.

  Lemma scanq_flag args r s : flag_rec P rec r -> forall l g g' a tr fl,
    scanq uf rec args r s l g = Some (g', a, tr, fl) -> P fl.
  Proof.
    intros Hr. induction l as [|f l IH]; intros g g' a tr fl H; cbn [scanq] in H.
    - injection H as <- <- <- <-. exact PNone.
    - destruct (answer_match_fast uf s (gn g) args (fargs f)) as [u n1]. destruct u as [s'| | |]; try discriminate.
      + eapply alt_loop_flag; [| |apply alt_some; exact H].
        * intros g1 a1 t1 c1 E. apply tag_some in E as [t0 [_ E]]. eapply Hr; eauto.
        * intros g1 g2 a2 t2 c2 E. eapply IH; eauto.
      + eapply IH; eauto.
  Qed.

  Lemma scanr_flag k args r s : flag_rec P rec r -> forall l g g' a tr fl,
    scanr uf rec k args r s l g = Some (g', a, tr, fl) -> P fl.
  Proof.
    intros Hr. induction l as [|f l IH]; intros g g' a tr fl H; cbn [scanr] in H.
    - injection H as <- <- <- <-. exact PNone.
    - destruct (answer_match_fast uf s (gn g) args (fargs f)) as [u n1]. destruct u as [s'| | |]; try discriminate.
      + destruct (has_id (fid f) (gdb g k)).
        * eapply alt_loop_flag; [| |apply alt_some; exact H].
          -- intros g1 a1 t1 c1 E. apply tag_some in E as [t0 [_ E]]. eapply Hr; eauto.
          -- intros g1 g2 a2 t2 c2 E. eapply IH; eauto.
        * eapply IH; eauto.
      + eapply IH; eauto.
  Qed.
End Loops.

Section Solve.
  Variable uf : nat.
  Variable prog : program.
  Hypothesis Hsrc : src_prog prog.

  Lemma clauses_of_src name ar c : In c (clauses_of prog name ar) -> forallb src (cbody c) = true.
  Proof. intros H. unfold clauses_of in H. apply filter_In in H as [H _]. apply Hsrc. exact H. Qed.

  (* the clause loop: flag 0 of a clause body is consumed; a flag from further out came from the rest r *)
  Lemma tryclauses_flag n args r s : Forall pok r ->
    (forall gs s g g' a tr fl, Forall pok gs -> solve uf prog n gs s g = Some (g', a, tr, fl) -> may gs fl) ->
    forall cls, (forall c, In c cls -> forallb src (cbody c) = true) -> forall g g' a tr fl,
    tryclauses uf (solve uf prog n) args r s cls g = Some (g', a, tr, fl) -> may r fl.
  Proof.
    intros Or IHn. induction cls as [|c cs IH]; intros Hc g g' a tr fl H; cbn [tryclauses] in H.
    - injection H as <- <- <- <-. constructor.
    - assert (Hcs: forall c0, In c0 cs -> forallb src (cbody c0) = true) by (intros c0 Hc0; apply Hc; right; exact Hc0).
      destruct (unify_arrays_fast uf s args (map (shift (gn g)) (chead c))) as [s'| | |]; try discriminate;
        [|exact (IH Hcs _ _ _ _ _ H)].
      destruct (alt_some _ _ _ H) as [g1 a1 t1 c1 c' Ex LV|g1 a1 t1 c1 g2 a2 t2 c2 Ex _ Ef]; [|exact (IH Hcs _ _ _ _ _ Ef)].
      assert (Sb: forallb src (map (shift_goal (gn g)) (cbody c)) = true) by (rewrite srcl_shift; apply Hc; left; reflexivity).
      assert (M: may (map (shift_goal (gn g)) (cbody c) ++ GPop :: r) c1).
      { eapply IHn; [|exact Ex]. apply pok_app; [exact Sb|]. constructor; [right; left; reflexivity|exact Or]. }
      destruct c1 as [[|j]|]; try discriminate; injection LV as <-; [constructor|].
      eapply peel; [exact (srcl_pok _ Sb)|]. rewrite (srcl_weight _ Sb). exact M.
  Qed.

  Theorem solve_may : forall n gs s g g' a tr fl, Forall pok gs -> solve uf prog n gs s g = Some (g', a, tr, fl) -> may gs fl.
  Proof.
    induction n as [|n IH]; intros gs s g g' a tr fl OK H; [discriminate|].
    destruct (solve_S_cases _ _ _ _ _ _ H) as [w [_ C]]. clear H. revert C. generalize (mkg (gdb g) (gid g) (gn g) w).
    clear g. intros g C.
    destruct C as [s g|x y r s g s' g' ans tr c U E|x y r s g U|name args r s g g' ans tr c A
                  |front t r s g g' ans tr c CA E|front t r s g name args stored n1 g' ans tr c CA AI E
                  |t r s g CA|t r s g name args g' ans tr c CA E|t r s g CA|t r s g name args keep gone n1 g' ans tr c CA RA E
                  |r s g|r s g g' ans tr c E|ga gb r s g g' ans tr c A|gc gt ge r s g g' ans tr c A
                  |r s g g' ans tr c E|r s g g' ans tr c E];
      try apply may_none; inversion OK as [|? ? Ox Or]; subst;
      try (apply may_simple; [reflexivity|]; exact (IH _ _ _ _ _ _ _ Or E)).
    - apply may_simple; [reflexivity|].
      eapply (@alt_loop_flag (may r)); [| |exact A].
      + intros g1 a1 t1 c1 E. eapply (@scanq_flag uf (solve uf prog n) (may r)); [constructor| |exact E].
        intros s0 g0 g0' a0 tr0 fl0 E0. eapply IH; eauto.
      + intros g1 g2 a2 t2 c2 E. eapply tryclauses_flag; [exact Or|exact IH| |exact E].
        intros c0 Hc. eapply clauses_of_src; eauto.
    - apply may_simple; [reflexivity|].
      eapply (@scanr_flag uf (solve uf prog n) (may r)); [constructor| |exact E].
      intros s0 g0 g0' a0 tr0 fl0 E0. eapply IH; eauto.
    - (* ! *) destruct c as [j|]; [apply may_cut; exact (IH _ _ _ _ _ _ _ Or E)|apply may_cut0].
    - (* ; *) destruct (pok_or Ox) as [Sa Sb].
      destruct A as [g1 a1 t1 c1 c' Ex LV|g1 a1 t1 c1 g2 a2 t2 c2 Ex _ Ef].
      + destruct c1 as [j|]; [|discriminate]. injection LV as <-.
        apply may_or_l. eapply IH; [|exact Ex]. apply pok_app; assumption.
      + apply may_some. intros j ->. apply may_or_r. eapply IH; [|exact Ef]. apply pok_app; assumption.
    - (* -> ; *) destruct (pok_if Ox) as [Sc [St Se]].
      destruct A as [g1 a1 t1 c1 c' Ex LV|g1 a1 t1 c1 g2 a2 t2 c2 Ex _ Ef].
      + assert (M: may (gc ++ GCommit :: gt ++ r) c1) by (eapply IH; [|exact Ex]; apply pok_cond; assumption).
        destruct c1 as [[|[|i]]|]; try discriminate; injection LV as <-; [constructor|apply may_if_c; exact M].
      + apply may_some. intros j ->. apply may_if_e. eapply IH; [|exact Ef]. apply pok_app; assumption.
    - (* end of a clause body *) destruct c as [j|]; [apply may_pop; exact (IH _ _ _ _ _ _ _ Or E)|constructor].
    - (* end of a condition *) destruct c as [j|]; [apply may_commit; exact (IH _ _ _ _ _ _ _ Or E)|apply may_commit1].
  Qed.

  (* a cut is never propagated to the caller: a call with nothing behind it - a query - ends normally, whatever
     the clauses of the predicate (and of the predicates they call) do *)
  Theorem call_ends_normally n name args s g g' a tr fl :
    solve uf prog n [GCall name args] s g = Some (g', a, tr, fl) -> fl = None.
  Proof.
    intros H. assert (M: may [GCall name args] fl).
    { eapply solve_may; [|exact H]. constructor; [left; reflexivity|constructor]. }
    inversion M; subst; auto.
    match goal with X : may [] (Some _) |- _ => inversion X end.
  Qed.

  (* a body without markers ends exhausted (None) or cut (Some 0): there is no other frame *)
  Theorem source_body_flag n gs s g g' a tr fl : forallb src gs = true ->
    solve uf prog n gs s g = Some (g', a, tr, fl) -> fl = None \/ fl = Some 0.
  Proof.
    intros S H. destruct fl as [j|]; [right|left; reflexivity].
    pose proof (@solve_may n gs s g g' a tr (Some j) (srcl_pok _ S) H) as M.
    pose proof (@may_bound _ _ M j eq_refl (srcl_pok _ S)) as B. rewrite (srcl_weight _ S) in B.
    f_equal. lia.
  Qed.
End Solve.
