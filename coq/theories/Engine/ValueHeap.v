(* C15, object level: WHO OWNS the argument lists of a value that get_value hands out.

   The term-level model (GetValue.v) treats terms as values; the Python objects are mutable (a Functor has a
   `_args` list that `+=` can extend in place).  Here the engine's objects live on a heap of cells addressed by
   position (the position is the object's identity):

     OConst t          an Atom / int / str object (never written)
     OVar b            a Variable object: b = None (unbound) or Some r (_is_bound, _value = the object r)
     OFun f args       a Functor object: _name, _args = the list of the argument objects

   [gvh] is get_value / Variable.get_value / Functor.get_value on objects (engine.py):
   Functor.get_value builds `Functor(self._name, [get_value(a) for a in self._args])` - a NEW object with a NEW
   list - and nothing else is written.

   Theorems: get_value writes no existing object ([gvh_extends]); every compound node of the value it returns is
   new, i.e. shares no Functor object / argument list with anything that existed before ([gvh_fresh]); the
   structure of a value (Variables by identity) is the same in every later heap that was reached without writing
   Functor or constant objects - binding and unbinding variables, allocating objects, further get_value calls
   ([shape_stable], [evolve_*]); extending an argument list in place is not such a step ([extend_in_place_breaks]).
   The harness (props/c15_prog.py Watch) checks the conclusions of [gvh_fresh] and [shape_stable] on the running
   implementation: retained values are re-rendered after every engine operation, and the ids of their Functor /
   `_args` objects are compared with those of all live objects. *)
From Coq Require Import String.
From Coq Require Import List Arith Bool Lia ZArith.
Import ListNotations.
From YP Require Import Base.Str Term.Term Engine.GetValue.
Set Implicit Arguments.

Inductive obj :=
| OConst (t : term)
| OVar (b : option nat)
| OFun (f : str) (args : list nat).

Definition heap := list obj.

(* [get_value(a) for a in args], threading the heap *)
Fixpoint mapH (g : heap -> nat -> option (nat * heap)) (l : list nat) (h : heap) : option (list nat * heap) :=
  match l with
  | [] => Some ([], h)
  | a :: l' => match g h a with
               | Some (ra, h1) => match mapH g l' h1 with
                                  | Some (rs, h2) => Some (ra :: rs, h2)
                                  | None => None
                                  end
               | None => None
               end
  end.

Fixpoint gvh (n : nat) (h : heap) (r : nat) {struct n} : option (nat * heap) :=
  match n with
  | 0 => None
  | S n' =>
      match nth_error h r with
      | Some (OVar (Some v)) => gvh n' h v
      | Some (OFun f args) =>
          match mapH (gvh n') args h with
          | Some (rs, h') => Some (length h', h' ++ [OFun f rs])
          | None => None
          end
      | Some _ => Some (r, h)
      | None => None
      end
  end.

(* every reference points into the heap *)
Definition wfh (h : heap) : Prop :=
  forall p, match nth_error h p with
            | Some (OVar (Some v)) => v < length h
            | Some (OFun _ args) => Forall (fun a => a < length h) args
            | _ => True
            end.

(* the Functor objects inside a value: bindings are NOT followed *)
Inductive fnode (h : heap) : nat -> nat -> Prop :=
| fn_here r f args : nth_error h r = Some (OFun f args) -> fnode h r r
| fn_arg r f args a p : nth_error h r = Some (OFun f args) -> In a args -> fnode h a p -> fnode h r p.

Lemma mapH_extends g l : (forall h a r h', In a l -> g h a = Some (r, h') -> exists ext, h' = h ++ ext) ->
  forall h rs h', mapH g l h = Some (rs, h') -> exists ext, h' = h ++ ext.
Proof.
  induction l as [|a l IH]; intros Hg h rs h' E; simpl in E.
  - injection E as <- <-. exists []. now rewrite app_nil_r.
  - destruct (g h a) as [[ra h1]|] eqn:Ea; [|discriminate].
    destruct (mapH g l h1) as [[rs' h2]|] eqn:El; [|discriminate]. injection E as <- <-.
    destruct (Hg h a ra h1 (or_introl eq_refl) Ea) as [e1 ->].
    destruct (IH (fun h0 a0 r0 h0' Hin => Hg h0 a0 r0 h0' (or_intror Hin)) _ _ _ El) as [e2 ->].
    exists (e1 ++ e2). now rewrite app_assoc.
Qed.

Theorem gvh_extends n : forall h r r' h', gvh n h r = Some (r', h') -> exists ext, h' = h ++ ext.
Proof.
  induction n as [|n IH]; intros h r r' h' E; [discriminate|]. cbn [gvh] in E.
  destruct (nth_error h r) as [[t|[v|]|f args]|] eqn:En; try discriminate.
  - injection E as <- <-. exists []. now rewrite app_nil_r.
  - eapply IH; eauto.
  - injection E as <- <-. exists []. now rewrite app_nil_r.
  - destruct (mapH (gvh n) args h) as [[rs h1]|] eqn:Em; [|discriminate]. injection E as <- <-.
    destruct (@mapH_extends (gvh n) args (fun h0 a r0 h0' _ => IH h0 a r0 h0') h rs h1 Em) as [e ->].
    exists (e ++ [OFun f rs]). now rewrite app_assoc.
Qed.

Lemma wfh_app h ext : wfh h -> (forall o, In o ext -> match o with
                                                     | OVar (Some v) => v < length h + length ext
                                                     | OFun _ args => Forall (fun a => a < length h + length ext) args
                                                     | _ => True end) -> wfh (h ++ ext).
Proof.
  intros W He p. rewrite app_length. destruct (lt_dec p (length h)) as [L|L].
  - rewrite nth_error_app1 by exact L. specialize (W p). destruct (nth_error h p) as [[t|[v|]|f args]|]; auto; try lia.
    eapply Forall_impl; [|exact W]. simpl; intros; lia.
  - rewrite nth_error_app2 by lia. destruct (nth_error ext (p - length h)) as [o|] eqn:E; [|exact I].
    apply nth_error_In in E. exact (He o E).
Qed.

Lemma fnode_ext h ext : wfh h -> forall r p, r < length h -> fnode (h ++ ext) r p -> fnode h r p.
Proof.
  intros W r p L F. induction F as [r f args E | r f args a p E Hin F IH].
  - rewrite nth_error_app1 in E by exact L. econstructor; eauto.
  - rewrite nth_error_app1 in E by exact L. pose proof (W r) as Wr. rewrite E in Wr.
    rewrite Forall_forall in Wr. eapply fn_arg; eauto.
Qed.

Definition fresh_result (h : heap) (r' : nat) (h' : heap) : Prop :=
  wfh h' /\ r' < length h' /\ length h <= length h' /\ forall p, fnode h' r' p -> length h <= p.

Lemma mapH_fresh g l : (forall h a r h', In a l -> wfh h -> a < length h -> g h a = Some (r, h') -> fresh_result h r h') ->
  (forall h a r h', In a l -> g h a = Some (r, h') -> exists ext, h' = h ++ ext) ->
  forall h rs h', wfh h -> Forall (fun a => a < length h) l -> mapH g l h = Some (rs, h') ->
    wfh h' /\ length h <= length h' /\ Forall (fun ra => ra < length h' /\ forall p, fnode h' ra p -> length h <= p) rs.
Proof.
  induction l as [|a l IH]; intros Hg Hx h rs h' W Fl E; simpl in E.
  - injection E as <- <-. auto.
  - destruct (g h a) as [[ra h1]|] eqn:Ea; [|discriminate].
    destruct (mapH g l h1) as [[rs' h2]|] eqn:El; [|discriminate]. injection E as <- <-.
    inversion Fl as [|a0 l0 La Fl']; subst.
    destruct (Hg h a ra h1 (or_introl eq_refl) W La Ea) as (W1 & L1 & Le1 & Fr1).
    assert (Fl1 : Forall (fun a => a < length h1) l) by (eapply Forall_impl; [|exact Fl']; simpl; intros; lia).
    destruct (IH (fun h0 a0 r0 h0' Hin => Hg h0 a0 r0 h0' (or_intror Hin))
                 (fun h0 a0 r0 h0' Hin => Hx h0 a0 r0 h0' (or_intror Hin)) _ _ _ W1 Fl1 El) as (W2 & Le2 & F2).
    destruct (@mapH_extends g l (fun h0 a0 r0 h0' Hin => Hx h0 a0 r0 h0' (or_intror Hin)) h1 rs' h2 El) as [e2 ->].
    split; [exact W2|]. split; [lia|]. constructor.
    + split; [rewrite app_length; lia|]. intros p Fp. apply Fr1. eapply fnode_ext; eauto.
    + eapply Forall_impl; [|exact F2]. simpl. intros r0 [Lr Fr]. split; [exact Lr|]. intros p Fp. specialize (Fr p Fp). lia.
Qed.

Theorem gvh_fresh n : forall h r r' h', wfh h -> r < length h -> gvh n h r = Some (r', h') -> fresh_result h r' h'.
Proof.
  induction n as [|n IH]; intros h r r' h' W L E; [discriminate|]. cbn [gvh] in E.
  destruct (nth_error h r) as [[t|[v|]|f args]|] eqn:En; try discriminate.
  - injection E as <- <-. repeat split; auto. intros p F. inversion F; congruence.
  - pose proof (W r) as Wr. rewrite En in Wr. eapply IH; eauto.
  - injection E as <- <-. repeat split; auto. intros p F. inversion F; congruence.
  - destruct (mapH (gvh n) args h) as [[rs h1]|] eqn:Em; [|discriminate]. injection E as <- <-.
    pose proof (W r) as Wr. rewrite En in Wr.
    destruct (@mapH_fresh (gvh n) args (fun h0 a r0 h0' _ => IH h0 a r0 h0') (fun h0 a r0 h0' _ => @gvh_extends n h0 a r0 h0') h rs h1 W Wr Em)
      as (W1 & Le1 & F1).
    assert (W2 : wfh (h1 ++ [OFun f rs])).
    { apply wfh_app; [exact W1|]. intros o [<-|[]]. simpl. eapply Forall_impl; [|exact F1]. simpl. intros a [La _]. lia. }
    split; [exact W2|]. split; [rewrite app_length; simpl; lia|]. split; [rewrite app_length; lia|].
    intros p F. inversion F as [r0 f0 args0 E0 | r0 f0 args0 a p0 E0 Hin Fa]; subst; [lia|].
    rewrite nth_error_app2 in E0 by lia. rewrite Nat.sub_diag in E0. simpl in E0. injection E0 as <- <-.
    rewrite Forall_forall in F1. destruct (F1 a Hin) as [La Fr]. apply Fr. eapply fnode_ext; eauto.
Qed.

(* the structure of a value: Variables by identity, bindings not followed *)
Inductive val := VConst (t : term) | VRef (p : nat) | VFun (f : str) (l : list val).

Fixpoint shape (n : nat) (h : heap) (r : nat) : option val :=
  match n with
  | 0 => None
  | S n' => match nth_error h r with
            | Some (OConst t) => Some (VConst t)
            | Some (OVar _) => Some (VRef r)
            | Some (OFun f args) => match mapM (shape n' h) args with Some l => Some (VFun f l) | None => None end
            | None => None
            end
  end.

(* what the engine's operations do to the heap: objects are allocated, Variables are bound and unbound;
   Functor objects and constants are never written *)
Definition evolve (h h2 : heap) : Prop :=
  forall p o, nth_error h p = Some o ->
    match o with
    | OVar _ => exists b, nth_error h2 p = Some (OVar b)
    | _ => nth_error h2 p = Some o
    end.

Theorem shape_stable n : forall h h2 r v, evolve h h2 -> shape n h r = Some v -> shape n h2 r = Some v.
Proof.
  induction n as [|n IH]; intros h h2 r v Ev E; [discriminate|]. cbn [shape] in *.
  destruct (nth_error h r) as [[t|b|f args]|] eqn:En; try discriminate; pose proof (Ev r _ En) as Er; simpl in Er.
  - rewrite Er. exact E.
  - destruct Er as [b' ->]. exact E.
  - rewrite Er. destruct (mapM (shape n h) args) as [l|] eqn:Em; [|discriminate].
    erewrite mapM_weaken; [exact E | | exact Em]. intros x y _ Hx. eapply IH; eauto.
Qed.

Lemma evolve_refl h : evolve h h.
Proof. intros p o E. destruct o; eauto. Qed.

Lemma evolve_trans h1 h2 h3 : evolve h1 h2 -> evolve h2 h3 -> evolve h1 h3.
Proof.
  intros A B p o E. specialize (A p o E). destruct o as [t|b|f args].
  - exact (B p _ A).
  - destruct A as [b' A]. exact (B p _ A).
  - exact (B p _ A).
Qed.

Lemma evolve_app h ext : evolve h (h ++ ext).
Proof.
  intros p o E. assert (L : p < length h) by (apply nth_error_Some; congruence).
  rewrite nth_error_app1 by exact L. destruct o; eauto.
Qed.

Theorem gvh_evolve n h r r' h' : gvh n h r = Some (r', h') -> evolve h h'.
Proof. intros E. destruct (gvh_extends n h r E) as [ext ->]. apply evolve_app. Qed.

(* Variable.unify binding a variable / the finally clause unbinding it *)
Fixpoint set_nth (h : heap) (p : nat) (o : obj) : heap :=
  match h, p with
  | [], _ => []
  | _ :: r, 0 => o :: r
  | x :: r, S p' => x :: set_nth r p' o
  end.

Lemma nth_set_nth h : forall p q o, nth_error (set_nth h p o) q = if Nat.eqb p q then match nth_error h q with Some _ => Some o | None => None end else nth_error h q.
Proof.
  induction h as [|x h IH]; intros p q o.
  - simpl. destruct q; destruct (p =? _); reflexivity.
  - destruct p, q; simpl; auto.
Qed.

Theorem bind_evolve h p b b' : nth_error h p = Some (OVar b) -> evolve h (set_nth h p (OVar b')).
Proof.
  intros Ep q o E. rewrite nth_set_nth. destruct (Nat.eqb_spec p q) as [->|N].
  - rewrite E in *. injection Ep as ->. eauto.
  - rewrite E. destruct o; eauto.
Qed.

Theorem get_value_allocates_its_result n h r r' h' : wfh h -> r < length h -> gvh n h r = Some (r', h') ->
  (exists ext, h' = h ++ ext) /\ wfh h' /\ r' < length h' /\ forall p, fnode h' r' p -> length h <= p.
Proof.
  intros W L E. split; [eapply gvh_extends; eauto|]. destruct (gvh_fresh n W L E) as (A & B & _ & C). auto.
Qed.

Theorem engine_steps_evolve :
  (forall h, evolve h h) /\ (forall h1 h2 h3, evolve h1 h2 -> evolve h2 h3 -> evolve h1 h3) /\
  (forall h ext, evolve h (h ++ ext)) /\
  (forall n h r r' h', gvh n h r = Some (r', h') -> evolve h h') /\
  (forall h p b b', nth_error h p = Some (OVar b) -> evolve h (set_nth h p (OVar b'))).
Proof.
  split; [exact evolve_refl|]. split; [exact evolve_trans|]. split; [exact evolve_app|].
  split; [exact gvh_evolve | exact bind_evolve].
Qed.

(* the value get_value returned is read back unchanged after any further evolution *)
Corollary value_stays_valid n m h r r' h' h2 v :
  gvh n h r = Some (r', h') -> shape m h' r' = Some v -> evolve h' h2 -> shape m h2 r' = Some v.
Proof. intros _ S Ev. eapply shape_stable; eauto. Qed.

(* `goal_args += args` on the argument list of an object that is part of a value is NOT such a step *)
Definition extend_in_place (h : heap) (p : nat) (extra : list nat) : heap :=
  match nth_error h p with
  | Some (OFun f args) => set_nth h p (OFun f (args ++ extra))
  | _ => h
  end.

Example extend_in_place_breaks :
  let h := [OConst (TAtom (d "a")); OFun (d "p") [0]; OVar None] in
  shape 3 h 1 = Some (VFun (d "p") [VConst (TAtom (d "a"))]) /\
  shape 3 (extend_in_place h 1 [2]) 1 = Some (VFun (d "p") [VConst (TAtom (d "a")); VRef 2]) /\
  ~ evolve h (extend_in_place h 1 [2]).
Proof.
  split; [reflexivity|]. split; [reflexivity|]. intros Ev. specialize (Ev 1 _ eq_refl). discriminate Ev.
Qed.

(* non-vacuity: G = p(a) held in a variable; get_value(G) is a new Functor object, the stored one is untouched *)
Example gvh_example :
  let h := [OConst (TAtom (d "a")); OFun (d "p") [0]; OVar (Some 1)] in
  gvh 5 h 2 = Some (3, h ++ [OFun (d "p") [0]]) /\ wfh h.
Proof.
  split; [reflexivity|]. intros [|[|[|p]]]; simpl; auto. destruct p; exact I.
Qed.
