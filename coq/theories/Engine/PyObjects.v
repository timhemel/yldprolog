(* C16: the OBJECTS that to_python hands out.

   `Engine/GetValue.to_python` gives the Python VALUE of a term.  A Python list is a mutable object: a caller may append
   to a list it received, so it matters which list objects a result is made of.  This file refines the value model by
   an allocation model that follows the evaluation of the code

       Atom.to_python:     return []                      a list display: a NEW list object, every time
       Functor.to_python:  [to_python(args[0])] + to_python(args[1])
                                                          the display [h] (a temporary), the converted tail, and `+`
                                                          which builds a NEW list and keeps neither operand
                           (name, [to_python(v) for v in args])
                                                          a comprehension: a NEW list after its items; the tuple is immutable

   with a counter `k` of the next unused object identity: forgetting the identities gives `to_python`, every list
   object of a result is allocated by its own conversion, and two conversions share none.
   The conversion takes no heap as input: the code reads no list object that existed before the call (that is the
   modelling statement the check ties to the implementation: every result is changed in place by the harness, all
   conversions are repeated, and no list object may be met twice). *)
From Coq Require Import String.
From Coq Require Import List ZArith Lia Bool.
Import ListNotations.
From YP Require Import Base.Str Term.Term Engine.GetValue.

Inductive oval :=
| OStr (x : str) | OInt (z : Z) | ONone
| OList (a : nat) (l : list oval)
| OPair (name : str) (a : nat) (args : list oval).
Inductive ores := OOk (v : oval) | OErr (e : pyerr) | OOof.

Fixpoint erase (v : oval) : pyval :=
  match v with
  | OStr x => PStr x | OInt z => PInt z | ONone => PNone
  | OList _ l => PList (map erase l)
  | OPair f _ l => PPair f (map erase l)
  end.
Definition eres (r : ores) : pres :=
  match r with OOk v => POk (erase v) | OErr e => PErr e | OOof => POof end.

(* identities of the mutable objects reachable from a result *)
Fixpoint addrs (v : oval) : list nat :=
  match v with
  | OList a l => a :: flat_map addrs l
  | OPair _ a l => a :: flat_map addrs l
  | _ => []
  end.

Fixpoint mapO (f : term -> nat -> ores * nat) (l : list term) (k : nat) : (ores + list oval) * nat :=
  match l with
  | [] => (inr [], k)
  | x :: r => match f x k with
              | (OOk y, k1) => match mapO f r k1 with
                               | (inr ys, k2) => (inr (y :: ys), k2)
                               | e => e
                               end
              | (e, k1) => (inl e, k1)
              end
  end.

Fixpoint to_python_obj (n : nat) (s : store) (t : term) (k : nat) : ores * nat :=
  match n with
  | O => (OOof, k)
  | S n' =>
      match t with
      | TAtom a => if str_eqb a nil_name then (OOk (OList k []), S k) else (OOk (OStr a), k)
      | TInt z => (OOk (OInt z), k)
      | TStr x => (OOk (OStr x), k)
      | TVar v => match gv n' s t with
                  | None => (OOof, k)
                  | Some (TVar _) => (OOk ONone, k)
                  | Some r => to_python_obj n' s r k
                  end
      | TFun f args =>
          if str_eqb f dot then
            match args with
            | a0 :: rest =>
                match to_python_obj n' s a0 k with
                | (OOk h, k1) =>
                    (* the display [h] is a temporary object with identity k1 *)
                    match rest with
                    | a1 :: _ => match to_python_obj n' s a1 (S k1) with
                                 | (OOk (OList _ l), k2) => (OOk (OList k2 (h :: l)), S k2)
                                 | (OOk _, k2) => (OErr TypeError, k2)
                                 | e => e
                                 end
                    | [] => (OErr IndexError, S k1)
                    end
                | e => e
                end
            | [] => (OErr IndexError, k)
            end
          else match mapO (to_python_obj n' s) args k with
               | (inr vs, k1) => (OOk (OPair f k1 vs), S k1)
               | (inl e, k1) => (e, k1)
               end
      end
  end.

Definition eresl (r : ores + list oval) : pres + list pyval :=
  match r with inl e => inl (eres e) | inr vs => inr (map erase vs) end.

Lemma mapO_erase (f : term -> nat -> ores * nat) (g : term -> pres) l :
  (forall x k, In x l -> eres (fst (f x k)) = g x) ->
  forall k, eresl (fst (mapO f l k)) = mapP g l.
Proof.
  induction l as [|x r IH]; intros H k; [reflexivity|].
  cbn [mapO mapP]. pose proof (H x k (or_introl eq_refl)) as Hx.
  destruct (f x k) as [rx k1]. cbn [fst] in Hx. rewrite <- Hx.
  assert (Hr : forall x0 k0, In x0 r -> eres (fst (f x0 k0)) = g x0) by (intros; apply H; right; assumption).
  specialize (IH Hr k1).
  destruct rx as [y|e|]; cbn [eres]; try reflexivity.
  rewrite <- IH. destruct (mapO f r k1) as [[e|ys] k2]; reflexivity.
Qed.

Theorem obj_erase n : forall s t k, eres (fst (to_python_obj n s t k)) = to_python n s t.
Proof.
  induction n as [|n IH]; intros s t k; [reflexivity|].
  destruct t as [a|z|x|v|f args]; cbn [to_python_obj to_python].
  - destruct (str_eqb a nil_name); reflexivity.
  - reflexivity.
  - reflexivity.
  - destruct (gv n s (TVar v)) as [[a|z|x|w|f args]|]; try reflexivity; apply IH.
  - destruct (str_eqb f dot).
    + destruct args as [|a0 rest]; [reflexivity|].
      pose proof (IH s a0 k) as H0. destruct (to_python_obj n s a0 k) as [r0 k1]. cbn [fst] in H0. rewrite <- H0.
      destruct r0 as [h|e|]; cbn [eres]; try reflexivity.
      destruct rest as [|a1 rest']; [reflexivity|].
      pose proof (IH s a1 (S k1)) as H1. destruct (to_python_obj n s a1 (S k1)) as [r1 k2]. cbn [fst] in H1. rewrite <- H1.
      destruct r1 as [[x|z|  |a l|g a l]|e|]; reflexivity.
    + pose proof (mapO_erase (to_python_obj n s) (to_python n s) args (fun x k0 _ => IH s x k0) k) as H.
      destruct (mapO (to_python_obj n s) args k) as [[e|vs] k1]; cbn [fst eresl] in H; rewrite <- H; reflexivity.
Qed.

(* the value of a conversion does not depend on what was allocated before it *)
Corollary obj_value_independent n s t k k' :
  eres (fst (to_python_obj n s t k)) = eres (fst (to_python_obj n s t k')).
Proof. rewrite !obj_erase. reflexivity. Qed.

Definition fresh_in (k k' : nat) (l : list nat) : Prop := NoDup l /\ forall a, In a l -> k <= a < k'.

Lemma fresh_in_app k k1 k2 l1 l2 : k <= k1 -> k1 <= k2 -> fresh_in k k1 l1 -> fresh_in k1 k2 l2 -> fresh_in k k2 (l1 ++ l2).
Proof.
  intros Hk Hk' [N1 B1] [N2 B2]. split.
  - induction l1 as [|a r IH]; [exact N2|]. cbn. inversion N1 as [|a' r' Hn Hr]; subst. constructor.
    + rewrite in_app_iff. intros [Hi|Hi]; [exact (Hn Hi)|].
      specialize (B1 a (or_introl eq_refl)). specialize (B2 a Hi). lia.
    + apply IH; [exact Hr|]. intros b Hb. apply B1. right. exact Hb.
  - intros a. rewrite in_app_iff. intros [Hi|Hi]; [specialize (B1 a Hi)|specialize (B2 a Hi)]; lia.
Qed.

Lemma fresh_in_widen k0 k k' k1 l : k0 <= k -> k' <= k1 -> fresh_in k k' l -> fresh_in k0 k1 l.
Proof. intros H0 H1 [N B]. split; [exact N|]. intros a Ha. specialize (B a Ha). lia. Qed.

Lemma fresh_in_cons k k' a l : k <= k' -> fresh_in k k' l -> k' <= a -> fresh_in k (S a) (a :: l).
Proof.
  intros Hkk [N B] Ha. split.
  - constructor; [|exact N]. intros Hi. specialize (B a Hi). lia.
  - intros b [<-|Hb]; [|specialize (B b Hb)]; lia.
Qed.

Lemma fresh_in_nil k k' : fresh_in k k' [].
Proof. split; [constructor|intros a []]. Qed.

Definition fresh_res (k : nat) (r : ores) (k' : nat) : Prop :=
  k <= k' /\ match r with OOk v => fresh_in k k' (addrs v) | _ => True end.

Lemma mapO_fresh (f : term -> nat -> ores * nat) l :
  (forall x k r k', In x l -> f x k = (r, k') -> fresh_res k r k') ->
  forall k r k', mapO f l k = (r, k') ->
    k <= k' /\ match r with inr vs => fresh_in k k' (flat_map addrs vs) | inl (OOk _) => False | inl _ => True end.
Proof.
  induction l as [|x rest IH]; intros H k r k' E.
  - cbn in E. injection E as <- <-. split; [lia|apply fresh_in_nil].
  - cbn [mapO] in E. destruct (f x k) as [rx k1] eqn:Ex.
    destruct (H x k rx k1 (or_introl eq_refl) Ex) as [Hk Hx].
    assert (Hr : forall x0 k0 r0 k0', In x0 rest -> f x0 k0 = (r0, k0') -> fresh_res k0 r0 k0')
      by (intros; eapply H; [right|]; eassumption).
    destruct rx as [y|e|]; [|injection E as <- <-; split; [exact Hk|exact I] ..].
    destruct (mapO f rest k1) as [rr k2] eqn:Em. destruct (IH Hr k1 _ _ Em) as [Hk2 Hys].
    destruct rr as [e|ys]; injection E as <- <-; (split; [lia|]); [exact Hys|].
    cbn [flat_map]. eapply fresh_in_app; [exact Hk|exact Hk2|exact Hx|exact Hys].
Qed.

Theorem obj_fresh_gen n : forall s t k r k', to_python_obj n s t k = (r, k') -> fresh_res k r k'.
Proof.
  induction n as [|n IH]; intros s t k r k' E.
  { cbn in E. injection E as <- <-. split; [lia|exact I]. }
  destruct t as [a|z|x|v|f args]; cbn [to_python_obj] in E.
  - destruct (str_eqb a nil_name); injection E as <- <-; (split; [lia|]); cbn [addrs flat_map].
    + apply (fresh_in_cons k k k []); [lia|apply fresh_in_nil|lia].
    + apply fresh_in_nil.
  - injection E as <- <-. split; [lia|apply fresh_in_nil].
  - injection E as <- <-. split; [lia|apply fresh_in_nil].
  - destruct (gv n s (TVar v)) as [[a|z|x|w|f args]|]; try (eapply IH; exact E);
      injection E as <- <-; (split; [lia|]); [apply fresh_in_nil|exact I].
  - destruct (str_eqb f dot).
    + destruct args as [|a0 rest]; [injection E as <- <-; split; [lia|exact I]|].
      destruct (to_python_obj n s a0 k) as [r0 k1] eqn:E0. destruct (IH s a0 k r0 k1 E0) as [Hk0 H0].
      destruct r0 as [h|e|]; [|injection E as <- <-; split; [exact Hk0|exact I] ..].
      destruct rest as [|a1 rest']; [injection E as <- <-; split; [lia|exact I]|].
      destruct (to_python_obj n s a1 (S k1)) as [r1 k2] eqn:E1. destruct (IH s a1 (S k1) r1 k2 E1) as [Hk1 H1].
      destruct r1 as [[x|z|  |a l|g a l]|e|]; injection E as <- <-; (split; [lia|]); try exact I.
      cbn [addrs flat_map] in *.
      (* identities: the head's objects lie in [k, k1), k1 is the temporary [h], the tail's objects lie in [S k1, k2),
         k2 is the result; the tail's own list object is dropped by `+`, its items are kept *)
      assert (Hl : fresh_in (S k1) k2 (flat_map addrs l)).
      { destruct H1 as [N B]. inversion N as [|a' r' Hn Hr]; subst. split; [exact Hr|]. intros b Hb. apply B. right. exact Hb. }
      apply (fresh_in_cons k k2); [lia| |lia].
      eapply fresh_in_app; [exact Hk0| |exact H0|eapply fresh_in_widen; [| |exact Hl]]; lia.
    + destruct (mapO (to_python_obj n s) args k) as [[e|vs] k1] eqn:Em;
        destruct (mapO_fresh (to_python_obj n s) args (fun x k0 r0 k0' _ E0 => IH s x k0 r0 k0' E0) k _ _ Em) as [Hk Hvs];
        injection E as <- <-.
      * split; [exact Hk|]. destruct e; [destruct Hvs | exact I ..].
      * split; [lia|]. cbn [addrs]. apply (fresh_in_cons k k1); [lia|exact Hvs|lia].
Qed.

(* every list object of a result has been created by this conversion, and none occurs twice in it *)
Theorem obj_fresh n s t k v k' : to_python_obj n s t k = (OOk v, k') ->
  k <= k' /\ NoDup (addrs v) /\ forall a, In a (addrs v) -> k <= a < k'.
Proof.
  intros E. destruct (obj_fresh_gen n s t k _ _ E) as [Hk [N B]]. auto.
Qed.

(* two conversions - any terms, any stores, any fuel - of which the second starts at or after the point where the
   first stopped share no list object: what a caller does to the lists of one result is invisible in the other *)
Theorem obj_disjoint n1 s1 t1 k1 v1 k1' n2 s2 t2 k2 v2 k2' :
  to_python_obj n1 s1 t1 k1 = (OOk v1, k1') -> k1' <= k2 -> to_python_obj n2 s2 t2 k2 = (OOk v2, k2') ->
  forall a, In a (addrs v1) -> ~ In a (addrs v2).
Proof.
  intros E1 Hk E2 a H1 H2.
  destruct (obj_fresh _ _ _ _ _ _ E1) as (_ & _ & B1). destruct (obj_fresh _ _ _ _ _ _ E2) as (_ & _ & B2).
  specialize (B1 a H1). specialize (B2 a H2). lia.
Qed.

(* the same term converted twice: equal values, no common object *)
Corollary obj_twice n s t k v1 k1 v2 k2 :
  to_python_obj n s t k = (OOk v1, k1) -> to_python_obj n s t k1 = (OOk v2, k2) ->
  erase v1 = erase v2 /\ forall a, In a (addrs v1) -> ~ In a (addrs v2).
Proof.
  intros E1 E2. split.
  - pose proof (obj_value_independent n s t k k1) as H. rewrite E1, E2 in H. cbn in H. injection H as H. exact H.
  - eapply obj_disjoint; [exact E1|apply le_n|exact E2].
Qed.

(* non-vacuity: [[], f([]), []] converted twice from identity 0: five list objects each time (eleven identities, temporaries included),
   none of the first result in the second *)
Example obj_example :
  let t := TFun dot [TAtom nil_name; TFun dot [TFun (d "f"%string) [TAtom nil_name]; TFun dot [TAtom nil_name; TAtom nil_name]]] in
  exists v1 k1 v2 k2, to_python_obj 20 [] t 0 = (OOk v1, k1) /\ to_python_obj 20 [] t k1 = (OOk v2, k2) /\
    erase v1 = PList [PList []; PPair (d "f"%string) [PList []]; PList []] /\ length (addrs v1) = 5 /\ k1 = 11 /\
    addrs v1 <> addrs v2.
Proof. vm_compute. do 4 eexists. repeat split. discriminate. Qed.
