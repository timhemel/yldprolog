(* C13.3: the cells of stored facts are never bound - an invariant over ALL histories of the heap
   machine (DbHeap.v): unifications that stay suspended, asserts under any bindings, goals on the stored
   facts that stay suspended, resumption and closing in LIFO order, reads.

   Cells are partitioned by a ghost set F ("owned by a stored fact": allocated by Answer.__init__).
   Invariant: every binding of the heap binds a cell that exists (< allocation counter) and is not in F,
   to a value that mentions only such cells; the arguments of every stored fact (and of every fact in a
   snapshot held by a suspended goal) mention only cells of F; the goal arguments held by suspended goals
   mention no cell of F.  The program's terms mention only the program's cells (< p), which are not in F:
   the public API gives no access to the Variable objects inside an Answer.

   Consequences: fact cells are unbound in every reachable state (fact_vars_never_bound); no binding and
   no suspended goal mentions one (so a use of a fact can constrain another use, or the asserting clause,
   only through the goal's own variables); every use of a fact unifies the goal with a copy that is a
   function of the stored arguments and the allocation counter alone (uses_see_stored_value). *)
From Coq Require Import List Arith Bool Lia ZArith.
Import ListNotations.
From YP Require Import Base.Str Term.Term Unify.Unify Engine.Frame Engine.Db Engine.DbFacts Engine.DbFactsThms Engine.DbHeap.
Set Implicit Arguments.

(* existing cells that are not owned by a fact *)
Definition Pc (n : nat) (F : nat -> bool) (v : nat) : bool := (v <? n) && negb (F v).

Definition lin (P : nat -> bool) (l : list term) : Prop := Forall (tin P) l.
Definition fact_cells (F : nat -> bool) (f : fact) : Prop := lin F (fargs f).
Definition facts_in (F : nat -> bool) (d : db) : Prop := forall k f, In f (d k) -> fact_cells F f.

Definition frame_ok (n : nat) (F : nat -> bool) (fr : frame) : Prop :=
  match fr with
  | FUnify _ => True
  | FQuery pat rest _ => lin (Pc n F) pat /\ Forall (fact_cells F) rest
  end.

Record inv (p : nat) (F : nat -> bool) (h : hst) : Prop := mkinv {
  inv_store : good (Pc (hn h) F) (hs h);
  inv_facts : facts_in F (hdb h);
  inv_range : forall w, F w = true -> p <= w < hn h;
  inv_stack : Forall (frame_ok (hn h) F) (hstk h);
  inv_p : p <= hn h }.

(* the terms the program writes mention only its own variables *)
Definition tprog (p : nat) (t : term) : Prop := tin (fun v => v <? p) t.
Definition op_ok (p : nat) (o : hop) : Prop :=
  match o with
  | HUnify a b => tprog p a /\ tprog p b
  | HAssert _ t => tprog p t
  | HCall _ args => Forall (tprog p) args
  | HObs ts => Forall (tprog p) ts
  | _ => True
  end.

Lemma tin_mono (P Q : nat -> bool) t : (forall v, P v = true -> Q v = true) -> tin P t -> tin Q t.
Proof. intros H T w Hw. apply H. apply T. exact Hw. Qed.
Lemma lin_mono (P Q : nat -> bool) l : (forall v, P v = true -> Q v = true) -> lin P l -> lin Q l.
Proof. intros H. apply Forall_impl. intros t. apply tin_mono. exact H. Qed.
Lemma good_mono (P Q : nat -> bool) s : (forall v, P v = true -> Q v = true) -> good P s -> good Q s.
Proof. intros H G v t Hin. destruct (G v t Hin) as [A B]. split; [apply H; exact A|eapply tin_mono; eauto]. Qed.

Lemma Pc_mono n n' F v : n <= n' -> Pc n F v = true -> Pc n' F v = true.
Proof.
  unfold Pc. intros L H. apply andb_true_iff in H as [A B]. apply Nat.ltb_lt in A.
  apply andb_true_iff. split; [apply Nat.ltb_lt; lia|exact B].
Qed.

Lemma tprog_Pc p n F t : p <= n -> (forall w, F w = true -> p <= w) -> tprog p t -> tin (Pc n F) t.
Proof.
  intros L R T w Hw. specialize (T w Hw). apply Nat.ltb_lt in T. unfold Pc.
  apply andb_true_iff. split; [apply Nat.ltb_lt; lia|].
  destruct (F w) eqn:E; auto. apply R in E. lia.
Qed.

Lemma good_grow n n' F s : n <= n' -> good (Pc n F) s -> good (Pc n' F) s.
Proof. intros L. apply good_mono. intros v. apply Pc_mono. exact L. Qed.
Lemma lin_grow n n' F l : n <= n' -> lin (Pc n F) l -> lin (Pc n' F) l.
Proof. intros L. apply lin_mono. intros v. apply Pc_mono. exact L. Qed.
Lemma tin_grow n n' F t : n <= n' -> tin (Pc n F) t -> tin (Pc n' F) t.
Proof. intros L. apply tin_mono. intros v. apply Pc_mono. exact L. Qed.

Lemma frame_ok_mono n n' F fr : n <= n' -> frame_ok n F fr -> frame_ok n' F fr.
Proof.
  intros L. destruct fr as [m|pat rest m]; simpl; auto. intros [A B]. split; auto.
  apply (lin_grow L A).
Qed.

Lemma stack_grow n n' F stk : n <= n' -> Forall (frame_ok n F) stk -> Forall (frame_ok n' F) stk.
Proof. intros L. apply Forall_impl. intros fr. apply frame_ok_mono. exact L. Qed.

Lemma ctx_grow n n' F s pat : n <= n' ->
  good (Pc n F) s -> (forall w, F w = true -> w < n) -> lin (Pc n F) pat ->
  good (Pc n' F) s /\ (forall w, F w = true -> w < n') /\ lin (Pc n' F) pat.
Proof.
  intros L G R Lp. split; [apply (good_grow L G)|split; [|apply (lin_grow L Lp)]].
  intros w Hw. apply R in Hw. lia.
Qed.

Lemma Pc_fact n F w : F w = true -> Pc n F w = false.
Proof. intros Fw. unfold Pc. rewrite Fw. apply andb_false_r. Qed.
Lemma Pc_new n F w : n <= w -> Pc n F w = false.
Proof. intros L. unfold Pc. apply andb_false_iff. left. apply Nat.ltb_ge. exact L. Qed.

Lemma Pc_after n n' (F F' : nat -> bool) v : n <= n' -> (forall w, F' w = true -> F w = true \/ n <= w) ->
  Pc n F v = true -> Pc n' F' v = true.
Proof.
  intros L M Hv. unfold Pc in *. apply andb_true_iff in Hv as [X Y]. apply Nat.ltb_lt in X. apply negb_true_iff in Y.
  apply andb_true_iff. split; [apply Nat.ltb_lt; lia|]. apply negb_true_iff.
  destruct (F' v) eqn:E; auto. destruct (M v E) as [Z|Z]; [congruence|lia].
Qed.

Lemma outside_unbound n F s w : good (Pc n F) s -> Pc n F w = false -> lookup w s = None.
Proof.
  intros G NP. destruct (lookup w s) as [t|] eqn:L; auto.
  apply lookup_in in L. destruct (G _ _ L) as [A _]. congruence.
Qed.

Lemma good_F_unbound n F s w : good (Pc n F) s -> F w = true -> lookup w s = None.
Proof. intros G Fw. apply (@outside_unbound n F s w G (@Pc_fact n F w Fw)). Qed.

Lemma fact_free n F s f : good (Pc n F) s -> fact_cells F f -> forall t, In t (fargs f) -> free_in s t.
Proof.
  intros G C t Ht w Hw. apply (@good_F_unbound n F s w G). unfold fact_cells, lin in C.
  rewrite Forall_forall in C. exact (C t Ht w Hw).
Qed.

Lemma good_skipn P s k : good P s -> good P (skipn k s).
Proof.
  intros G v t H. apply G. clear G. revert s H. induction k as [|k IH]; intros s H; simpl in H; auto.
  destruct s as [|e s]; [contradiction|]. right. auto.
Qed.

Lemma den_lin P s l : good P s -> lin P l -> lin P (map (den s) l).
Proof.
  intros G L. apply Forall_forall. intros t Ht. apply in_map_iff in Ht as [a [<- Ha]].
  apply den_tin; [apply good_closed; exact G|]. unfold lin in L. rewrite Forall_forall in L. auto.
Qed.

Lemma outside_Pc n F s w : good (Pc n F) s -> Pc n F w = false ->
  (forall v u, In (v, u) s -> v <> w /\ occurs w u = false) /\
  (forall t, tin (Pc n F) t -> occurs w t = false /\ occurs w (den s t) = false).
Proof.
  intros G NP.
  assert (T: forall t, tin (Pc n F) t -> occurs w t = false).
  { intros t Ht. destruct (occurs w t) eqn:O; auto. apply Ht in O. congruence. }
  split.
  - intros v u Hin. destruct (G v u Hin) as [X Y]. split; [intros ->; congruence|auto].
  - intros t Ht. split; [auto|]. apply T. apply (den_tin (good_closed G) Ht).
Qed.

(* the cells of a copy made at allocation counter n are the new cells n .. n'-1 *)
Lemma copy_cells s n l cs n' : copy_args s l n = (cs, n') ->
  n <= n' /\ forall t, In t cs -> forall w, occurs w t = true -> n <= w < n'.
Proof.
  intros H. destruct (@stored_value_at_assert_time s n l cs n' H) as [m [_ [_ [_ [L [_ R]]]]]].
  split; auto. intros t Ht w Hw. apply R. unfold occurs_l. apply existsb_exists. exists t. auto.
Qed.

Lemma copy_lin_new F s n l cs n' : (forall w, F w = true -> w < n) -> copy_args s l n = (cs, n') ->
  n <= n' /\ lin (Pc n' F) cs.
Proof.
  intros R H. destruct (copy_cells H) as [L C]. split; auto.
  apply Forall_forall. intros t Ht w Hw. destruct (C t Ht w Hw) as [A B]. unfold Pc.
  apply andb_true_iff. split; [apply Nat.ltb_lt; lia|].
  destruct (F w) eqn:E; auto. apply R in E. lia.
Qed.

(* Answer.match in a state that satisfies the invariant *)
Lemma match_inv fuel F s n pat f r n' :
  good (Pc n F) s -> (forall w, F w = true -> w < n) -> lin (Pc n F) pat -> fact_cells F f ->
  answer_match fuel s n pat (fargs f) = (r, n') ->
  n <= n' /\
  (* the copy does not depend on the heap *)
  answer_match fuel s n pat (fargs f) = (unify_arrays fuel s pat (fst (copy_args [] (fargs f) n)), snd (copy_args [] (fargs f) n)) /\
  match r with UOk s' => exists nw, s' = nw ++ s /\ good (Pc n' F) nw | _ => True end.
Proof.
  intros G R Lp C H.
  pose proof (@answer_match_independent fuel s n pat (fargs f) (fact_free G C)) as E.
  rewrite E in H. destruct (copy_args [] (fargs f) n) as [cs n2] eqn:Cp. simpl in H. injection H as <- <-.
  destruct (@copy_lin_new F _ _ _ _ _ R Cp) as [L Lc].
  split; [exact L|split; [exact E|]].
  destruct (@unify_arrays_frame (Pc n2 F) fuel s pat cs (good_closed (good_grow L G)) (lin_grow L Lp) Lc) as [_ Po].
  destruct (unify_arrays fuel s pat cs); simpl in *; auto.
Qed.

Section Inv.
  Variable fuel : nat.

  Lemma hscan_inv F pat : forall l s n r n',
    good (Pc n F) s -> (forall w, F w = true -> w < n) -> lin (Pc n F) pat -> Forall (fact_cells F) l ->
    hscan fuel s n pat l = Some (r, n') ->
    n <= n' /\
    match r with
    | None => True
    | Some (s', rest) => (exists nw, s' = nw ++ s /\ good (Pc n' F) nw) /\ Forall (fact_cells F) rest
    end.
  Proof.
    induction l as [|f l IH]; intros s n r n' G R Lp Fl H; cbn [hscan] in H.
    - injection H as <- <-. auto.
    - inversion Fl as [|? ? Ff Fl']; subst.
      destruct (answer_match fuel s n pat (fargs f)) as [u n1] eqn:M.
      destruct (@match_inv fuel F s n pat f u n1 G R Lp Ff M) as [L [_ Po]].
      destruct u as [s1| | |]; try discriminate.
      + injection H as <- <-. auto.
      + destruct (ctx_grow L G R Lp) as [G1 [R1 Lp1]].
        destruct (IH s n1 r n' G1 R1 Lp1 Fl' H) as [L2 X]. split; [lia|exact X].
  Qed.

  Lemma hall_inv F pat : forall l s n x n',
    good (Pc n F) s -> (forall w, F w = true -> w < n) -> lin (Pc n F) pat -> Forall (fact_cells F) l ->
    hall fuel s n pat l = Some (x, n') -> n <= n' /\ Forall (lin (Pc n' F)) x.
  Proof.
    induction l as [|f l IH]; intros s n x n' G R Lp Fl H; cbn [hall] in H.
    - injection H as <- <-. auto.
    - inversion Fl as [|? ? Ff Fl']; subst.
      destruct (answer_match fuel s n pat (fargs f)) as [u n1] eqn:M.
      destruct (@match_inv fuel F s n pat f u n1 G R Lp Ff M) as [L [_ Po]].
      destruct (ctx_grow L G R Lp) as [G1 [R1 Lp1]].
      destruct u as [s1| | |]; try discriminate.
      + destruct (hall fuel s n1 pat l) as [[y n2]|] eqn:E; [|discriminate]. injection H as <- <-.
        destruct (IH s n1 y n2 G1 R1 Lp1 Fl' E) as [L2 X]. split; [lia|]. constructor; [|exact X].
        destruct Po as [nw [-> Gn]]. apply (lin_grow L2). apply den_lin; [apply good_app; auto|exact Lp1].
      + destruct (IH s n1 x n' G1 R1 Lp1 Fl' H) as [L2 X]. split; [lia|exact X].
  Qed.

  Lemma inv_set p F h s1 n' stk : inv p F h -> hn h <= n' -> good (Pc n' F) s1 -> Forall (frame_ok n' F) stk ->
    inv p F (mkh s1 n' (hdb h) (hnext h) stk).
  Proof.
    intros [A B C D E] L G S. constructor; simpl; auto.
    - intros w Hw. apply C in Hw. lia.
    - lia.
  Qed.

  Lemma inv_grow p F h n' : inv p F h -> hn h <= n' ->
    inv p F (mkh (hs h) n' (hdb h) (hnext h) (hstk h)).
  Proof.
    intros I L. apply (inv_set I L); [apply (good_grow L), I|apply (stack_grow L), I].
  Qed.

  Lemma lin_seq_new F n ar : (forall w, F w = true -> w < n) -> lin (Pc (n + ar) F) (map TVar (seq n ar)).
  Proof.
    intros R. apply Forall_forall. intros t Ht. apply in_map_iff in Ht as [v [<- Hv]]. apply in_seq in Hv.
    apply tin_var. unfold Pc. apply andb_true_iff. split; [apply Nat.ltb_lt; lia|].
    destruct (F v) eqn:E; auto. apply R in E. lia.
  Qed.

  Lemma inv_assert p F h name args front stored n' :
    inv p F h -> answer_init (hs h) (hn h) args = (stored, n') ->
    let F' := fun w => F w || ((hn h <=? w) && (w <? n')) in
    inv p F' (mkh (hs h) n' (upd (name, length args) (ins front (mkfact (hnext h) stored) (hdb h (name, length args))) (hdb h))
                  (S (hnext h)) (hstk h)) /\ hn h <= n'.
  Proof.
    intros [A B C D E] AI F'.
    destruct (@stored_value_at_assert_time (hs h) (hn h) args stored n' AI) as [m [_ [_ [_ [L [_ Rg]]]]]].
    assert (FE: forall v, F v = true -> F' v = true) by (intros v Hv; unfold F'; rewrite Hv; reflexivity).
    assert (PcE: forall v, Pc (hn h) F v = true -> Pc n' F' v = true).
    { intros v Hv. unfold Pc in *. apply andb_true_iff in Hv as [X Y]. apply Nat.ltb_lt in X.
      apply andb_true_iff. split; [apply Nat.ltb_lt; lia|]. unfold F'.
      apply negb_true_iff in Y. rewrite Y. simpl. apply negb_true_iff. apply andb_false_iff. left.
      apply Nat.leb_gt. exact X. }
    assert (New: fact_cells F' (mkfact (hnext h) stored)).
    { apply Forall_forall. intros t0 Ht0 w Hw. simpl in Ht0.
      assert (X: hn h <= w < n') by (apply Rg; unfold occurs_l; apply existsb_exists; exists t0; auto).
      unfold F'. apply orb_true_iff. right. apply andb_true_iff. split; [apply Nat.leb_le|apply Nat.ltb_lt]; lia. }
    split; [|exact L]. constructor; simpl.
    - eapply good_mono; [exact PcE|exact A].
    - intros k f Hf. unfold upd in Hf.
      assert (Old: forall g, In g (hdb h k) -> fact_cells F' g) by (intros g Hg; eapply lin_mono; [exact FE|exact (B k g Hg)]).
      destruct (key_eqb_spec k (name, length args)) as [->|NK]; [|auto].
      unfold ins in Hf. destruct front; simpl in Hf.
      + destruct Hf as [<-|Hf]; auto.
      + apply in_app_iff in Hf as [Hf|[<-|[]]]; auto.
    - intros w Hw. unfold F' in Hw. apply orb_true_iff in Hw as [Hw|Hw].
      + apply C in Hw. lia.
      + apply andb_true_iff in Hw as [X Y]. apply Nat.leb_le in X. apply Nat.ltb_lt in Y. lia.
    - eapply Forall_impl; [|exact D]. intros [mk|pat rest mk]; simpl; auto.
      intros [X Y]. split; [eapply lin_mono; [exact PcE|exact X]|].
      eapply Forall_impl; [|exact Y]. intros g. apply lin_mono. exact FE.
    - lia.
  Qed.

  Lemma inv_scan p F h s0 stk pat l mark r n' :
    inv p F h -> good (Pc (hn h) F) s0 -> Forall (frame_ok (hn h) F) stk ->
    lin (Pc (hn h) F) pat -> Forall (fact_cells F) l ->
    hscan fuel s0 (hn h) pat l = Some (r, n') ->
    hn h <= n' /\
    match r with
    | None => inv p F (mkh s0 n' (hdb h) (hnext h) stk)
    | Some (s', rest) => inv p F (mkh s' n' (hdb h) (hnext h) (FQuery pat rest mark :: stk)) /\
                         lin (Pc n' F) (map (den s') pat)
    end.
  Proof.
    intros I G0 S Lp Fl HS.
    assert (R: forall w, F w = true -> w < hn h) by (intros w Hw; apply (inv_range I) in Hw; lia).
    destruct (@hscan_inv F pat _ _ _ _ _ G0 R Lp Fl HS) as [L X]. split; [exact L|].
    destruct r as [[s' rest]|].
    - destruct X as [[nw [-> G]] Fr].
      assert (G1: good (Pc n' F) (nw ++ s0)) by (apply good_app; [exact G|apply (good_grow L G0)]).
      split; [|apply (den_lin G1 (lin_grow L Lp))].
      apply (inv_set I L G1). constructor; [|apply (stack_grow L S)].
      split; [apply (lin_grow L Lp)|exact Fr].
    - apply (inv_set I L (good_grow L G0) (stack_grow L S)).
  Qed.

  Definition step_post (p : nat) (F : nat -> bool) (n : nat) (h' : hst) (x : hout) : Prop :=
    exists F', inv p F' h' /\ (forall w, F w = true -> F' w = true) /\ (forall w, F' w = true -> F w = true \/ n <= w) /\
               n <= hn h' /\
               Forall (lin (Pc (hn h') F')) (match x with HAns a => [a] | HAll l => l | _ => [] end).

  Lemma step_post_same p F n h' x : inv p F h' -> n <= hn h' ->
    Forall (lin (Pc (hn h') F)) (match x with HAns a => [a] | HAll l => l | _ => [] end) -> step_post p F n h' x.
  Proof. intros I L X. exists F. auto. Qed.

  (* one step preserves the invariant; only an assert extends the set of fact cells *)
  Lemma hstep_inv p F h o h' x : inv p F h -> op_ok p o -> hstep fuel h o = Some (h', x) -> step_post p F (hn h) h' x.
  Proof.
    intros I OK H. pose proof I as [A B C D E].
    assert (R: forall w, F w = true -> w < hn h) by (intros w Hw; apply C in Hw; lia).
    assert (Rp: forall w, F w = true -> p <= w) by (intros w Hw; apply C in Hw; lia).
    destruct o as [t1 t2|front t|name args| | |ts|name ar]; cbn [hstep] in H.
    - (* unify *)
      destruct OK as [O1 O2].
      destruct (@unify_frame (Pc (hn h) F) fuel (hs h) t1 t2 (good_closed A) (@tprog_Pc p (hn h) F t1 E Rp O1) (@tprog_Pc p (hn h) F t2 E Rp O2)) as [_ Po].
      destruct (unify fuel (hs h) t1 t2) as [s'| | |]; try discriminate; injection H as <- <-; apply step_post_same; simpl; auto.
      destruct Po as [nw [-> G]].
      apply (inv_set I (le_n _)); [apply good_app; auto|constructor; [exact Logic.I|exact D]].
    - (* assert *)
      destruct (callable (den (hs h) t)) as [[name args]|] eqn:CA; [|injection H as <- <-; apply step_post_same; simpl; auto].
      destruct (answer_init (hs h) (hn h) args) as [stored n'] eqn:AI. injection H as <- <-.
      destruct (@inv_assert p F h name args front stored n' I AI) as [I' L].
      eexists. split; [exact I'|]. simpl. repeat split; auto.
      + intros w Hw. rewrite Hw. reflexivity.
      + intros w Hw. apply orb_true_iff in Hw as [Hw|Hw]; auto.
        apply andb_true_iff in Hw as [X _]. apply Nat.leb_le in X. auto.
    - (* call *)
      assert (Lp: lin (Pc (hn h) F) args) by (eapply Forall_impl; [|exact OK]; intros t0; apply (@tprog_Pc p (hn h) F t0 E Rp)).
      assert (Fl: Forall (fact_cells F) (hdb h (name, length args))) by (apply Forall_forall; intros f Hf; apply (B _ f Hf)).
      destruct (hscan fuel (hs h) (hn h) args (hdb h (name, length args))) as [[r n']|] eqn:HS; [|discriminate].
      destruct (@inv_scan p F h (hs h) (hstk h) args _ (length (hs h)) r n' I A D Lp Fl HS) as [L X].
      destruct r as [[s' rest]|]; injection H as <- <-.
      + destruct X as [I' La]. apply step_post_same; simpl; [exact I'|exact L|constructor; [exact La|constructor]].
      + apply step_post_same; simpl; auto.
    - (* redo *)
      destruct (hstk h) as [|[mk|pat rest mk] stk] eqn:ES; rewrite ?ES in D.
      + injection H as <- <-. apply step_post_same; simpl; auto.
      + injection H as <- <-. inversion D; subst. apply step_post_same; simpl; auto.
        apply (inv_set I (le_n _)); [apply good_skipn; exact A|assumption].
      + inversion D as [|? ? Hfr D']; subst. destruct Hfr as [Lp Fr].
        destruct (hscan fuel (restore (hs h) mk) (hn h) pat rest) as [[r n']|] eqn:HS; [|discriminate].
        destruct (@inv_scan p F h (restore (hs h) mk) stk pat rest mk r n' I (good_skipn _ A) D' Lp Fr HS) as [L X].
        destruct r as [[s' rest']|]; injection H as <- <-.
        * destruct X as [I' La]. apply step_post_same; simpl; [exact I'|exact L|constructor; [exact La|constructor]].
        * apply step_post_same; simpl; auto.
    - (* pop *)
      destruct (hstk h) as [|fr stk] eqn:ES; rewrite ?ES in D.
      + injection H as <- <-. apply step_post_same; simpl; auto.
      + inversion D; subst.
        assert (I1: forall mk, inv p F (mkh (restore (hs h) mk) (hn h) (hdb h) (hnext h) stk)).
        { intros mk. apply (inv_set I (le_n _)); [apply good_skipn; exact A|assumption]. }
        destruct fr as [mk|pat rest mk]; injection H as <- <-; apply step_post_same; simpl; auto.
    - injection H as <- <-. apply step_post_same; simpl; auto.
    - (* read: the rows are values under bindings that are undone again *)
      destruct (hall fuel (hs h) (hn h + ar) (map TVar (seq (hn h) ar)) (hdb h (name, ar))) as [[l n']|] eqn:HA; [|discriminate].
      injection H as <- <-.
      assert (L0: hn h <= hn h + ar) by lia.
      destruct (ctx_grow L0 A R (Forall_nil _)) as [G1 [R1 _]].
      assert (Fl: Forall (fact_cells F) (hdb h (name, ar))) by (apply Forall_forall; intros f Hf; apply (B _ f Hf)).
      destruct (@hall_inv F _ _ _ _ _ _ G1 R1 (lin_seq_new F ar R) Fl HA) as [L X].
      apply step_post_same; simpl; [apply (inv_grow I)|idtac|exact X]; lia.
  Qed.

  Lemma inv_init p : inv p (fun _ => false) (hinit p).
  Proof.
    constructor; simpl; auto.
    - apply good_nil.
    - intros k f [].
    - intros w Hw. discriminate.
  Qed.

  Theorem hrun_inv : forall ops p F h h' outs, inv p F h -> Forall (op_ok p) ops ->
    hrun fuel h ops = Some (h', outs) -> exists F', inv p F' h' /\ (forall w, F w = true -> F' w = true).
  Proof.
    induction ops as [|o r IH]; intros p F h h' outs I OK H; simpl in H.
    - injection H as <- <-. exists F. auto.
    - inversion OK as [|? ? O1 O2]; subst.
      destruct (hstep fuel h o) as [[h1 x]|] eqn:ES; [|discriminate].
      destruct (hrun fuel h1 r) as [[h2 xs]|] eqn:ER; [|discriminate]. injection H as <- <-.
      destruct (@hstep_inv p F h o h1 x I O1 ES) as [F1 [I1 [M1 _]]].
      destruct (IH p F1 h1 h2 xs I1 O2 ER) as [F2 [I2 M2]]. exists F2. split; auto.
  Qed.

  (* C13.3: in every state that a history reaches, the variables inside stored facts are unbound, no
     binding mentions them, and the goal arguments of suspended goals do not mention them *)
  Theorem fact_vars_never_bound : forall p ops h outs,
    Forall (op_ok p) ops -> hrun fuel (hinit p) ops = Some (h, outs) ->
    forall k f t w, In f (hdb h k) -> In t (fargs f) -> occurs w t = true ->
      lookup w (hs h) = None /\
      (forall v u, In (v, u) (hs h) -> v <> w /\ occurs w u = false) /\
      (forall pat rest mk, In (FQuery pat rest mk) (hstk h) -> forall a, In a pat -> occurs w a = false) /\
      p <= w.
  Proof.
    intros p ops h outs OK H k f t w Hf Ht Hw.
    destruct (@hrun_inv ops p _ _ _ _ (inv_init p) OK H) as [F [[A B C D E] _]].
    assert (Fw: F w = true).
    { specialize (B k f Hf). unfold fact_cells, lin in B. rewrite Forall_forall in B. exact (B t Ht w Hw). }
    destruct (outside_Pc w A (@Pc_fact (hn h) F w Fw)) as [X Y].
    split; [apply (@good_F_unbound (hn h) F (hs h) w A Fw)|]. split; [exact X|split].
    - intros pat rest mk Hin a Ha. rewrite Forall_forall in D. destruct (D _ Hin) as [Lp _].
      unfold lin in Lp. rewrite Forall_forall in Lp. apply (Y a (Lp a Ha)).
    - apply C in Fw. lia.
  Qed.

  Lemma inv_use p F h k f goal : inv p F h -> In f (hdb h k) ->
    answer_match fuel (hs h) (hn h) goal (fargs f) =
      (unify_arrays fuel (hs h) goal (fst (copy_args [] (fargs f) (hn h))), snd (copy_args [] (fargs f) (hn h))) /\
    forall c w, In c (fst (copy_args [] (fargs f) (hn h))) -> occurs w c = true -> hn h <= w.
  Proof.
    intros I Hf. split; [apply answer_match_independent; apply (fact_free (inv_store I) (inv_facts I k f Hf))|].
    intros c w Hc Hw. destruct (copy_args [] (fargs f) (hn h)) as [cs n'] eqn:Cp.
    destruct (copy_cells Cp) as [_ X]. apply (X c Hc w Hw).
  Qed.

  (* "fresh at every use": in every reachable state, a use of a stored fact unifies the goal with a copy
     that is computed from the stored arguments and the allocation counter alone - the same copy under
     every heap - whose cells are new; so what a fact matches never depends on what happened to the
     variables of the asserted term, and two uses (or a use and the asserting clause) share no cell *)
  Theorem uses_see_stored_value : forall p ops h outs,
    Forall (op_ok p) ops -> hrun fuel (hinit p) ops = Some (h, outs) ->
    forall k f goal, In f (hdb h k) ->
      answer_match fuel (hs h) (hn h) goal (fargs f) =
        (unify_arrays fuel (hs h) goal (fst (copy_args [] (fargs f) (hn h))), snd (copy_args [] (fargs f) (hn h))) /\
      (forall t w, In t (fst (copy_args [] (fargs f) (hn h))) -> occurs w t = true ->
         hn h <= w /\ lookup w (hs h) = None /\ forall g u, In g (hdb h k) -> In u (fargs g) -> occurs w u = false).
  Proof.
    intros p ops h outs OK H k f goal Hf.
    destruct (@hrun_inv ops p _ _ _ _ (inv_init p) OK H) as [F [I _]]. pose proof I as [A B C D E].
    destruct (@inv_use p F h k f goal I Hf) as [U New]. split; [exact U|].
    intros t w Ht Hw. pose proof (New t w Ht Hw) as Y.
    split; [exact Y|]. split; [apply (@outside_unbound (hn h) F (hs h) w A (@Pc_new (hn h) F w Y))|].
    intros g u Hg Hu. destruct (occurs w u) eqn:O; auto.
    specialize (B k g Hg). unfold fact_cells, lin in B. rewrite Forall_forall in B.
    specialize (B u Hu w O). apply C in B. lia.
  Qed.
End Inv.
