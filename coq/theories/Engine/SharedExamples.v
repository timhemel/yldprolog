(* C04: the SAME inputs given to two engines.  In the model an argument of an operation is a value, so "the same
   function object registered on two engines" is the same rows in two ORegister operations; what differs is the arity each
   engine registers it under.  Non-vacuity of interleave_alone on this class of histories: engine 0 registers the rows with
   variable arity (register_function(.., arity=-1)), engine 1 under arity 1 (what arity=None has to infer for a `*args` function);
   w/2 and w/1 are then queried on both.  Engine 0 answers both arities, engine 1 only w/1 - whatever the interleaving, and
   exactly as when each engine runs alone. *)
From Coq Require Import String.
From Coq Require Import List Arith Bool Lia ZArith.
Import ListNotations.
From YP Require Import Base.Str Term.Term Term.Show Unify.Unify Engine.Db Engine.World Engine.Isolation Engine.IsolationExamples.
Local Open Scope string_scope.

Definition sw := of_string "w".
Definition srow2 : list term := [TInt 7; TInt 1].
Definition srow1 : list term := [TInt 42].
Definition srows : list (list term) := [srow2; srow1].
Definition ssched : list (nat * op) :=
  [ (0, ORegister sw None srows); (1, ORegister sw (Some 1) srows);
    (0, OStart 0 sw [TVar 0; TVar 1]); (1, OStart 0 sw [TVar 0; TVar 1]); (0, ODrain 0); (1, ODrain 0);
    (1, OStart 1 sw [TVar 2]); (0, OStart 1 sw [TVar 2]); (1, ODrain 1); (0, ODrain 1) ].
(* the same two histories, engine 1 first and back to back *)
Definition ssched' : list (nat * op) := only 1 ssched ++ only 0 ssched.

Definition sall (rows : list (list term)) : obs := otag "all" [OL (map (fun r => OL (map term_obs r)) rows); OL []].

Lemma ex_shared_inputs :
  proj 0 (snd (wrun 100 (init_world 2) ssched))
  = [otag "ok" []; otag "started" []; sall [srow2]; otag "started" []; sall [srow1]]
  /\ proj 1 (snd (wrun 100 (init_world 2) ssched))
  = [otag "ok" []; otag "started" []; sall []; otag "started" []; sall [srow1]]
  /\ proj 0 (snd (wrun 100 (init_world 2) ssched')) = proj 0 (snd (wrun 100 (init_world 2) ssched))
  /\ proj 1 (snd (wrun 100 (init_world 2) ssched')) = proj 1 (snd (wrun 100 (init_world 2) ssched))
  /\ proj 0 (snd (wrun 100 (init_world 2) ssched)) = snd (erun 2 0 100 (map snd (only 0 ssched)) init_engine [])
  /\ proj 1 (snd (wrun 100 (init_world 2) ssched)) = snd (erun 2 1 100 (map snd (only 1 ssched)) init_engine []).
Proof.
  split; [vm_compute; reflexivity|]. split; [vm_compute; reflexivity|].
  split; [apply merges_indistinguishable; [lia|reflexivity]|].
  split; [apply merges_indistinguishable; [lia|reflexivity]|].
  split; apply interleave_alone_init; lia.
Qed.
