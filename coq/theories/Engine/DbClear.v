(* clear() while cursors are suspended.

   engine.py: YP.clear() replaces `_predicates_store` by a new dictionary; the Answer objects and the list
   objects that suspended generators hold are not touched.  A suspended QUERY therefore goes on in the list
   it read (C14: "works on the facts as they were when the goal started").  A suspended RETRACT tests every
   matching candidate of its snapshot for membership, by identity, in the list that is current NOW
   (`any(c is clause for c in current)`), and after clear() that list is empty (or holds only Answers that
   were created later, which are different objects even when they are equal as terms): it finds none of
   its candidates, yields nothing, removes nothing.  The cursor machine says exactly that (EClear = the
   empty database, cursors untouched; rscan against the current list); the theorems:

   - retract_answer_is_stored: at every point of every history an answer of a retract cursor - however long
     it was suspended, whatever happened meanwhile (clear included) - returns a fact that IS in the store at
     that moment, under the key of the cursor, and the fact is in no list of the store afterwards;
   - after_clear_no_retract_answer: after clear(), as long as nothing is asserted, NO retract cursor gives
     an answer, no event changes the store (it stays empty), whatever cursors were suspended in whatever
     snapshots;
   - after_clear_only_new_facts: after clear(), every Answer a retract returns or a retractall removes was
     created after the clear. *)
From Coq Require Import List Arith Bool Lia.
Import ListNotations.
From YP Require Import Base.Str Term.Term Engine.Db Engine.DbCursor Engine.DbCursorThms.
Set Implicit Arguments.

Definition is_assert (e : ev) : bool :=
  match e with EAssert _ _ | EAssertFact _ _ _ => true | _ => false end.
Definition is_ret (o : out) : bool :=
  match o with ORet _ _ _ => true | _ => false end.
Definition db_empty (s : st) : Prop := forall k, sdb s k = [].

Lemma is_assert_asserts e : is_assert e = asserts e.
Proof. reflexivity. Qed.

Section Clear.
  Variable mt : list term -> list term -> mres.

  Theorem retract_answer_is_stored : forall evs s s1 outs1 e s2 k i a,
    ids_ok (sdb s) (snext s) -> run mt s evs = Some (s1, outs1) -> step mt s1 e = Some (s2, ORet k i a) ->
    In i (map fid (sdb s1 k)) /\ (forall k', ~ In i (map fid (sdb s2 k'))).
  Proof.
    intros evs s s1 outs1 e s2 k i a I R S.
    destruct (@no_lost_update mt evs s s1 outs1 I R) as [_ I1].
    destruct (@step_out mt s1 e s2 _ I1 S) as [V [D _]].
    destruct (@apply_out_removed (sdb s1) (snext s1) _ I1 V) as [_ [_ [C _]]].
    split; [exact V|]. intros k'. rewrite D. apply C. simpl. auto.
  Qed.

  Lemma rscan_empty pat : forall l, rscan mt pat [] l = None \/ rscan mt pat [] l = Some None.
  Proof.
    induction l as [|f r IH]; simpl; auto.
    destruct (mt pat (fargs f)); auto.
  Qed.

  Lemma step_empty s e s' o : db_empty s -> is_assert e = false -> step mt s e = Some (s', o) ->
    db_empty s' /\ is_ret o = false.
  Proof.
    intros E A H. destruct (proj1 (@step_view mt s e s' o H)) as [_ F].
    destruct o as [k front f| |k gone| | | | | | |id a|k id a|l]; simpl in F; try (split; [intros k0; rewrite F; apply E|reflexivity]).
    - (* only an assert stores a fact *)
      destruct F as [F _]. rewrite <- is_assert_asserts in F. congruence.
    - (* retractall on an empty list *)
      destruct F as [pat [keep [RA D]]]. rewrite (E k) in RA. simpl in RA. injection RA as <- _.
      split; [|reflexivity]. intros k0. rewrite D. unfold upd. destruct (key_eqb k0 k); auto.
    - split; [|reflexivity]. intros k0. rewrite F. reflexivity.
    - (* a retract cursor finds none of its candidates in an empty list *)
      destruct F as [_ [pat [l [f [r [RS _]]]]]]. rewrite (E k) in RS.
      destruct (rscan_empty pat l) as [X|X]; rewrite X in RS; discriminate.
  Qed.

  Theorem after_clear_no_retract_answer : forall evs s s' outs,
    db_empty s -> forallb (fun e => negb (is_assert e)) evs = true -> run mt s evs = Some (s', outs) ->
    db_empty s' /\ forallb (fun o => negb (is_ret o)) outs = true.
  Proof.
    induction evs as [|e r IH]; intros s s' outs E A H; simpl in H.
    - injection H as <- <-. split; auto.
    - simpl in A. apply andb_true_iff in A as [A1 A2]. apply negb_true_iff in A1.
      destruct (step mt s e) as [[s1 o]|] eqn:ES; [|discriminate].
      destruct (run mt s1 r) as [[s2 os]|] eqn:ER; [|discriminate]. injection H as -> <-.
      destruct (@step_empty s e s1 o E A1 ES) as [E1 O1]. destruct (IH s1 s' os E1 A2 ER) as [E2 O2].
      split; auto. simpl. rewrite O1, O2. reflexivity.
  Qed.

  (* the form in which the history is read: ... clear(), then anything but asserts *)
  Corollary clear_then_resume : forall evs s s' outs,
    forallb (fun e => negb (is_assert e)) evs = true -> run mt s (EClear :: evs) = Some (s', outs) ->
    db_empty s' /\ forallb (fun o => negb (is_ret o)) outs = true.
  Proof.
    intros evs s s' outs A H. simpl in H.
    destruct (run mt (set_db s empty_db) evs) as [[s2 os]|] eqn:ER; [|discriminate]. injection H as -> <-.
    assert (E: db_empty (set_db s empty_db)) by (intros k; reflexivity).
    destruct (@after_clear_no_retract_answer evs _ s' os E A ER) as [E2 O2]. split; auto.
  Qed.

  (* with asserts after the clear: whatever is removed later was created after the clear *)
  Lemma run_ids_lower : forall evs s s' outs n,
    ids_ok (sdb s) (snext s) -> n <= snext s -> (forall k i, In i (map fid (sdb s k)) -> n <= i) ->
    run mt s evs = Some (s', outs) -> forall i, In i (removed outs) -> n <= i.
  Proof.
    induction evs as [|e r IH]; intros s s' outs n I Hn L H i Hi; simpl in H.
    - injection H as _ <-. simpl in Hi. contradiction.
    - destruct (step mt s e) as [[s1 o]|] eqn:ES; [|discriminate].
      destruct (run mt s1 r) as [[s2 os]|] eqn:ER; [|discriminate]. injection H as -> <-.
      destruct (@step_out mt s e s1 o I ES) as [V [Ed En]].
      destruct (@apply_out_removed (sdb s) (snext s) o I V) as [_ [B [_ D]]]. rewrite <- Ed in D.
      pose proof (@step_ids_ok mt s e s1 o I ES) as I1.
      unfold removed in Hi. simpl in Hi. apply in_app_iff in Hi as [Hi|Hi].
      + destruct (B i Hi) as [k Hk]. eapply L; eauto.
      + apply (IH s1 s' os n I1); auto; [lia|].
        intros k j Hj. destruct (D _ _ Hj) as [X|X]; [eapply L; eauto|lia].
  Qed.

  Theorem after_clear_only_new_facts : forall evs s s' outs,
    ids_ok (sdb s) (snext s) -> run mt s (EClear :: evs) = Some (s', outs) ->
    forall i, In i (removed outs) -> snext s <= i.
  Proof.
    intros evs s s' outs I H i Hi. simpl in H.
    destruct (run mt (set_db s empty_db) evs) as [[s2 os]|] eqn:ER; [|discriminate]. injection H as -> <-.
    unfold removed in Hi. simpl in Hi.
    apply (@run_ids_lower evs (set_db s empty_db) s' os (snext s)); auto.
    - simpl. apply ids_ok_empty.
    - simpl. intros k j Hj. contradiction.
  Qed.
End Clear.
