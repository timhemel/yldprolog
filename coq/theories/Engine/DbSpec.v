(* C07: the fact database refines ordered lists.

   Spec: a database is key -> list of argument lists (no identities).  asserta conses, assertz
   appends, a query answers with the matching elements in list order, each answer of retract removes
   the first remaining matching element and is the match with it, retractall filters, clear empties.
   Model: the cursor machine of DbCursor.v.  An atomic operation is the block of events the caller
   issues for it (a retract that is asked for j answers and then closed is Start, j x Next, Close). *)
From Coq Require Import List Arith Bool Lia.
Import ListNotations.
From YP Require Import Base.Str Term.Term Engine.Db Engine.DbCursor Engine.DbCursorThms.
Set Implicit Arguments.

(* what the caller sees of an event *)
Inductive vout := VOk | VFail | VEnd | VBad | VAns (a : list term) | VAll (l : list (list term)).

Definition vis (o : out) : vout :=
  match o with
  | OIns _ _ _ | ONop | ORAll _ _ | OClr | OStart | OClosed => VOk
  | OFailed => VFail
  | OEnd => VEnd
  | OBad => VBad
  | OAns _ a | ORet _ _ a => VAns a
  | OAll l => VAll l
  end.

Inductive aop :=
| AAssert (front : bool) (t : term)                         (* asserta(t) / assertz(t) *)
| AAssertFact (name : str) (args : list term) (append : bool)   (* YP.assert_fact *)
| AQuery (name : str) (args : list term)                    (* all answers of name(args) *)
| AQueryK (name : str) (args : list term) (j : nat)         (* start name(args), j x next, close *)
| ARetract (t : term) (j : nat)                             (* start retract(t), j x next, close *)
| ARetractAll (t : term)
| AClear.

Definition compile (o : aop) : list ev :=
  match o with
  | AAssert front t => [EAssert front t]
  | AAssertFact n a app => [EAssertFact n a app]
  | AQuery n a => [EQueryAll n a]
  | AQueryK n a j => EStart 0 (QQuery n a) :: repeat (ENext 0) j ++ [EClose 0]
  | ARetract t j => EStart 0 (QRetract t) :: repeat (ENext 0) j ++ [EClose 0]
  | ARetractAll t => [ERetractAll t]
  | AClear => [EClear]
  end.

Definition sdbT := key -> list (list term).
Definition supd (k : key) (l : list (list term)) (d : sdbT) : sdbT := fun k' => if key_eqb k' k then l else d k'.

Section Spec.
  Variable mt : list term -> list term -> mres.
  Notation yes := (yes mt).

  Fixpoint smatches (pat : list term) (l : list (list term)) : list (list term) :=
    match l with
    | [] => []
    | a :: r => match yes pat a with Some x => x :: smatches pat r | None => smatches pat r end
    end.

  (* remove the first element that matches; the answer is the match with it *)
  Fixpoint sretract1 (pat : list term) (l : list (list term)) : option (list term * list (list term)) :=
    match l with
    | [] => None
    | a :: r =>
        match yes pat a with
        | Some x => Some (x, r)
        | None => match sretract1 pat r with Some (x, r') => Some (x, a :: r') | None => None end
        end
    end.

  Fixpoint sretract (pat : list term) (l : list (list term)) (j : nat) : list vout * list (list term) :=
    match j with
    | O => ([], l)
    | S j' =>
        match sretract1 pat l with
        | None => (repeat VEnd (S j'), l)
        | Some (x, l') => let (o, l'') := sretract pat l' j' in (VAns x :: o, l'')
        end
    end.

  Definition sretractall (pat : list term) (l : list (list term)) : list (list term) :=
    filter (fun a => match yes pat a with Some _ => false | None => true end) l.

  (* the first j results of a query: its answers in order, then StopIteration *)
  Fixpoint stake (ans : list (list term)) (j : nat) : list vout :=
    match j with
    | O => []
    | S j' => match ans with [] => VEnd :: stake [] j' | x :: r => VAns x :: stake r j' end
    end.

  Definition sstep (d : sdbT) (o : aop) : sdbT * list vout :=
    match o with
    | AAssert front t =>
        match callable t with
        | Some (n, args) => let k := (n, length args) in (supd k (if front then args :: d k else d k ++ [args]) d, [VOk])
        | None => (d, [VOk])
        end
    | AAssertFact n args app =>
        let k := (n, length args) in (supd k (if app then d k ++ [args] else args :: d k) d, [VOk])
    | AQuery n args => (d, [VAll (smatches args (d (n, length args)))])
    | AQueryK n args j => (d, VOk :: stake (smatches args (d (n, length args))) j ++ [VOk])
    | ARetract t j =>
        match callable t with
        | Some (n, args) =>
            let k := (n, length args) in
            let (o, l') := sretract args (d k) j in (supd k l' d, VOk :: o ++ [VOk])
        | None => (d, VOk :: repeat VEnd j ++ [VOk])
        end
    | ARetractAll t =>
        match callable t with
        | Some (n, args) => let k := (n, length args) in (supd k (sretractall args (d k)) d, [VOk])
        | None => (d, [VFail])
        end
    | AClear => (fun _ => [], [VOk])
    end.

  Fixpoint srun (d : sdbT) (ops : list aop) : sdbT * list vout :=
    match ops with
    | [] => (d, [])
    | o :: r => let (d1, v1) := sstep d o in let (d2, v2) := srun d1 r in (d2, v1 ++ v2)
    end.

  Definition R (d : sdbT) (s : st) : Prop := forall k, d k = map fargs (sdb s k).

  Lemma smatches_abs pat l : smatches pat (map fargs l) = map snd (matches mt pat l).
  Proof.
    induction l as [|f l IH]; simpl; auto. destruct (yes pat (fargs f)); simpl; rewrite IH; reflexivity.
  Qed.

  Lemma rall_abs pat : forall l keep gone, rall mt pat l = Some (keep, gone) -> map fargs keep = sretractall pat (map fargs l).
  Proof.
    induction l as [|f l IH]; intros keep gone H; simpl in H.
    - injection H as <- _. reflexivity.
    - simpl. unfold Db.yes. destruct (mt pat (fargs f)) eqn:M; [| |discriminate];
        destruct (rall mt pat l) as [[k' g']|]; try discriminate; injection H as <- _; simpl; [|f_equal]; eapply IH; eauto.
  Qed.

  Lemma sretract1_none pat l : (forall a, In a l -> yes pat a = None) -> sretract1 pat l = None.
  Proof.
    induction l as [|a l IH]; simpl; intros H; auto.
    rewrite (H a (or_introl eq_refl)). rewrite IH; auto.
  Qed.

  Lemma sretract1_skip pat pre a x post : (forall b, In b pre -> yes pat b = None) -> yes pat a = Some x ->
    sretract1 pat (pre ++ a :: post) = Some (x, pre ++ post).
  Proof.
    induction pre as [|b pre IH]; simpl; intros H Y.
    - rewrite Y. reflexivity.
    - rewrite (H b (or_introl eq_refl)). rewrite IH; auto.
  Qed.

  Lemma in_has_id x l : In x l -> has_id (fid x) l = true.
  Proof. intros H. apply has_id_in. apply in_map. exact H. Qed.

  Lemma rskip_present pat cur x : In x cur -> rskip mt pat cur x -> yes pat (fargs x) = None.
  Proof. intros P [Y|N]; [exact Y|]. rewrite (in_has_id _ _ P) in N. discriminate. Qed.

  Lemma run_done_nexts : forall j s, scur s 0 = CDone ->
    run mt s (repeat (ENext 0) j) = Some (s, repeat OEnd j).
  Proof.
    induction j as [|j IH]; intros s H; simpl; auto. rewrite H. rewrite IH; auto.
  Qed.

  Lemma map_repeat {A B} (f : A -> B) x n : map f (repeat x n) = repeat (f x) n.
  Proof. induction n; simpl; congruence. Qed.

  Lemma run_cons s e r : run mt s (e :: r) =
    match step mt s e with
    | None => None
    | Some (s1, o) => match run mt s1 r with None => None | Some (s2, os) => Some (s2, o :: os) end
    end.
  Proof. reflexivity. Qed.

  (* the window of a retract cursor on the list of its key: what it has passed over (none of it matches),
     then the remainder of its snapshot *)
  Definition window (pat : list term) (s : st) (k : key) (kept rest : list fact) : Prop :=
    sdb s k = kept ++ rest /\ forall x, In x kept -> yes pat (fargs x) = None.

  (* one next() of a retract cursor that has a window: the first remaining matching fact is removed, and
     the cursor has a window again *)
  Lemma rnext_atomic k pat s kept rest s1 o :
    NoDup (map fid (sdb s k)) -> window pat s k kept rest ->
    rnext mt s 0 k pat rest = Some (s1, o) ->
    (forall k0, k0 <> k -> sdb s1 k0 = sdb s k0) /\
    match sretract1 pat (map fargs (kept ++ rest)) with
    | None => o = OEnd /\ scur s1 0 = CDone /\ sdb s1 k = sdb s k
    | Some (x, l') => exists f kept' rest', o = ORet k (fid f) x /\ scur s1 0 = CRRun k pat rest' /\
        window pat s1 k kept' rest' /\ map fargs (kept' ++ rest') = l'
    end.
  Proof.
    intros N [E K] H. unfold rnext in H.
    (* every fact that the scan passes over is still current, so it is passed over because it does not match *)
    assert (Skip: forall nm, (forall x, In x nm -> In x rest) -> (forall x, In x nm -> rskip mt pat (sdb s k) x) ->
                  forall x, In x (kept ++ nm) -> yes pat (fargs x) = None).
    { intros nm Sub Sk x Hx. apply in_app_iff in Hx as [Hx|Hx]; auto.
      apply (rskip_present (cur := sdb s k)); auto. rewrite E. apply in_or_app. auto. }
    assert (SkipA: forall nm, (forall x, In x (kept ++ nm) -> yes pat (fargs x) = None) ->
                   forall b, In b (map fargs (kept ++ nm)) -> yes pat b = None).
    { intros nm Sk b Hb. apply in_map_iff in Hb as [y [<- Hy]]. auto. }
    destruct (rscan mt pat (sdb s k) rest) as [[[[f a] r']|]|] eqn:Q; [| |discriminate]; injection H as <- <-.
    - destruct (rscan_some _ _ _ _ Q) as [_ [Y [nm [-> Sk]]]].
      pose proof (Skip nm (fun x Hx => in_or_app _ _ _ (or_introl Hx)) Sk) as Sk'.
      split.
      + intros k0 Hk. cbn [sdb set_cur set_db]. apply upd_other. exact Hk.
      + rewrite app_assoc, map_app. cbn [map].
        rewrite (@sretract1_skip pat _ _ a (map fargs r') (SkipA nm Sk') Y).
        exists f, (kept ++ nm), r'. unfold window. cbn [sdb scur set_cur set_db]. rewrite Nat.eqb_refl. repeat split; auto.
        * rewrite upd_same, E, app_assoc. apply del_id_middle; auto. rewrite <- app_assoc, <- E. exact N.
        * rewrite !map_app. reflexivity.
    - split; [auto|].
      rewrite sretract1_none; [|exact (SkipA rest (Skip rest (fun x Hx => Hx) (@rscan_none mt pat (sdb s k) rest Q)))].
      cbn [sdb scur set_cur]. rewrite Nat.eqb_refl. auto.
  Qed.

  Lemma retract_nexts k pat : forall j s s' outs kept rest,
    ids_ok (sdb s) (snext s) -> window pat s k kept rest ->
    step mt s (ENext 0) = rnext mt s 0 k pat rest ->
    run mt s (repeat (ENext 0) j) = Some (s', outs) ->
    map vis outs = fst (sretract pat (map fargs (kept ++ rest)) j) /\
    map fargs (sdb s' k) = snd (sretract pat (map fargs (kept ++ rest)) j) /\
    (forall k0, k0 <> k -> sdb s' k0 = sdb s k0).
  Proof.
    induction j as [|j IH]; intros s s' outs kept rest I W HS H.
    - simpl in H. injection H as <- <-. simpl. rewrite (proj1 W). auto.
    - cbn [repeat] in H. rewrite run_cons, HS in H.
      destruct (rnext mt s 0 k pat rest) as [[s1 o]|] eqn:RN; [|discriminate].
      destruct (run mt s1 (repeat (ENext 0) j)) as [[s2 os]|] eqn:ER; [|discriminate]. injection H as <- <-.
      destruct (@rnext_atomic k pat s kept rest s1 o (proj1 I k) W RN) as [C D].
      cbn [sretract]. destruct (sretract1 pat (map fargs (kept ++ rest))) as [[x l']|].
      + destruct D as [f [kept' [rest' [-> [Ec [W' <-]]]]]].
        assert (HS1: step mt s1 (ENext 0) = rnext mt s1 0 k pat rest') by (simpl; rewrite Ec; reflexivity).
        destruct (IH s1 s2 os kept' rest' (@step_ids_ok mt s (ENext 0) s1 _ I HS) W' HS1 ER) as [I1 [I2 I3]].
        destruct (sretract pat (map fargs (kept' ++ rest')) j) as [vo l2]. simpl in *.
        repeat split; auto; try congruence.
        intros k0 Hk. rewrite I3; auto.
      + destruct D as [-> [Ec Ed]].
        rewrite (run_done_nexts j _ Ec) in ER. injection ER as <- <-. simpl.
        rewrite map_repeat. simpl. rewrite Ed, (proj1 W). auto.
  Qed.

  Lemma query_nexts pat : forall j s s' outs rest,
    step mt s (ENext 0) = qnext mt s 0 pat rest ->
    run mt s (repeat (ENext 0) j) = Some (s', outs) ->
    map vis outs = stake (smatches pat (map fargs rest)) j /\ sdb s' = sdb s /\ snext s' = snext s /\ (scur s 0 <> CNone -> scur s' 0 <> CNone).
  Proof.
    intros j s s' outs rest HS H.
    assert (Keep: scur s 0 <> CNone -> scur s' 0 <> CNone) by apply (@run_keeps_cursor mt 0 _ _ _ _ H).
    revert s s' outs rest HS H Keep. induction j as [|j IH]; intros s s' outs rest HS H Keep.
    - simpl in H. injection H as <- <-. simpl. auto.
    - cbn [repeat] in H. rewrite run_cons, HS in H. unfold qnext in H.
      destruct (qscan mt pat rest) as [[[[f a] r']|]|] eqn:Q; [| |discriminate].
      + destruct (run mt (set_cur s 0 (CQRun pat r')) (repeat (ENext 0) j)) as [[s2 os]|] eqn:ER; [|discriminate].
        injection H as <- <-.
        destruct (IH (set_cur s 0 (CQRun pat r')) s2 os r' eq_refl ER (@run_keeps_cursor mt 0 _ _ _ _ ER)) as [I1 [I2 [I3 _]]].
        destruct (qscan_some _ _ _ Q) as [M _].
        rewrite smatches_abs, M. simpl. rewrite <- smatches_abs, I1. auto.
      + destruct (run mt (set_cur s 0 CDone) (repeat (ENext 0) j)) as [[s2 os]|] eqn:ER; [|discriminate].
        injection H as <- <-.
        rewrite (run_done_nexts j (set_cur s 0 CDone) eq_refl) in ER. injection ER as <- <-.
        apply qscan_none in Q. rewrite smatches_abs, Q. simpl. rewrite map_repeat. simpl.
        repeat split; auto. f_equal. clear. induction j; simpl; congruence.
  Qed.

  Lemma close_step s : scur s 0 <> CNone -> step mt s (EClose 0) = Some (set_cur s 0 CDone, OClosed).
  Proof. intros H. simpl. destruct (scur s 0); congruence. Qed.

  Lemma noncallable_nexts t : forall j s s' outs,
    scur s 0 = CRNew t -> callable t = None -> run mt s (repeat (ENext 0) j) = Some (s', outs) ->
    map vis outs = repeat VEnd j /\ sdb s' = sdb s.
  Proof.
    intros [|j] s s' outs EC CA H.
    - simpl in H. injection H as <- <-. auto.
    - cbn [repeat] in H. rewrite run_cons in H. simpl in H. rewrite EC, CA in H.
      rewrite (run_done_nexts j (set_cur s 0 CDone) eq_refl) in H. injection H as <- <-. simpl.
      rewrite map_repeat. auto.
  Qed.

  Definition new_cur (q : qry) : cursor :=
    match q with QQuery n args => CQNew (n, length args) args | QRetract t => CRNew t end.

  Lemma run_block s q j s' outs :
    run mt s (EStart 0 q :: repeat (ENext 0) j ++ [EClose 0]) = Some (s', outs) ->
    exists s2 o2, run mt (set_cur s 0 (new_cur q)) (repeat (ENext 0) j) = Some (s2, o2) /\
                  s' = set_cur s2 0 CDone /\ outs = OStart :: o2 ++ [OClosed].
  Proof.
    rewrite run_cons. cbn [step]. fold (new_cur q). rewrite run_app.
    destruct (run mt (set_cur s 0 (new_cur q)) (repeat (ENext 0) j)) as [[s2 o2]|] eqn:E2; [|discriminate].
    rewrite run_cons, close_step.
    - simpl. intros H. injection H as <- <-. exists s2, o2. auto.
    - apply (@run_keeps_cursor mt 0 _ _ _ _ E2). simpl. destruct q; discriminate.
  Qed.

  Lemma R_same d s s' : R d s -> sdb s' = sdb s -> R d s'.
  Proof. intros H E k. rewrite E. apply H. Qed.

  Lemma R_upd d s k l l' s' : R d s -> l = map fargs l' -> (forall k0, sdb s' k0 = upd k l' (sdb s) k0) -> R (supd k l d) s'.
  Proof.
    intros Rd E H k0. rewrite H. unfold supd, upd. destruct (key_eqb k0 k); auto.
  Qed.

  Lemma R_ins (d : sdbT) s n args (front : bool) : R d s ->
    R (supd (n, length args) (if front then args :: d (n, length args) else d (n, length args) ++ [args]) d)
      (fst (do_assert s n args front)).
  Proof.
    intros Rd. apply (@R_upd d s (n, length args) _ (ins front (mkfact (snext s) args) (sdb s (n, length args))) _ Rd); [|reflexivity].
    unfold ins. rewrite (Rd (n, length args)). destruct front; simpl; [reflexivity|]. rewrite map_app. reflexivity.
  Qed.

  (* one atomic operation: the visible results and the new contents are those of the list spec *)
  Lemma sim_op : forall op s s' outs d,
    ids_ok (sdb s) (snext s) -> R d s -> run mt s (compile op) = Some (s', outs) ->
    map vis outs = snd (sstep d op) /\ R (fst (sstep d op)) s'.
  Proof.
    intros op s s' outs d I Rd H.
    destruct op as [front t|n args app|n args|n args j|t j|t|]; cbn [compile] in H.
    - (* asserta / assertz *)
      simpl in H. unfold sstep. destruct (callable t) as [[n args]|]; injection H as <- <-.
      + split; [reflexivity|]. apply (R_ins n args front Rd).
      + auto.
    - (* assert_fact *)
      simpl in H. injection H as <- <-. split; [reflexivity|]. cbn [fst sstep].
      generalize (R_ins n args (negb app) Rd). destruct app; auto.
    - (* all answers at once *)
      simpl in H. destruct (qall mt args (sdb s (n, length args))) as [l|] eqn:Q; [|discriminate]. injection H as <- <-.
      split; [|exact Rd]. simpl. rewrite (qall_matches _ _ _ Q), (Rd (n, length args)), smatches_abs. reflexivity.
    - (* a query cursor *)
      destruct (run_block _ _ _ H) as [s2 [o2 [E2 [-> ->]]]].
      destruct (@query_nexts args j (set_cur s 0 (CQNew (n, length args) args)) s2 o2 (sdb s (n, length args)) eq_refl E2) as [A [B _]].
      split.
      + simpl. rewrite map_app, A, (Rd (n, length args)). reflexivity.
      + apply (@R_same d s _ Rd). exact B.
    - (* a retract cursor *)
      destruct (run_block _ _ _ H) as [s2 [o2 [E2 [-> ->]]]]. unfold sstep. cbn [new_cur] in E2.
      destruct (callable t) as [[n args]|] eqn:CA.
      + set (k := (n, length args)).
        assert (HS: step mt (set_cur s 0 (CRNew t)) (ENext 0) = rnext mt (set_cur s 0 (CRNew t)) 0 k args (sdb s k)).
        { simpl. rewrite CA. reflexivity. }
        assert (W: window args (set_cur s 0 (CRNew t)) k [] (sdb s k)) by (split; [reflexivity|intros x []]).
        destruct (@retract_nexts k args j (set_cur s 0 (CRNew t)) s2 o2 [] (sdb s k) I W HS E2) as [A [B C]].
        simpl in A, B. rewrite <- (Rd k) in A, B.
        destruct (sretract args (d k) j) as [vo l']. simpl in *. split.
        * rewrite map_app, A. reflexivity.
        * intros k0. cbn [sdb set_cur]. unfold supd. destruct (key_eqb_spec k0 k) as [->|NK]; [symmetry; exact B|]. rewrite (C k0 NK). apply Rd.
      + destruct (@noncallable_nexts t j (set_cur s 0 (CRNew t)) s2 o2 eq_refl CA E2) as [A B]. split.
        * simpl. rewrite map_app, A. reflexivity.
        * apply (@R_same d s _ Rd). exact B.
    - (* retractall *)
      simpl in H. unfold sstep. destruct (callable t) as [[n args]|]; [|injection H as <- <-; auto].
      destruct (rall mt args (sdb s (n, length args))) as [[keep gone]|] eqn:RA; [|discriminate]. injection H as <- <-.
      split; [reflexivity|]. apply (@R_upd d s (n, length args) _ keep _ Rd); [|reflexivity].
      rewrite (Rd (n, length args)). symmetry. eapply rall_abs; eauto.
    - simpl in H. injection H as <- <-. split; [reflexivity|]. intros k0. reflexivity.
  Qed.

  (* C07: for every history of atomic operations, the results the caller sees and the contents of
     every predicate are those of the ordered-list specification *)
  Theorem db_refines_list_spec : forall ops s s' outs d,
    ids_ok (sdb s) (snext s) -> R d s -> run mt s (flat_map compile ops) = Some (s', outs) ->
    map vis outs = snd (srun d ops) /\ R (fst (srun d ops)) s'.
  Proof.
    induction ops as [|o r IH]; intros s s' outs d I Rd H.
    - simpl in H. injection H as <- <-. simpl. auto.
    - cbn [flat_map] in H. rewrite run_app in H.
      destruct (run mt s (compile o)) as [[s1 o1]|] eqn:E1; [|discriminate].
      destruct (run mt s1 (flat_map compile r)) as [[s2 o2]|] eqn:E2; [|discriminate]. injection H as -> <-.
      destruct (@sim_op o s s1 o1 d I Rd E1) as [A B].
      destruct (@no_lost_update mt (compile o) s s1 o1 I E1) as [_ I1].
      destruct (IH s1 s' o2 _ I1 B E2) as [C D].
      cbn [srun]. destruct (sstep d o) as [d1 v1]. simpl in *. destruct (srun d1 r) as [d2 v2]. simpl in *.
      rewrite map_app, A, C. auto.
  Qed.

  (* the first j results of a query, as the specification gives them, never contain the marker of a misused generator *)
  Lemma stake_no_bad ans : forall j, ~ In VBad (stake ans j).
  Proof.
    intros j. revert ans. induction j as [|j IH]; intros ans; simpl; auto.
    destruct ans; simpl; intros [X|X]; try discriminate; eapply IH; eauto.
  Qed.
End Spec.
