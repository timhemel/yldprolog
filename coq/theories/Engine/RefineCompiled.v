(* Every program that the (model of the) compiler produces has the shape that Refine.v needs:
   assignments only at the top level of a function body.  Hence machine_refines_irsem holds for
   every compiled program. *)
From Coq Require Import String.
From Coq Require Import List Arith Bool Lia.
Import ListNotations.
From YP Require Import Base.Str Term.Term Lang.Ast Comp.IR Comp.CompileBody Comp.CompileTotal Comp.CompileClause Sem.Machine
  Unify.UnifyGen Engine.GenMachine Engine.IRMachine Engine.QueryFacts Engine.Refine.

Lemma noassign_list_app a b : noassign_list (a ++ b) = noassign_list a && noassign_list b.
Proof. induction a as [|s r IH]; cbn [app noassign_list]; [reflexivity|]. rewrite IH, andb_assoc. reflexivity. Qed.

Lemma compiled_noassign b cnt c k : compiled b cnt c k -> noassign_list c = true.
Proof.
  induction 1 as [b b' cnt code k R _ IH|l K cnt c k _ IH|f args K cnt c k _ IH|K cnt c k _ IH|K cnt
                 |c t e cnt c1 k1 c2 k2 T _ IH1 _ IH2|c t e cnt code k T _ IH|x y cnt c1 k1 c2 k2 X _ IH1 _ IH2|cnt|cnt].
  - exact IH.
  - rewrite noassign_list_app, IH. reflexivity.
  - cbn [noassign_list]. rewrite noassign_foreach, IH. reflexivity.
  - rewrite noassign_list_app, IH. reflexivity.
  - reflexivity.
  - cbn [noassign_list]. rewrite noassign_block. cbn [app noassign_list]. rewrite noassign_block, IH1, IH2. reflexivity.
  - cbn [noassign_list]. rewrite noassign_block, IH. reflexivity.
  - rewrite noassign_list_app, IH1, IH2. reflexivity.
  - reflexivity.
  - reflexivity.
Qed.

Lemma comp_noassign n b cnt c k : comp n b cnt = Some (c, k) -> noassign_list c = true.
Proof. intros H. exact (compiled_noassign _ _ _ _ (comp_compiled _ _ _ _ _ H)). Qed.

Lemma arg_unifications_noassign : forall pos i args code, noassign_list code = true ->
  noassign_list (arg_unifications i pos args code) = true.
Proof.
  induction pos as [|[v|] pr IH]; intros i args code H; destruct args as [|a ar]; cbn [arg_unifications]; auto.
  cbn [noassign_list]. rewrite noassign_foreach, IH; auto.
Qed.

Lemma top_ok_app a b : top_ok (a ++ b) = top_ok a && top_ok b.
Proof. unfold top_ok. apply forallb_app. Qed.
Lemma noassign_top c : noassign_list c = true -> top_ok c = true.
Proof.
  induction c as [|s r IH]; cbn [noassign_list top_ok forallb]; auto.
  intros H. apply andb_prop in H as [A B]. fold (top_ok r). rewrite (IH B), andb_true_r.
  destruct s; auto; discriminate.
Qed.
Lemma head_aliases_top : forall pos i, top_ok (head_aliases i pos) = true.
Proof. induction pos as [|[v|] r IH]; intros i; cbn [head_aliases]; auto. cbn [top_ok forallb top_stmt]. apply IH. Qed.
Lemma declare_top vs : top_ok (map declare vs) = true.
Proof. induction vs as [|v r IH]; auto. Qed.

Lemma compile_clause_top c cnt code cnt' : compile_clause c cnt = Some (code, cnt') -> top_ok code = true.
Proof.
  unfold compile_clause. destruct (comp _ _ _) as [[bc k]|] eqn:E; [|discriminate]. intros [= <- <-].
  rewrite !top_ok_app, head_aliases_top, !declare_top. cbn [andb].
  apply noassign_top, arg_unifications_noassign. exact (comp_noassign _ _ _ _ _ E).
Qed.

Lemma compile_clauses_top : forall cs cnt code cnt', compile_clauses cs cnt = Some (code, cnt') -> top_ok code = true.
Proof.
  induction cs as [|c r IH]; intros cnt code cnt' H; cbn [compile_clauses] in H.
  - injection H as <- _. reflexivity.
  - destruct (compile_clause c cnt) as [[c1 k1]|] eqn:E1; [|discriminate].
    destruct (compile_clauses r k1) as [[c2 k2]|] eqn:E2; [|discriminate]. injection H as <- <-.
    rewrite top_ok_app, (compile_clause_top _ _ _ _ E1), (IH _ _ _ E2). reflexivity.
Qed.

Lemma compile_groups_ok : forall gs cnt fs cnt', compile_groups gs cnt = Some (fs, cnt') -> ir_ok fs.
Proof.
  induction gs as [|[k cs] r IH]; intros cnt fs cnt' H; cbn [compile_groups] in H.
  - injection H as <- _. intros f [].
  - destruct (compile_clauses cs cnt) as [[c1 k1]|] eqn:E1; [|discriminate].
    destruct (compile_groups r k1) as [[fs2 k2]|] eqn:E2; [|discriminate]. injection H as <- <-.
    intros f [<-|Hin]; [exact (compile_clauses_top _ _ _ _ E1)|exact (IH _ _ _ E2 f Hin)].
Qed.

Theorem compiled_ir_ok p ir : compile_program p = Some ir -> ir_ok ir.
Proof.
  unfold compile_program. destruct (compile_groups (group_program p) 0) as [[fs k]|] eqn:E; [|discriminate].
  intros [= <-]. exact (compile_groups_ok _ _ _ _ E).
Qed.

(* machine_refines_irsem for every compiled program and every database of dynamic facts
   (big-step side: Engine/QueryFacts.queryF = Sem.Machine.query with the facts tried first) *)
Theorem compiled_machine_refines_facts p ir : compile_program p = Some ir ->
  forall DB d name args nx h k, wf h ->
  exists N hf itf, forall n, N <= n ->
    m_nexts ir DB nouser n d k h (m_query ir DB nouser name args nx) =
    Some (hf, itf, map sto (firstn k (fst (queryF ir DB d name args (mkst h nx)))),
          if Nat.leb k (length (fst (queryF ir DB d name args (mkst h nx)))) then RYield
          else rend (snd (queryF ir DB d name args (mkst h nx))))
    /\ (length (fst (queryF ir DB d name args (mkst h nx))) < k -> hf = h).
Proof. intros H DB. apply machine_refines_irsem. eapply compiled_ir_ok; eauto. Qed.

Theorem compiled_machine_refines_facts_fuel p ir : compile_program p = Some ir ->
  forall DB d name args nx h k n hf itf ys r, wf h ->
  m_nexts ir DB nouser n d k h (m_query ir DB nouser name args nx) = Some (hf, itf, ys, r) ->
  ys = map sto (firstn k (fst (queryF ir DB d name args (mkst h nx)))) /\
  r = (if Nat.leb k (length (fst (queryF ir DB d name args (mkst h nx)))) then RYield
       else rend (snd (queryF ir DB d name args (mkst h nx)))).
Proof. intros H DB. intros. eapply machine_refines_irsem_fuel; eauto. eapply compiled_ir_ok; eauto. Qed.

(* without dynamic facts the big-step side IS Sem.Machine.query, the semantics of C01/C05/C06 *)
Theorem compiled_machine_refines_irsem p ir : compile_program p = Some ir ->
  forall d name args nx h k, wf h ->
  exists N hf itf, forall n, N <= n ->
    m_nexts ir nofacts nouser n d k h (m_query ir nofacts nouser name args nx) =
    Some (hf, itf, map sto (firstn k (fst (query d ir name args (mkst h nx)))),
          if Nat.leb k (length (fst (query d ir name args (mkst h nx)))) then RYield
          else rend (snd (query d ir name args (mkst h nx))))
    /\ (length (fst (query d ir name args (mkst h nx))) < k -> hf = h).
Proof.
  intros H d name args nx h k W.
  destruct (compiled_machine_refines_facts p ir H nofacts d name args nx h k W) as [N [hf [itf HN]]].
  unfold nofacts in HN at 3 4 5 6. rewrite !queryF_nofacts in HN. exists N, hf, itf. exact HN.
Qed.

Theorem compiled_machine_refines_irsem_fuel p ir : compile_program p = Some ir ->
  forall d name args nx h k n hf itf ys r, wf h ->
  m_nexts ir nofacts nouser n d k h (m_query ir nofacts nouser name args nx) = Some (hf, itf, ys, r) ->
  ys = map sto (firstn k (fst (query d ir name args (mkst h nx)))) /\
  r = (if Nat.leb k (length (fst (query d ir name args (mkst h nx)))) then RYield
       else rend (snd (query d ir name args (mkst h nx)))).
Proof.
  intros H d name args nx h k n hf itf ys r W E.
  destruct (compiled_machine_refines_facts_fuel p ir H nofacts d name args nx h k n hf itf ys r W E) as [A B].
  unfold nofacts in A, B. rewrite !queryF_nofacts in A, B. auto.
Qed.
